(* InvStake.v — properties C11 (stake bookkeeping) and C12 (release / refund rules) of Spec.v.

   C11 (A)  dels_ok_reachable, C11_sums_at_every_height, total_power_query: every delegatee of every
            reachable working state and of every committed version has total = sum of its stakes,
            self = sum of its owner's stakes, all stakes pointing to it; the query equals the sum.
       (B1) hashes_unique_run / hashes_unique_reachable: stake hashes stay unique as long as executed
            staking transactions carry fresh hashes; true from genesis with at most one validator.
       (B2) C11_collision_refuted: with two genesis validators (both stakes carry hash 0) both
            releasing in one block, one stake ends in neither ledger and is never refunded.
       (B3) stake_unchanged_step, stake_begin_block_fields, stake_begin_block_power: a stake keeps
            owner, target, hash, start; power only cut by BeginBlock slashing; deliver_never_loses,
            begin_block_never_loses: it is bonded or unbonding until refunded.
   C12 (C1) release_only_by_owner, unstake_only_owner, begin_block_release_cases.
       (C2) release_stamps_refund_height, force_release_stamps_refund_height, frozen_untouched,
            end_block_frozen_only_deletes.
       (C3) unfreeze_exact, refund_only_to_owner, refund_balance, power_to_amount_exact,
            refunded_entry_gone. *)
From Rigo Require Import Base.
From stdpp Require Import gmap sorting.
From Rigo Require Import Spec SpecProps SpecFacts.
From Rigo Require InvFail.
Local Open Scope Z_scope.
Local Opaque two256 two255 two64 two63.

Lemma dels_set_acct l a x : dels (set_acct l a x) = dels l. Proof. reflexivity. Qed.
Lemma frozen_set_acct l a x : frozen (set_acct l a x) = frozen l. Proof. reflexivity. Qed.
Lemma dels_set_dels l m : dels (set_dels l m) = m. Proof. reflexivity. Qed.
Lemma frozen_set_dels l m : frozen (set_dels l m) = frozen l. Proof. reflexivity. Qed.
Lemma accts_set_dels l m : accts (set_dels l m) = accts l. Proof. reflexivity. Qed.
Lemma dels_set_frozen l m : dels (set_frozen l m) = dels l. Proof. reflexivity. Qed.
Lemma frozen_set_frozen l m : frozen (set_frozen l m) = m. Proof. reflexivity. Qed.
Lemma accts_set_frozen l m : accts (set_frozen l m) = accts l. Proof. reflexivity. Qed.
Lemma dels_set_rewards l m : dels (set_rewards l m) = dels l. Proof. reflexivity. Qed.
Lemma frozen_set_rewards l m : frozen (set_rewards l m) = frozen l. Proof. reflexivity. Qed.
Lemma dels_set_props l m : dels (set_props l m) = dels l. Proof. reflexivity. Qed.
Lemma frozen_set_props l m : frozen (set_props l m) = frozen l. Proof. reflexivity. Qed.
Lemma accts_set_props l m : accts (set_props l m) = accts l. Proof. reflexivity. Qed.
Lemma dels_set_fprops l m : dels (set_fprops l m) = dels l. Proof. reflexivity. Qed.
Lemma frozen_set_fprops l m : frozen (set_fprops l m) = frozen l. Proof. reflexivity. Qed.
Lemma accts_set_fprops l m : accts (set_fprops l m) = accts l. Proof. reflexivity. Qed.
Lemma dels_set_lparams l m : dels (set_lparams l m) = dels l. Proof. reflexivity. Qed.
Lemma frozen_set_lparams l m : frozen (set_lparams l m) = frozen l. Proof. reflexivity. Qed.
Lemma accts_set_lparams l m : accts (set_lparams l m) = accts l. Proof. reflexivity. Qed.

Definition same_sf (l l' : ledgers) : Prop := dels l' = dels l ∧ frozen l' = frozen l.
Lemma same_sf_refl l : same_sf l l. Proof. split; reflexivity. Qed.
Lemma same_sf_trans l1 l2 l3 : same_sf l1 l2 → same_sf l2 l3 → same_sf l1 l3.
Proof. intros [H1 H2] [H3 H4]; split; congruence. Qed.
Lemma keeps_sf f l l' : keeps f l l' → f_dels f → f_frozen f → same_sf l l'.
Proof. intros H Hd Hf. split; [exact (keeps_dels _ _ _ H Hd) | exact (keeps_frozen _ _ _ H Hf)]. Qed.

(* ================================================================== 1. sums and stake lists *)
Lemma sum_power_of_app x a b : sum_power_of x (a ++ b) = sum_power_of x a + sum_power_of x b.
Proof. induction a as [|y a IH]; simpl; lia. Qed.

Lemma find_stake_spec h l s0 : find_stake h l = Some s0 → s0 ∈ l ∧ s_hash s0 = h.
Proof.
  induction l as [|s r IH]; simpl; [discriminate|].
  destruct (s_hash s =? h)%N eqn:E.
  - intros [= <-]. split; [left | apply N.eqb_eq, E].
  - intros H. destruct (IH H) as [H1 H2]. split; [right; exact H1 | exact H2].
Qed.

Lemma find_stake_none h l : find_stake h l = None → ∀ s, s ∈ l → s_hash s ≠ h.
Proof.
  induction l as [|s r IH]; simpl; intros Hf x Hx.
  - inversion Hx.
  - destruct (s_hash s =? h)%N eqn:E; [discriminate|].
    apply elem_of_cons in Hx as [-> | Hx]; [apply N.eqb_neq, E | apply IH; assumption].
Qed.

Lemma find_stake_some_of_elem h l s : s ∈ l → s_hash s = h → ∃ s0, find_stake h l = Some s0.
Proof.
  intros Hs Hh. destruct (find_stake h l) as [s0|] eqn:E; [eauto|].
  exfalso. eapply find_stake_none; eauto.
Qed.

Lemma find_remove_sum h l s0 : find_stake h l = Some s0 →
  sum_power (remove_stake h l) = sum_power l - s_power s0.
Proof.
  induction l as [|s r IH]; simpl; [discriminate|].
  destruct (s_hash s =? h)%N.
  - intros [= <-]. lia.
  - intros H. simpl. rewrite (IH H). lia.
Qed.

Lemma find_remove_sum_of x h l s0 : find_stake h l = Some s0 →
  sum_power_of x (remove_stake h l) = sum_power_of x l - (if (s_from s0 =? x)%N then s_power s0 else 0).
Proof.
  induction l as [|s r IH]; simpl; [discriminate|].
  destruct (s_hash s =? h)%N.
  - intros [= <-]. lia.
  - intros H. simpl. rewrite (IH H). lia.
Qed.

Lemma remove_stake_sublist h l : remove_stake h l `sublist_of` l.
Proof.
  induction l as [|s r IH]; simpl; [constructor|].
  destruct (s_hash s =? h)%N; [apply sublist_cons, reflexivity | apply sublist_skip, IH].
Qed.

Lemma sublist_elem {A} (l k : list A) x : l `sublist_of` k → x ∈ l → x ∈ k.
Proof. intros H Hx. exact (elem_of_submseteq _ _ _ Hx (sublist_submseteq _ _ H)). Qed.

Lemma sublist_Forall' {A} (P : A → Prop) (l k : list A) : l `sublist_of` k → Forall P k → Forall P l.
Proof. intros H Hk. rewrite Forall_forall in *. intros x Hx. apply Hk. eapply sublist_elem; eauto. Qed.

Lemma NoDup_fmap_inj {A B} (f : A → B) l x y : NoDup (f <$> l) → x ∈ l → y ∈ l → f x = f y → x = y.
Proof.
  intros Hnd [i Hi]%elem_of_list_lookup [j Hj]%elem_of_list_lookup E.
  assert (i = j) as ->; [|congruence].
  apply (proj1 (NoDup_alt _) Hnd i j (f x)); rewrite list_lookup_fmap; [rewrite Hi | rewrite Hj, E]; reflexivity.
Qed.

Lemma foldl_remove_sublist (rm l : list stake) :
  foldl (λ l s, remove_stake (s_hash s) l) l rm `sublist_of` l.
Proof.
  revert l; induction rm as [|s rm IH]; intros l; simpl; [reflexivity|].
  etrans; [apply IH | apply remove_stake_sublist].
Qed.

Lemma elem_of_concat {A} (x : A) (ls : list (list A)) : x ∈ concat ls ↔ ∃ l, l ∈ ls ∧ x ∈ l.
Proof.
  induction ls as [|l ls IH]; simpl.
  - split; [intros H; inversion H | intros (l & H & _); inversion H].
  - rewrite elem_of_app, IH. split.
    + intros [H | (l' & H1 & H2)]; [exists l; split; [left|assumption] | exists l'; split; [right|]; assumption].
    + intros (l' & H1 & H2). apply elem_of_cons in H1 as [-> | H1]; [left; assumption | right; eauto].
Qed.

Lemma elem_of_bonded l st : st ∈ bonded_stakes l ↔ ∃ a d, dels l !! a = Some d ∧ st ∈ d_stakes d.
Proof.
  unfold bonded_stakes. rewrite elem_of_concat. split.
  - intros (ss & H1 & H2). apply elem_of_list_fmap in H1 as ([a d] & -> & H1).
    apply elem_of_map_to_list in H1. eauto.
  - intros (a & d & H1 & H2). exists (d_stakes d). split; [|assumption].
    apply elem_of_list_fmap. exists (a, d). split; [reflexivity|]. apply elem_of_map_to_list; assumption.
Qed.

Lemma elem_of_frozen l st : st ∈ frozen_stakes l ↔ ∃ h, frozen l !! h = Some st.
Proof.
  unfold frozen_stakes. rewrite elem_of_list_fmap. split.
  - intros ([h s] & -> & H). apply elem_of_map_to_list in H. eauto.
  - intros (h & H). exists (h, st). split; [reflexivity | apply elem_of_map_to_list; assumption].
Qed.

(* ================================================================== 2. (A) delegatee bookkeeping *)
Definition dels_ok (l : ledgers) : Prop := ∀ a d, dels l !! a = Some d → delegatee_ok a d.

Definition dmap_ok (D : gmap addr delegatee) : Prop := ∀ a d, D !! a = Some d → delegatee_ok a d.

Lemma dmap_ok_insert D a d : dmap_ok D → delegatee_ok a d → dmap_ok (<[a := d]> D).
Proof.
  intros H Hd b e. destruct (decide (a = b)) as [<-|Hne].
  - rewrite lookup_insert. intros [= <-]. exact Hd.
  - rewrite lookup_insert_ne by assumption. apply H.
Qed.
Lemma dmap_ok_delete D a : dmap_ok D → dmap_ok (delete a D).
Proof. intros H b e Hl. apply lookup_delete_Some in Hl as [_ Hl]. eapply H; eauto. Qed.

Lemma dels_ok_same l l' : dels l' = dels l → dels_ok l → dels_ok l'.
Proof. unfold dels_ok; intros -> H; exact H. Qed.
Lemma dels_ok_insert l a d : dels_ok l → delegatee_ok a d → dels_ok (set_dels l (<[a := d]> (dels l))).
Proof. exact (dmap_ok_insert (dels l) a d). Qed.
Lemma dels_ok_delete l a : dels_ok l → dels_ok (set_dels l (delete a (dels l))).
Proof. exact (dmap_ok_delete (dels l) a). Qed.

Lemma new_delegatee_ok a : delegatee_ok a (new_delegatee a).
Proof. repeat split; constructor. Qed.

Lemma add_stake_ok a d s : delegatee_ok a d → s_to s = a → delegatee_ok a (add_stake d s).
Proof.
  intros (H1 & H2 & H3 & H4) Hs. unfold delegatee_ok, add_stake; simpl.
  split; [assumption|]. split; [rewrite sum_power_app; simpl; lia|]. split.
  - rewrite sum_power_of_app; simpl. unfold is_self. rewrite Hs. lia.
  - apply Forall_app; split; [assumption | constructor; [assumption | constructor]].
Qed.

Lemma del_stake_ok a d h : delegatee_ok a d → delegatee_ok a (del_stake d h).
Proof.
  intros (H1 & H2 & H3 & H4). unfold del_stake.
  destruct (find_stake h (d_stakes d)) as [s0|] eqn:E; [|repeat split; assumption].
  destruct (find_stake_spec _ _ _ E) as [Hin Hh].
  assert (Hto : s_to s0 = a) by (rewrite Forall_forall in H4; apply H4; assumption).
  unfold delegatee_ok; simpl. split; [assumption|]. split; [rewrite (find_remove_sum _ _ _ E); lia|]. split.
  - rewrite (find_remove_sum_of a _ _ _ E). unfold is_self. rewrite Hto. lia.
  - eapply sublist_Forall'; [apply remove_stake_sublist | assumption].
Qed.

(* DelAllStakes leaves d_self as it was: the result is consistent only if the self power was 0 *)
Lemma del_all_stakes_ok a d : delegatee_ok a d → d_self d = 0 → delegatee_ok a (del_all_stakes d).1.
Proof.
  intros (H1 & H2 & H3 & H4) H0. unfold delegatee_ok, del_all_stakes; simpl.
  split; [assumption|]. split; [lia|]. split; [assumption | constructor].
Qed.
Lemma del_all_stakes_total d : d_total d = sum_power (d_stakes d) → d_total (del_all_stakes d).1 = 0.
Proof. unfold del_all_stakes; simpl; lia. Qed.

Lemma slash_all_ok a d ratio : delegatee_ok a d → delegatee_ok a (slash_all d ratio).1.
Proof.
  intros (H1 & H2 & H3 & H4). unfold delegatee_ok, slash_all; simpl.
  split; [assumption|]. split; [reflexivity|]. split; [rewrite H1; reflexivity|].
  eapply sublist_Forall'; [apply foldl_remove_sublist|].
  apply Forall_fmap. eapply Forall_impl; [exact H4|].
  intros s Hs; simpl. destruct (_ <? _); [exact Hs | exact Hs].
Qed.

Lemma with_marks_ok a d m : delegatee_ok a d → delegatee_ok a (with_marks d m).
Proof. intros H; exact H. Qed.

(* ------------------------------------------------------------------ stake_execute, inverted *)
Definition unstake_result (D : gmap addr delegatee) (F : gmap hash stake) (a : addr) (d : delegatee)
    (hs : hash) (s0 : stake) (R : Z) : gmap addr delegatee * gmap hash stake :=
  let d1 := del_stake d hs in
  let fr1 := <[s_hash s0 := with_refund R s0]> F in
  let d2 := if d_self d1 =? 0 then (del_all_stakes d1).1 else d1 in
  let fr2 := if d_self d1 =? 0 then freeze_all fr1 R (d_stakes d1) else fr1 in
  (if d_total d2 =? 0 then delete a D else <[a := d2]> D, fr2).

Definition release_height (s : state) : Z := b_height (bctx s) + g_lazyRewardBlocks (gparams s).

Lemma acct_reward_inv l a amt l' :
  acct_reward l a amt = Some l' →
  ∃ x x', accts l !! a = Some x ∧ add_balance x amt = Some x' ∧ l' = set_acct l a x'.
Proof.
  unfold acct_reward. destruct (accts l !! a) as [x|]; [|discriminate]. cbn [mbind option_bind].
  destruct (add_balance x amt) as [x'|] eqn:E; [|discriminate]. cbn [mbind option_bind].
  intros [= <-]. exists x, x'. auto.
Qed.

Lemma stake_execute_cases s l t l' : stake_execute s l t = Ok l' →
  (t_type t = TRX_STAKING ∧ ∃ d sender sender',
      (dels l !! t_to t = Some d ∨ (dels l !! t_to t = None ∧ t_from t = t_to t ∧ d = new_delegatee (t_to t))) ∧
      accts l !! t_from t = Some sender ∧ sub_balance sender (t_amount t) = Some sender' ∧
      l' = set_dels (set_acct l (t_from t) sender')
             (<[t_to t := add_stake d (stake_of_tx t (b_height (bctx s)) (power_of (t_amount t)))]> (dels l)))
  ∨ (t_type t = TRX_UNSTAKING ∧ ∃ d hs b s0,
      dels l !! t_to t = Some d ∧ t_payload t = PUnstake hs b ∧ find_stake hs (d_stakes d) = Some s0 ∧
      s_from s0 = t_from t ∧
      l' = set_dels (set_frozen l (unstake_result (dels l) (frozen l) (t_to t) d hs s0 (release_height s)).2)
             (unstake_result (dels l) (frozen l) (t_to t) d hs s0 (release_height s)).1)
  ∨ (t_type t ≠ TRX_STAKING ∧ t_type t ≠ TRX_UNSTAKING ∧ ∃ req r r' x x',
      t_payload t = PWithdraw req ∧ rewards l !! t_from t = Some r ∧ accts l !! t_from t = Some x ∧
      add_balance x req = Some x' ∧
      l' = set_acct (set_rewards l (<[t_from t := r']> (rewards l))) (t_from t) x').
Proof.
  unfold stake_execute.
  destruct (t_type t =? TRX_STAKING) eqn:E1.
  { apply Z.eqb_eq in E1. cbv zeta. intros H. left. split; [assumption|].
    destruct (match dels l !! t_to t with Some d => Some d | None => _ end) as [d|] eqn:Ed; [|discriminate].
    destruct (accts l !! t_from t) as [sender|]; [|discriminate].
    destruct (sub_balance sender (t_amount t)) as [sender'|] eqn:Es; [|discriminate].
    injection H as <-. exists d, sender, sender'. split; [|split; [reflexivity|split; [exact Es|reflexivity]]].
    destruct (dels l !! t_to t) as [d0|]; [left; exact Ed|right].
    destruct (N.eqb_spec (t_from t) (t_to t)) as [Eft|]; [|discriminate].
    injection Ed as <-. rewrite Eft. auto. }
  apply Z.eqb_neq in E1.
  destruct (t_type t =? TRX_UNSTAKING) eqn:E2.
  { apply Z.eqb_eq in E2. intros H. right; left. split; [assumption|].
    destruct (dels l !! t_to t) as [d|] eqn:Ed; [|discriminate].
    destruct (t_payload t) as [|hs b| | | | |] eqn:Ep; try discriminate.
    destruct (find_stake hs (d_stakes d)) as [s0|] eqn:Ef; [|discriminate].
    destruct (negb (s_from s0 =? t_from t)%N) eqn:Eo; [discriminate|].
    apply negb_false_iff, N.eqb_eq in Eo.
    exists d, hs, b, s0. do 4 (split; [reflexivity || assumption|]).
    unfold unstake_result, release_height.
    destruct (d_self (del_stake d hs) =? 0) eqn:Es; simpl in H |- *.
    - destruct (_ =? 0) in H |- *; injection H as <-; reflexivity.
    - destruct (_ =? 0) in H |- *; injection H as <-; reflexivity. }
  apply Z.eqb_neq in E2. intros H. right; right. split; [assumption|]. split; [assumption|].
  destruct (t_payload t) as [| |req| | | |] eqn:Ep; try discriminate.
  destruct (rewards l !! t_from t) as [r|] eqn:Er; [|discriminate].
  destruct (r_height r >? b_height (bctx s)); [discriminate|].
  destruct (acct_reward _ _ _) as [l2|] eqn:Ew; [|discriminate]. injection H as <-.
  apply acct_reward_inv in Ew as (x & x' & Hx & Ha & ->). eexists req, r, _, x, x'. auto.
Qed.

Lemma stake_execute_inv s l t l' : stake_execute s l t = Ok l' →
  (t_type t = TRX_STAKING ∧ ∃ d,
      (dels l !! t_to t = Some d ∨ (dels l !! t_to t = None ∧ t_from t = t_to t ∧ d = new_delegatee (t_to t))) ∧
      dels l' = <[t_to t := add_stake d (stake_of_tx t (b_height (bctx s)) (power_of (t_amount t)))]> (dels l) ∧
      frozen l' = frozen l)
  ∨ (t_type t = TRX_UNSTAKING ∧ ∃ d hs b s0,
      dels l !! t_to t = Some d ∧ t_payload t = PUnstake hs b ∧ find_stake hs (d_stakes d) = Some s0 ∧
      s_from s0 = t_from t ∧
      dels l' = (unstake_result (dels l) (frozen l) (t_to t) d hs s0 (release_height s)).1 ∧
      frozen l' = (unstake_result (dels l) (frozen l) (t_to t) d hs s0 (release_height s)).2)
  ∨ (t_type t ≠ TRX_STAKING ∧ t_type t ≠ TRX_UNSTAKING ∧ same_sf l l').
Proof.
  intros H. destruct (stake_execute_cases _ _ _ _ H)
    as [(Hty & d & x & x' & Hd & _ & _ & ->)|[(Hty & d & hs & b & s0 & Hd & Hp & Hf & Ho & ->)|(H1 & H2 & req & r & r' & y & y' & _ & _ & _ & _ & ->)]].
  - left. split; [exact Hty|]. exists d. split; [exact Hd|]. split; reflexivity.
  - right; left. split; [exact Hty|]. exists d, hs, b, s0. do 4 (split; [assumption|]). split; reflexivity.
  - right; right. split; [exact H1|]. split; [exact H2|]. split; reflexivity.
Qed.

(* ------------------------------------------------------------------ deliver *)
Lemma exec_native_sf s2 t l' :
  InvFail.exec_native s2 t = Ok l' → same_sf (work s2) l' ∨ stake_execute s2 (work s2) t = Ok l'.
Proof.
  unfold InvFail.exec_native. cbv zeta. destruct (_ || _).
  - intros H. left. exact (keeps_sf _ _ _ (gov_execute_keeps _ _ _ _ H) I I).
  - destruct (_ || _); [|intros H; right; exact H].
    intros H. left. exact (keeps_sf _ _ _ (acct_execute_keeps _ _ _ H) I I).
Qed.

(* what a delivery can do to the stake ledgers: nothing, or what stake_execute did on a state
   with the same height and parameters; execution is reached only with a valid signature *)
Lemma deliver_frame s t s' r : deliver s t = (s', r) →
  committed s' = committed s ∧ gparams s' = gparams s ∧ newparams s' = newparams s ∧
  b_height (bctx s') = b_height (bctx s) ∧ last_height s' = last_height s ∧
  (same_sf (work s) (work s') ∨
   ∃ s2 l l', t_sigok t = true ∧ gparams s2 = gparams s ∧ b_height (bctx s2) = b_height (bctx s) ∧
      same_sf (work s) l ∧ stake_execute s2 l t = Ok l' ∧ same_sf l' (work s')).
Proof.
  intros H. destruct (InvFail.deliver_control _ _ _ _ H) as (lw & x & fee & n & Hs').
  do 5 (split; [rewrite Hs'; reflexivity|]). clear lw x fee n Hs'.
  pose proof (keeps_sf _ _ _ (find_or_new_keeps (work s) (t_to t)) I I) as Hpre.
  apply InvFail.deliver_cases in H.
  destruct H as [_|sender r _ _|sender lim' s' r _ Hv0 _ _ [r0 _|l' gas _ Hx|l' snd' _ Hx _ _|l' snd' snd'' _ Hx _ _]].
  - left. apply same_sf_refl.
  - left. exact Hpre.
  - left. exact Hpre.
  - left. exact (same_sf_trans _ _ _ Hpre (keeps_sf _ _ _ (evm_execute_keeps _ _ _ _ Hx) I I)).
  - apply exec_native_sf in Hx as [Hsf|Hex]; [left; exact (same_sf_trans _ _ _ Hpre Hsf)|].
    right. eexists _, _, l'. destruct (InvFail.cv0_none _ _ Hv0) as (_ & _ & _ & _ & _ & _ & _ & Hsig).
    split; [exact Hsig|]. do 2 (split; [reflexivity|]). split; [exact Hpre|]. split; [exact Hex|apply same_sf_refl].
  - apply exec_native_sf in Hx as [Hsf|Hex]; [left; exact (same_sf_trans _ _ _ Hpre Hsf)|].
    right. eexists _, _, l'. destruct (InvFail.cv0_none _ _ Hv0) as (_ & _ & _ & _ & _ & _ & _ & Hsig).
    split; [exact Hsig|]. do 2 (split; [reflexivity|]). split; [exact Hpre|]. split; [exact Hex|split; reflexivity].
Qed.

Lemma deliver_stake_cases s t s' r : deliver s t = (s', r) →
  same_sf (work s) (work s') ∨
  (t_type t = TRX_STAKING ∧ t_sigok t = true ∧ ∃ d,
     (dels (work s) !! t_to t = Some d ∨
      (dels (work s) !! t_to t = None ∧ t_from t = t_to t ∧ d = new_delegatee (t_to t))) ∧
     dels (work s') = <[t_to t := add_stake d (stake_of_tx t (b_height (bctx s)) (power_of (t_amount t)))]> (dels (work s)) ∧
     frozen (work s') = frozen (work s)) ∨
  (t_type t = TRX_UNSTAKING ∧ t_sigok t = true ∧ ∃ d hs b s0,
     dels (work s) !! t_to t = Some d ∧ t_payload t = PUnstake hs b ∧ find_stake hs (d_stakes d) = Some s0 ∧
     s_from s0 = t_from t ∧
     dels (work s') = (unstake_result (dels (work s)) (frozen (work s)) (t_to t) d hs s0 (release_height s)).1 ∧
     frozen (work s') = (unstake_result (dels (work s)) (frozen (work s)) (t_to t) d hs s0 (release_height s)).2).
Proof.
  intros H.
  apply deliver_frame in H as (_ & _ & _ & _ & _ & [Hsf | (s2 & l & l' & Hsig & Hg & Hh & [HD HF] & Hex & [HD' HF'])]);
    [left; exact Hsf|].
  assert (HR : release_height s2 = release_height s) by (unfold release_height; congruence).
  apply stake_execute_inv in Hex as [(Hty & d & Hd & HDl & HFl) | [(Hty & d & hs & b & s0 & Hd & Hp & Hf & Ho & HDl & HFl) | (_ & _ & HDl & HFl)]].
  - right; left. split; [exact Hty|]. split; [exact Hsig|]. exists d. rewrite HD in Hd, HDl. rewrite Hh in HDl.
    split; [exact Hd|]. split; congruence.
  - right; right. split; [exact Hty|]. split; [exact Hsig|]. exists d, hs, b, s0.
    rewrite HD, HF, HR in HDl, HFl. rewrite HD in Hd. do 4 (split; [assumption|]). split; congruence.
  - left. split; congruence.
Qed.

(* ------------------------------------------------------------------ dels_ok is preserved *)
Lemma unstake_result_ok D F a d hs s0 R :
  dmap_ok D → D !! a = Some d → dmap_ok (unstake_result D F a d hs s0 R).1.
Proof.
  intros HD Hd. unfold unstake_result; cbv zeta; simpl.
  pose proof (del_stake_ok a d hs (HD _ _ Hd)) as H1.
  destruct (d_total _ =? 0); [apply dmap_ok_delete; assumption|].
  apply dmap_ok_insert; [assumption|].
  destruct (d_self (del_stake d hs) =? 0) eqn:Es; [|assumption].
  apply Z.eqb_eq in Es. apply del_all_stakes_ok; assumption.
Qed.

(* after a forced release the emptied delegatee has total 0
   and is therefore deleted, so the stale self power never survives *)
Lemma unstake_forced_deleted D F a d hs s0 R :
  delegatee_ok a d → d_self (del_stake d hs) = 0 →
  (unstake_result D F a d hs s0 R).1 = delete a D.
Proof.
  intros Hd Hs. unfold unstake_result; cbv zeta; simpl.
  rewrite Hs; simpl.
  destruct (del_stake_ok a d hs Hd) as (_ & Ht & _).
  replace (d_total (del_stake d hs) - sum_power (d_stakes (del_stake d hs))) with 0 by lia.
  reflexivity.
Qed.

Lemma unstake_result_lookup_ne D F a d hs s0 R a' : a' ≠ a → (unstake_result D F a d hs s0 R).1 !! a' = D !! a'.
Proof.
  intros Hne. unfold unstake_result; cbv zeta; simpl.
  destruct (_ =? 0); [apply lookup_delete_ne | apply lookup_insert_ne]; congruence.
Qed.

Lemma unstake_result_lookup_eq D F a d hs s0 R d' :
  find_stake hs (d_stakes d) = Some s0 → (unstake_result D F a d hs s0 R).1 !! a = Some d' →
  d_stakes d' `sublist_of` remove_stake hs (d_stakes d) ∧ (d_self (del_stake d hs) = 0 → d_stakes d' = []).
Proof.
  intros Hf. unfold unstake_result; cbv zeta; simpl.
  destruct (_ =? 0) eqn:Et; [rewrite lookup_delete; discriminate|].
  rewrite lookup_insert. intros [= <-].
  destruct (d_self (del_stake d hs) =? 0) eqn:Es.
  - simpl. split; [apply sublist_nil_l | reflexivity].
  - apply Z.eqb_neq in Es. unfold del_stake in *. rewrite Hf in *. simpl in *. split; [reflexivity | contradiction].
Qed.

Lemma deliver_dels_ok s t : dels_ok (work s) → dels_ok (work (deliver s t).1).
Proof.
  intros Hok. destruct (deliver s t) as [s' r] eqn:E. simpl.
  apply deliver_stake_cases in E as [[HD _] | [(_ & _ & d & Hd & HD & _) | (_ & _ & d & hs & b & s0 & Hd & _ & _ & _ & HD & _)]].
  - eapply dels_ok_same; eassumption.
  - unfold dels_ok. rewrite HD. apply dmap_ok_insert; [exact Hok|]. apply add_stake_ok; [|reflexivity].
    destruct Hd as [Hd | (_ & _ & ->)]; [exact (Hok _ _ Hd) | apply new_delegatee_ok].
  - unfold dels_ok. rewrite HD. apply unstake_result_ok; assumption.
Qed.

(* ------------------------------------------------------------------ begin_block, as a closure principle *)
Lemma stake_punish_ind (P : ledgers → Prop) l ratio evi :
  P l →
  (∀ l a d, a ∈ evi → P l → dels l !! a = Some d → P (set_dels l (<[a := (slash_all d ratio).1]> (dels l)))) →
  P (stake_punish l ratio evi).
Proof.
  intros Hl Hstep. unfold stake_punish. apply (foldl_inv _ P); [|exact Hl].
  intros l1 a Ha H1. destruct (dels l1 !! a) as [d|] eqn:E; [apply Hstep; assumption | exact H1].
Qed.

Definition jail (l : ledgers) (a : addr) (d : delegatee) (R : Z) : ledgers :=
  set_dels (set_frozen l (freeze_all (frozen l) R (d_stakes d))) (delete a (dels l)).

Lemma process_votes_ind (P : ledgers → Prop) s l h votes l' iss :
  process_votes s l h votes = Ok (l', iss) → P l →
  (∀ l rw, P l → P (set_rewards l rw)) →
  (∀ l a d m, P l → dels l !! a = Some d → P (set_dels l (<[a := with_marks d m]> (dels l)))) →
  (∀ l a d, (∃ pw, (a, pw, false) ∈ votes) → P l → dels l !! a = Some d →
     P (jail l a d (h + g_lazyRewardBlocks (gparams s)))) →
  P l'.
Proof.
  intros Hpv Hl Hrw Hmk Hjl. rewrite process_votes_eq in Hpv.
  destruct (ledgers_at s (hgt_of_power h)) as [old|]; [|discriminate].
  apply (foldl_res_inv (λ x, P x.1) _ _ (res_stuck_vote _ _ _)) with (a := (l, 0)) in Hpv; [exact Hpv| |exact Hl].
  intros [l1 i1] [[a pw] signed] [l2 i2] Hin H1. cbn [fst vote_step]. destruct signed.
  - destruct (dels old !! a) as [d|]; [|intros [= <- _]; exact H1].
    destruct (negb _); [intros [= <- _]; exact H1|].
    destruct (reward_to _ _ _ _) as [[rw iss']| |]; try discriminate. intros [= <- _]. apply Hrw, H1.
  - intros [= <- _]. unfold jail_step. destruct (dels l1 !! a) as [d|] eqn:Ed; [|exact H1]. cbv zeta.
    destruct (count_in_window _ _ _) as [cnt m2]. pose proof (Hmk l1 a d m2 H1 Ed) as H2.
    destruct (_ <? g_minSignedBlocks _); [|exact H2].
    apply (Hjl _ a (with_marks d m2)) in H2; [exact H2 | exists pw; exact Hin | apply lookup_insert].
Qed.

(* [P] must only look at the stake ledgers *)
Lemma begin_block_ind (P : ledgers → Prop) s hd :
  (∀ l l', same_sf l l' → P l → P l') →
  P (work s) →
  (∀ l a d, a ∈ h_evidence hd → P l → dels l !! a = Some d →
     P (set_dels l (<[a := (slash_all d (g_slashRatio (gparams s))).1]> (dels l)))) →
  (∀ l a d m, P l → dels l !! a = Some d → P (set_dels l (<[a := with_marks d m]> (dels l)))) →
  (∀ l a d, (∃ pw, (a, pw, false) ∈ h_votes hd) → P l → dels l !! a = Some d →
     P (jail l a d (h_height hd + g_lazyRewardBlocks (gparams s)))) →
  P (work (begin_block s hd).1).
Proof.
  intros Hsf Hl Hsl Hmk Hjl. destruct (begin_block s hd) as [s' r] eqn:H. cbn [fst].
  assert (H2 : P (work (begun s hd))).
  { exact (stake_punish_ind P _ _ _ (Hsf _ _ (keeps_sf _ _ _ (gov_punish_keeps _ _ _) I I) Hl) Hsl). }
  apply begin_block_cases in H.
  destruct H as [_|_ _|l issued _ _ Hv|e _ _ _|p _ _ _]; [exact Hl|exact H2| |exact H2..].
  eapply process_votes_ind; [exact Hv | exact H2 | | exact Hmk | exact Hjl].
  intros l0 rw Hp. eapply Hsf; [|exact Hp]. split; reflexivity.
Qed.

Lemma begin_block_ctl s hd : committed (begin_block s hd).1 = committed s ∧ gparams (begin_block s hd).1 = gparams s.
Proof.
  destruct (begin_block s hd) as [s' r] eqn:H.
  destruct (begin_block_control _ _ _ _ H) as [->|(_ & l & ->)]; split; reflexivity.
Qed.

Lemma begin_block_dels_ok s hd : dels_ok (work s) → dels_ok (work (begin_block s hd).1).
Proof.
  intros Hok. apply begin_block_ind.
  - intros l l' [HD _]. apply dels_ok_same; assumption.
  - exact Hok.
  - intros l a d _ Hl Hd. apply dels_ok_insert; [exact Hl|]. apply slash_all_ok. eapply Hl; eassumption.
  - intros l a d m Hl Hd. apply dels_ok_insert; [exact Hl|]. apply with_marks_ok. eapply Hl; eassumption.
  - intros l a d _ Hl _. exact (dmap_ok_delete (dels l) a Hl).
Qed.

(* ------------------------------------------------------------------ end_block *)
(* Account.AddBalance's effect *)
Definition credit (x : account) (amt : Z) : account :=
  {| a_nonce := a_nonce x; a_bal := add256 (a_bal x) amt; a_code := a_code x; a_name := a_name x; a_doc := a_doc x |}.
Lemma add_balance_credit x amt x' : add_balance x amt = Some x' → x' = credit x amt.
Proof. unfold add_balance. destruct (sign256 amt <? 0); [discriminate|]. intros [= <-]; reflexivity. Qed.

Lemma proposer_paid_acct b l l' : proposer_paid b l l' →
  (∀ a, b_proposer b ≠ Some a → acct_of l' a = acct_of l a) ∧
  (∀ pa, b_proposer b = Some pa →
     acct_of l' pa = if 0 <? sign256 (b_feesum b) then credit (acct_of l pa) (b_feesum b) else acct_of l pa).
Proof.
  intros [Hn|pa Hp Hf|pa x Hp Hf Hx].
  - split; [intros a _; reflexivity|]. intros pa. rewrite Hn. discriminate.
  - split; [intros a _; reflexivity|]. intros pa' _. rewrite Hf. reflexivity.
  - apply add_balance_credit in Hx. split.
    + intros a Ha. rewrite acct_of_set_acct. destruct (decide (pa = a)) as [->|]; [congruence|reflexivity].
    + intros pa'. rewrite Hp, Hf. intros [= <-]. rewrite acct_of_set_acct.
      destruct (decide (pa = pa)); [exact Hx|congruence].
Qed.

Lemma end_block_inv s s' r : end_block s = (s', r) →
  (s' = s ∧ ∀ ups, r ≠ Ok ups) ∨
  ∃ ups l3, r = Ok ups ∧ same_sf (work s) l3 ∧
    (∀ a, b_proposer (bctx s) ≠ Some a → acct_of l3 a = acct_of (work s) a) ∧
    (∀ pa, b_proposer (bctx s) = Some pa →
       acct_of l3 pa = if 0 <? sign256 (b_feesum (bctx s)) then credit (acct_of (work s) pa) (b_feesum (bctx s))
                       else acct_of (work s) pa) ∧
    unfreeze (base_of s) l3 (b_height (bctx s)) = Ok (work s') ∧
    committed s' = committed s ∧ gparams s' = gparams s ∧ bctx s' = bctx s ∧ last_height s' = last_height s.
Proof.
  intros H. apply end_block_cases in H. destruct H as [r Hr|l1 l2 np l3 l4 H1 H2 H3 H4 _].
  { left. split; [reflexivity|exact Hr]. }
  right. eexists _, l3. split; [reflexivity|].
  (* the governance phase leaves accounts and stakes alone *)
  pose proof (keeps_seq _ _ _ _ _ (freeze_proposals_keeps _ _ _ _ H1) (apply_proposals_keeps _ _ _ _ _ _ H2)) as K.
  assert (Hacct : ∀ a, acct_of l2 a = acct_of (work s) a).
  { intros a. unfold acct_of. rewrite (keeps_accts _ _ _ K I). reflexivity. }
  destruct (proposer_paid_acct _ _ _ H3) as [Hoth Hprop].
  split; [exact (keeps_sf _ _ _ (keeps_seq _ _ _ _ _ K (proposer_paid_keeps _ _ _ H3)) I I)|].
  split; [intros a Ha; rewrite <- Hacct; exact (Hoth a Ha)|].
  split; [intros pa Hp; rewrite <- Hacct; exact (Hprop pa Hp)|].
  split; [exact H4|]. repeat split.
Qed.

(* ------------------------------------------------------------------ unfreeze (C12: the refund) *)
Definition matured (h : Z) (kp : hash * stake) : bool := s_refund kp.2 <=? h.
Definition refunds_to (h : Z) (a : addr) (items : list (hash * stake)) : list Z :=
  (λ kp : hash * stake, power_to_amount (s_power kp.2)) <$>
    List.filter (λ kp : hash * stake, matured h kp && (s_from kp.2 =? a)%N) items.

Lemma unfreeze_list_spec h items : ∀ l l', foldl (unfreeze_step h) (Ok l) items = Ok l' →
  dels l' = dels l ∧
  (∀ k, frozen l' !! k =
        if existsb (λ kp : hash * stake, (kp.1 =? k)%N && matured h kp) items then None else frozen l !! k) ∧
  (∀ a, acct_of l' a = foldl credit (acct_of l a) (refunds_to h a items)).
Proof.
  induction items as [|kp items IH]; intros l l'; simpl.
  { intros [= <-]. split; [reflexivity|]. split; reflexivity. }
  unfold refunds_to; simpl. fold (matured h kp).
  destruct (matured h kp) eqn:Em; simpl.
  2:{ intros H. destruct (IH _ _ H) as (H1 & H2 & H3). split; [exact H1|]. split.
      - intros k. rewrite andb_false_r; simpl. apply H2.
      - exact H3. }
  unfold acct_reward.
  destruct (accts l !! s_from kp.2) as [x|] eqn:Ex; simpl;
    [|rewrite foldl_res_panic by reflexivity; discriminate].
  destruct (add_balance x _) as [x'|] eqn:Eadd; simpl;
    [|rewrite foldl_res_panic by reflexivity; discriminate].
  apply add_balance_credit in Eadd.
  intros H. destruct (IH _ _ H) as (H1 & H2 & H3). clear IH H.
  split; [exact H1|]. split.
  - intros k. rewrite H2; simpl. rewrite andb_true_r.
    destruct (kp.1 =? k)%N eqn:Ek; simpl.
    + apply N.eqb_eq in Ek. subst k. destruct (existsb _ items); [reflexivity | apply lookup_delete].
    + apply N.eqb_neq in Ek. rewrite lookup_delete_ne by assumption. reflexivity.
  - intros a. rewrite H3. fold (refunds_to h a items).
    replace (acct_of (set_frozen (set_acct l (s_from kp.2) x') _) a) with (acct_of (set_acct l (s_from kp.2) x') a) by reflexivity.
    rewrite acct_of_set_acct.
    destruct (s_from kp.2 =? a)%N eqn:Ea; simpl.
    + apply N.eqb_eq in Ea. destruct (decide (s_from kp.2 = a)); [|contradiction].
      subst a. unfold acct_of. rewrite Ex; simpl. rewrite Eadd. reflexivity.
    + apply N.eqb_neq in Ea. destruct (decide (s_from kp.2 = a)); [contradiction|]. reflexivity.
Qed.

Lemma end_block_stakes s :
  dels (work (end_block s).1) = dels (work s) ∧
  ∀ k x, frozen (work (end_block s).1) !! k = Some x → frozen (work s) !! k = Some x.
Proof.
  destruct (end_block s) as [s' r] eqn:E; simpl.
  apply end_block_inv in E as [[-> _] | (ups & l3 & _ & [HD HF] & _ & _ & Hun & _)]; [split; [reflexivity | auto]|].
  rewrite unfreeze_eq in Hun. apply unfreeze_list_spec in Hun as (HD' & HF' & _).
  split; [congruence|]. intros k x. rewrite HF'. destruct (existsb _ _); [discriminate | rewrite HF; auto].
Qed.

Lemma end_block_dels s : dels (work (end_block s).1) = dels (work s).
Proof. apply end_block_stakes. Qed.

(* ------------------------------------------------------------------ (A) the invariant on every reachable state *)
Lemma end_block_dels_ok s : dels_ok (work s) → dels_ok (work (end_block s).1).
Proof. apply dels_ok_same, end_block_dels. Qed.

Lemma commit_work s : work (commit s) = work s. Proof. reflexivity. Qed.

Definition genesis_stake (v : addr * Z) : stake :=
  {| s_from := v.1; s_to := v.1; s_hash := 0%N; s_start := 1; s_refund := 0; s_power := v.2 |}.

(* InitChain writes the holders' and validators' accounts first, then one delegatee per validator *)
Lemma init_chain_pre_sf g : ∃ l2, same_sf (empty_ledgers (gen_params g)) l2 ∧
  work (init_chain g) =
    foldl (λ l v, set_dels l (<[v.1 := add_stake (new_delegatee v.1) (genesis_stake v)]> (dels l))) l2 (gen_validators g).
Proof.
  eexists. split; [|reflexivity].
  apply (foldl_inv _ (same_sf (empty_ledgers (gen_params g)))).
  - intros l v _ H. exact (same_sf_trans _ _ _ H (keeps_sf _ _ _ (find_or_new_keeps l v.1) I I)).
  - apply (foldl_inv _ (same_sf (empty_ledgers (gen_params g)))); [|apply same_sf_refl].
    intros l h _ H. exact (same_sf_trans _ _ _ H (keeps_sf _ _ _ (keeps_set_acct l _ _) I I)).
Qed.

Lemma genesis_delegatee_ok v : delegatee_ok v.1 (add_stake (new_delegatee v.1) (genesis_stake v)).
Proof. apply add_stake_ok; [apply new_delegatee_ok | reflexivity]. Qed.

Lemma init_chain_dels_ok g : dels_ok (work (init_chain g)).
Proof.
  destruct (init_chain_pre_sf g) as (l2 & [HD _] & ->).
  apply (foldl_inv _ dels_ok).
  - intros l v _ Hl. apply dels_ok_insert; [exact Hl | apply genesis_delegatee_ok].
  - intros a d. rewrite HD. simpl. rewrite lookup_empty. discriminate.
Qed.

Lemma sstep_dels_ok s o : dels_ok (work s) → dels_ok (work (sstep s o)).
Proof.
  destruct o as [hd|t| |]; simpl.
  - apply begin_block_dels_ok.
  - apply deliver_dels_ok.
  - apply end_block_dels_ok.
  - intros H; exact H.
Qed.

Lemma sstep_committed s o :
  committed (sstep s o) = committed s ∨ (o = SCommit ∧ committed (sstep s o) = committed s ++ [work s]).
Proof.
  destruct o as [hd|t| |]; simpl.
  - left. apply begin_block_ctl.
  - left. destruct (deliver s t) as [s' r] eqn:E. apply deliver_frame in E as (H & _). exact H.
  - left. destruct (end_block s) as [s' r] eqn:E.
    apply end_block_inv in E as [[-> _] | (ups & l3 & _ & _ & _ & _ & _ & H & _)]; [reflexivity | exact H].
  - right. split; reflexivity.
Qed.

Theorem dels_ok_reachable g ops :
  dels_ok (work (srun (init_chain g) ops)) ∧ Forall dels_ok (committed (srun (init_chain g) ops)).
Proof.
  apply (srun_inv (λ s, dels_ok (work s) ∧ Forall dels_ok (committed s))).
  - intros s o [Hw Hc]. split; [apply sstep_dels_ok, Hw|].
    destruct (sstep_committed s o) as [-> | [_ ->]]; [exact Hc|].
    apply Forall_app. split; [exact Hc|]. constructor; [exact Hw | constructor].
  - split; [apply init_chain_dels_ok | constructor].
Qed.
Print Assumptions dels_ok_reachable.

(* C11, first sentence, spelled out at every committed height *)
Corollary C11_sums_at_every_height g ops v l a d :
  committed (srun (init_chain g) ops) !! v = Some l → dels l !! a = Some d →
  d_total d = sum_power (d_stakes d) ∧ d_self d = sum_power_of a (d_stakes d) ∧
  d_addr d = a ∧ Forall (λ s, s_to s = a) (d_stakes d).
Proof.
  intros Hv Hd. destruct (dels_ok_reachable g ops) as [_ Hc].
  rewrite Forall_forall in Hc. pose proof (Hc l (elem_of_list_lookup_2 _ _ _ Hv) a d Hd) as (H1 & H2 & H3 & H4).
  auto.
Qed.

Lemma total_power_list (L : list (addr * delegatee)) :
  Forall (λ kv, d_total kv.2 = sum_power (d_stakes kv.2)) L →
  sumZ_with (λ kv : addr * delegatee, d_total kv.2) L
  = sum_power (concat ((λ kv : addr * delegatee, d_stakes kv.2) <$> L)).
Proof.
  induction 1 as [|kv L Hkv _ IH]; simpl; [reflexivity|].
  rewrite sum_power_app. f_equal; [exact Hkv | exact IH].
Qed.

(* the total-power query is the sum of all bonded powers *)
Theorem total_power_query l : dels_ok l →
  sumZ_with (λ kv : addr * delegatee, d_total kv.2) (map_to_list (dels l)) = bonded_power l.
Proof.
  intros Hok. unfold bonded_power, bonded_stakes. apply total_power_list.
  apply Forall_forall. intros [a d] Hin. apply elem_of_map_to_list in Hin.
  destruct (Hok a d Hin) as (_ & H & _). exact H.
Qed.
Print Assumptions total_power_query.

Corollary total_power_query_reachable g ops :
  let l := work (srun (init_chain g) ops) in
  sumZ_with (λ kv : addr * delegatee, d_total kv.2) (map_to_list (dels l)) = bonded_power l.
Proof. apply total_power_query, dels_ok_reachable. Qed.

(* ================================================================== 3. (B2) the genesis-hash collision *)
Definition ex_params : params := {|
  g_version := 1; g_maxValidatorCnt := 10; g_minValidatorStake := 1000000000000000000; g_minDelegatorStake := 0;
  g_rewardPerPower := 1; g_lazyRewardBlocks := 2; g_lazyApplyingBlocks := 1; g_gasPrice := 1;
  g_minTrxGas := 10; g_maxTrxGas := 1000; g_maxBlockGas := 100000; g_minVotingPeriodBlocks := 1;
  g_maxVotingPeriodBlocks := 100; g_minSelfStakeRatio := 50; g_maxUpdatableStakeRatio := 30;
  g_maxIndividualStakeRatio := 100; g_slashRatio := 50; g_signedBlocksWindow := 100; g_minSignedBlocks := 10 |}.

Definition ex_unstake (from : addr) (h : hash) (nonce : Z) (txh : hash) : tx := {|
  t_type := TRX_UNSTAKING; t_from := from; t_to := from; t_from_ok := true; t_to_ok := true;
  t_amount := 0; t_price := 1; t_gas := 10; t_nonce := nonce; t_payload := PUnstake h true; t_hash := txh;
  t_sigok := true; t_evm := None |}.

Definition ex_header (h : Z) : header :=
  {| h_height := h; h_proposer := Some 1%N; h_votes := []; h_evidence := [] |}.

Definition collision_genesis : genesis :=
  {| gen_params := ex_params; gen_holders := [(1%N, 1000); (2%N, 1000)]; gen_validators := [(1%N, 10); (2%N, 10)] |}.
(* block 1: both validators release their genesis stake (hash 0) *)
Definition collision_block1 : list sop :=
  [SBegin (ex_header 1); SDeliver (ex_unstake 1%N 0%N 0 101%N); SDeliver (ex_unstake 2%N 0%N 0 102%N); SEnd; SCommit].
(* blocks 2 and 3: empty; the unbonding period (2 blocks) ends at height 3 *)
Definition collision_block23 : list sop :=
  [SBegin (ex_header 2); SEnd; SCommit; SBegin (ex_header 3); SEnd; SCommit].

Definition all_ok (s : state) (ops : list sop) : bool :=
  (fix go s ops := match ops with [] => true | o :: r =>
     match o with
     | SDeliver t => match (deliver s t).2 with Ok _ => true | _ => false end
     | _ => sstep_ok s o end && go (sstep s o) r end) s ops.

(* a conjunction of closed facts about one run: one evaluation for all conjuncts (so keep the run
   let-bound or a constant); afterwards both sides of every equation are the same normal form.
   Split conjunctions only: [split] on an equation would try [eq_refl] with the lazy machine *)
Ltac vm_conj := vm_compute; repeat (match goal with |- _ ∧ _ => split end); reflexivity.

Theorem C11_collision_refuted : ∃ g ops1 ops2,
  let s0 := init_chain g in let s1 := srun s0 ops1 in let s2 := srun s1 ops2 in
  length (gen_validators g) = 2%nat ∧
  (* every operation, every transaction included, succeeds; no evidence, no missed votes *)
  all_ok s0 (ops1 ++ ops2) = true ∧
  ¬ hashes_unique (work s0) ∧
  (* after block 1 one of the two stakes is in neither place although nothing was refunded *)
  bonded_power (work s0) + frozen_power (work s0) = 20 ∧
  bonded_power (work s1) + frozen_power (work s1) = 10 ∧
  total_balance (work s1) = total_balance (work s0) ∧
  bal_of (work s1) 1%N = 1000 + 10 ∧ bal_of (work s1) 2%N = 1000 - 10 ∧
  bonded_stakes (work s1) = [] ∧
  frozen_stakes (work s1) = [with_refund 3 (genesis_stake (2%N, 10))] ∧
  supply (work s1) = supply (work s0) - 10 * amountPerPower ∧
  (* after the unbonding period only validator 2 is paid back *)
  bonded_power (work s2) + frozen_power (work s2) = 0 ∧
  bal_of (work s2) 1%N = 1000 + 10 ∧
  bal_of (work s2) 2%N = 1000 - 10 + 10 * amountPerPower ∧
  supply (work s2) = supply (work s0) - 10 * amountPerPower.
Proof.
  exists collision_genesis, collision_block1, collision_block23.
  intros s0 s1 s2. split; [reflexivity|]. split; [vm_compute; reflexivity|]. split.
  { intros [H _]. vm_compute in H. inversion H as [|x xs Hnin _]. apply Hnin. left. }
  vm_conj.
Qed.
Print Assumptions C11_collision_refuted.

(* ================================================================== 4. hash uniqueness, pointwise *)
Definition hu_pt (l : ledgers) : Prop :=
  (∀ a d, dels l !! a = Some d → NoDup (s_hash <$> d_stakes d)) ∧
  (∀ a1 a2 d1 d2 s1 s2, dels l !! a1 = Some d1 → dels l !! a2 = Some d2 →
     s1 ∈ d_stakes d1 → s2 ∈ d_stakes d2 → s_hash s1 = s_hash s2 → a1 = a2) ∧
  (∀ a d s k x, dels l !! a = Some d → s ∈ d_stakes d → frozen l !! k = Some x → s_hash s ≠ k) ∧
  (∀ k x, frozen l !! k = Some x → s_hash x = k).

Lemma elem_of_hashes_concat (L : list (addr * delegatee)) h :
  h ∈ s_hash <$> concat ((λ kv : addr * delegatee, d_stakes kv.2) <$> L) ↔
  ∃ kv s, kv ∈ L ∧ s ∈ d_stakes kv.2 ∧ s_hash s = h.
Proof.
  rewrite elem_of_list_fmap. split.
  - intros (s & -> & Hs). apply elem_of_concat in Hs as (ss & Hss & Hs).
    apply elem_of_list_fmap in Hss as (kv & -> & Hkv). eauto.
  - intros (kv & s & Hkv & Hs & <-). exists s. split; [reflexivity|].
    apply elem_of_concat. exists (d_stakes kv.2). split; [|assumption].
    apply elem_of_list_fmap. eauto.
Qed.

Lemma NoDup_hashes_concat (L : list (addr * delegatee)) : NoDup L.*1 →
  (NoDup (s_hash <$> concat ((λ kv : addr * delegatee, d_stakes kv.2) <$> L)) ↔
   (∀ kv, kv ∈ L → NoDup (s_hash <$> d_stakes kv.2)) ∧
   (∀ kv1 kv2 s1 s2, kv1 ∈ L → kv2 ∈ L → s1 ∈ d_stakes kv1.2 → s2 ∈ d_stakes kv2.2 →
      s_hash s1 = s_hash s2 → kv1.1 = kv2.1)).
Proof.
  induction L as [|kv L IH]; intros Hnd.
  { simpl. split; [intros _; split; [intros ? H; inversion H | intros ? ? ? ? H; inversion H] | intros _; constructor]. }
  rewrite fmap_cons in Hnd. apply NoDup_cons in Hnd as [Hkv Hnd]. specialize (IH Hnd).
  rewrite fmap_cons. simpl concat. rewrite fmap_app, NoDup_app, IH. clear IH. split.
  - intros (H1 & H2 & H3 & H4). split.
    + intros kv' Hin. apply elem_of_cons in Hin as [-> | Hin]; [exact H1 | apply H3, Hin].
    + intros kv1 kv2 s1 s2 Hin1 Hin2 Hs1 Hs2 Heq.
      apply elem_of_cons in Hin1 as [-> | Hin1]; apply elem_of_cons in Hin2 as [-> | Hin2].
      * reflexivity.
      * exfalso. apply (H2 (s_hash s1)); [apply elem_of_list_fmap; eauto|].
        apply elem_of_hashes_concat. exists kv2, s2. auto.
      * exfalso. apply (H2 (s_hash s2)); [apply elem_of_list_fmap; eauto|].
        apply elem_of_hashes_concat. exists kv1, s1. auto.
      * eapply H4; eassumption.
  - intros (H1 & H2). split; [apply H1; left|]. split; [|split].
    + intros h Hh Hh'. apply elem_of_list_fmap in Hh as (s1 & -> & Hs1).
      apply elem_of_hashes_concat in Hh' as (kv2 & s2 & Hin2 & Hs2 & Heq).
      apply Hkv. apply elem_of_list_fmap. exists kv2. split; [|assumption].
      eapply (H2 kv kv2 s1 s2); [left | right; assumption | assumption | assumption | symmetry; assumption].
    + intros kv' Hin. apply H1. right; assumption.
    + intros kv1 kv2 s1 s2 Hin1 Hin2. apply H2; right; assumption.
Qed.

Lemma frozen_hashes_keys l : (∀ k x, frozen l !! k = Some x → s_hash x = k) →
  s_hash <$> frozen_stakes l = (map_to_list (frozen l)).*1.
Proof.
  intros H. unfold frozen_stakes. rewrite <- list_fmap_compose. apply Forall_fmap_ext, Forall_forall.
  intros [k x] Hin. apply elem_of_map_to_list in Hin. simpl. apply H; assumption.
Qed.

Lemma hashes_unique_pt l : hashes_unique l ↔ hu_pt l.
Proof.
  unfold hashes_unique, hu_pt. rewrite fmap_app, NoDup_app. unfold bonded_stakes.
  rewrite (NoDup_hashes_concat _ (NoDup_fst_map_to_list (dels l))). split.
  - intros (((H1 & H2) & H3 & _) & H4). split; [|split; [|split]].
    + intros a d Hd. apply (H1 (a, d)). apply elem_of_map_to_list; assumption.
    + intros a1 a2 d1 d2 s1 s2 Hd1 Hd2 Hs1 Hs2 Heq.
      apply (H2 (a1, d1) (a2, d2) s1 s2); try assumption; apply elem_of_map_to_list; assumption.
    + intros a d s k x Hd Hs Hf Heq. apply (H3 (s_hash s)).
      * apply elem_of_hashes_concat. exists (a, d), s. split; [apply elem_of_map_to_list; assumption | auto].
      * rewrite (frozen_hashes_keys l H4). apply elem_of_list_fmap. exists (k, x).
        split; [simpl; congruence | apply elem_of_map_to_list; assumption].
    + exact H4.
  - intros (H1 & H2 & H3 & H4). split; [|exact H4]. split; [split|split].
    + intros [a d] Hin. apply elem_of_map_to_list in Hin. eapply H1; eassumption.
    + intros [a1 d1] [a2 d2] s1 s2 Hin1 Hin2. apply elem_of_map_to_list in Hin1, Hin2. simpl.
      eapply H2; eassumption.
    + intros h Hh Hh'. apply elem_of_hashes_concat in Hh as ([a d] & s & Hin & Hs & <-).
      apply elem_of_map_to_list in Hin.
      rewrite (frozen_hashes_keys l H4) in Hh'. apply elem_of_list_fmap in Hh' as ([k x] & Hk & Hin').
      apply elem_of_map_to_list in Hin'. simpl in Hk. eapply H3; eauto.
    + rewrite (frozen_hashes_keys l H4). apply NoDup_fst_map_to_list.
Qed.

(* ================================================================== 5. (C1) who can release a bonded stake *)
Lemma remove_stake_elem_ne h l s0 st :
  find_stake h l = Some s0 → st ∈ l → st ≠ s0 → st ∈ remove_stake h l.
Proof.
  induction l as [|s r IH]; simpl; [discriminate|].
  destruct (s_hash s =? h)%N.
  - intros [= <-] Hin Hne. apply elem_of_cons in Hin as [-> | Hin]; [contradiction | assumption].
  - intros Hf Hin Hne. apply elem_of_cons in Hin as [-> | Hin]; [left | right; apply IH; assumption].
Qed.

Lemma sum_power_of_bounds a l : (∀ s, s ∈ l → 0 ≤ s_power s) → 0 ≤ sum_power_of a l ≤ sum_power l.
Proof.
  induction l as [|s r IH]; intros H; simpl; [lia|].
  assert (0 ≤ s_power s) by (apply H; left).
  assert (0 ≤ sum_power_of a r ≤ sum_power r) by (apply IH; intros x Hx; apply H; right; assumption).
  destruct (s_from s =? a)%N; lia.
Qed.

(* the exact rule of the model, for any outcome of the delivery *)
Theorem release_only_by_owner s t s' r st :
  deliver s t = (s', r) → st ∈ bonded_stakes (work s) → st ∉ bonded_stakes (work s') →
  t_type t = TRX_UNSTAKING ∧ t_sigok t = true ∧
  ∃ d hs b s0,
    dels (work s) !! t_to t = Some d ∧ t_payload t = PUnstake hs b ∧
    find_stake hs (d_stakes d) = Some s0 ∧ s_from s0 = t_from t ∧ st ∈ d_stakes d ∧
    (st = s0 ∨ d_self (del_stake d hs) = 0 ∨ d_total (del_stake d hs) = 0).
Proof.
  intros Hdel Hin Hout. apply elem_of_bonded in Hin as (a & d & Hd & Hst).
  assert (Hout' : ∀ d', dels (work s') !! a = Some d' → st ∉ d_stakes d').
  { intros d' Hd' Hst'. apply Hout, elem_of_bonded. eauto. }
  apply deliver_stake_cases in Hdel as [[HD _] | [(_ & _ & d0 & Hd0 & HD & _) | (Hty & Hsig & d0 & hs & b & s0 & Hd0 & Hp & Hf & Hown & HD & _)]].
  - exfalso. apply (Hout' d); [rewrite HD; exact Hd | exact Hst].
  - (* staking only adds *)
    exfalso. destruct (decide (t_to t = a)) as [Ha|Ha].
    + apply (Hout' (add_stake d0 (stake_of_tx t (b_height (bctx s)) (power_of (t_amount t))))).
      * rewrite HD, Ha. apply lookup_insert.
      * destruct Hd0 as [Hd0 | (Hd0 & _)]; rewrite Ha in Hd0; [|congruence].
        assert (d0 = d) by congruence. subst d0. simpl. apply elem_of_app. left; assumption.
    + apply (Hout' d); [|assumption]. rewrite HD, lookup_insert_ne by assumption. assumption.
  - split; [assumption|]. split; [assumption|]. exists d0, hs, b, s0.
    destruct (decide (t_to t = a)) as [Ha|Ha].
    2:{ exfalso. apply (Hout' d); [|assumption]. rewrite HD, unstake_result_lookup_ne by congruence. assumption. }
    rewrite Ha in Hd0. assert (d0 = d) by congruence. subst d0. rewrite Ha.
    do 5 (split; [assumption|]).
    destruct (decide (st = s0)) as [|Hne]; [left; assumption|]. right.
    destruct (Z.eq_dec (d_self (del_stake d hs)) 0) as [Hs0|Hs0]; [left; assumption|]. right.
    destruct (Z.eq_dec (d_total (del_stake d hs)) 0) as [Ht0|Ht0]; [assumption|]. exfalso.
    apply (Hout' (del_stake d hs)).
    + rewrite HD. unfold unstake_result; cbv zeta; simpl.
      apply Z.eqb_neq in Hs0, Ht0. rewrite Hs0, Ht0, Ha. apply lookup_insert.
    + unfold del_stake. rewrite Hf. simpl. apply (remove_stake_elem_ne hs _ s0); assumption.
Qed.
Print Assumptions release_only_by_owner.

(* the intended reading: the named stake belongs to the signer; other stakes go only when the
   delegatee thereby lost all its own power (force release) *)
Corollary unstake_only_owner s t s' g st :
  dels_ok (work s) → (∀ x, x ∈ bonded_stakes (work s) → 0 ≤ s_power x) →
  deliver s t = (s', Ok g) → st ∈ bonded_stakes (work s) → st ∉ bonded_stakes (work s') →
  t_type t = TRX_UNSTAKING ∧ t_sigok t = true ∧
  ∃ d hs b s0,
    dels (work s) !! t_to t = Some d ∧ t_payload t = PUnstake hs b ∧ s_to st = t_to t ∧
    find_stake hs (d_stakes d) = Some s0 ∧ s_from s0 = t_from t ∧
    (st = s0 ∨ sum_power_of (t_to t) (remove_stake hs (d_stakes d)) = 0).
Proof.
  intros Hok Hpos Hdel Hin Hout.
  destruct (release_only_by_owner _ _ _ _ _ Hdel Hin Hout) as (Hty & Hsig & d & hs & b & s0 & Hd & Hp & Hf & Hown & Hst & Hcase).
  split; [assumption|]. split; [assumption|]. exists d, hs, b, s0.
  pose proof (Hok _ _ Hd) as Hdok. destruct Hdok as (_ & _ & _ & Hto).
  rewrite Forall_forall in Hto.
  do 2 (split; [assumption|]). split; [apply Hto; assumption|]. do 2 (split; [assumption|]).
  destruct Hcase as [-> | Hcase]; [left; reflexivity|]. right.
  destruct (del_stake_ok _ _ hs (Hok _ _ Hd)) as (_ & Ht & Hs & _).
  unfold del_stake in *. rewrite Hf in *. simpl in *.
  destruct Hcase as [H0 | H0]; [congruence|].
  assert (Hb : 0 ≤ sum_power_of (t_to t) (remove_stake hs (d_stakes d)) ≤ sum_power (remove_stake hs (d_stakes d))).
  { apply sum_power_of_bounds. intros x Hx. apply Hpos, elem_of_bonded. exists (t_to t), d. split; [assumption|].
    eapply sublist_elem; [apply remove_stake_sublist | exact Hx]. }
  lia.
Qed.
Print Assumptions unstake_only_owner.

(* ================================================================== 6. how stakes move: one relation for C11/C12 *)
Lemma sublist_NoDup' {A} (l k : list A) : l `sublist_of` k → NoDup k → NoDup l.
Proof.
  induction 1 as [|x l k H IH|x l k H IH]; intros Hk; [constructor| |].
  - apply NoDup_cons in Hk as [Hx Hk]. apply NoDup_cons. split; [|auto].
    intros Hin. apply Hx. eapply sublist_elem; eassumption.
  - apply NoDup_cons in Hk as [_ Hk]. auto.
Qed.

Lemma remove_stake_hash_notin h l : NoDup (s_hash <$> l) → h ∉ s_hash <$> remove_stake h l.
Proof.
  induction l as [|s r IH]; simpl; [intros _ H; inversion H|].
  intros Hnd. apply NoDup_cons in Hnd as [Hs Hnd].
  destruct (s_hash s =? h)%N eqn:E.
  - apply N.eqb_eq in E. subst h. exact Hs.
  - apply N.eqb_neq in E. simpl. intros Hin. apply elem_of_cons in Hin as [Hin | Hin]; [congruence | apply IH; assumption].
Qed.

Lemma elem_hash_fmap (l : list stake) s : s ∈ l → s_hash s ∈ s_hash <$> l.
Proof. intros H. apply elem_of_list_fmap. eauto. Qed.

Lemma with_refund_hash R s : s_hash (with_refund R s) = s_hash s. Proof. reflexivity. Qed.

Lemma freeze_all_lookup ss : ∀ F R k x, freeze_all F R ss !! k = Some x →
  F !! k = Some x ∨ ∃ st, st ∈ ss ∧ k = s_hash st ∧ x = with_refund R st.
Proof.
  unfold freeze_all. induction ss as [|s ss IH]; intros F R k x; simpl; [auto|].
  intros H. apply IH in H as [H | (st & H1 & H2 & H3)].
  - apply lookup_insert_Some in H as [[<- <-] | [_ H]]; [|auto].
    right. exists s. split; [left|]. auto.
  - right. exists st. split; [right; assumption | auto].
Qed.

Lemma freeze_all_keep ss : ∀ F R k, (∀ st, st ∈ ss → s_hash st ≠ k) → freeze_all F R ss !! k = F !! k.
Proof.
  unfold freeze_all. induction ss as [|s ss IH]; intros F R k H; simpl; [reflexivity|].
  rewrite IH by (intros st Hst; apply H; right; assumption).
  apply lookup_insert_ne. apply H; left.
Qed.

Lemma freeze_all_new ss : ∀ F R st, NoDup (s_hash <$> ss) → st ∈ ss →
  freeze_all F R ss !! s_hash st = Some (with_refund R st).
Proof.
  unfold freeze_all. induction ss as [|s ss IH]; intros F R st Hnd Hin; simpl; [inversion Hin|].
  simpl in Hnd. apply NoDup_cons in Hnd as [Hs Hnd].
  apply elem_of_cons in Hin as [-> | Hin]; [|apply IH; assumption].
  change (freeze_all (<[s_hash s:=with_refund R s]> F) R ss !! s_hash s = Some (with_refund R s)).
  rewrite freeze_all_keep; [apply lookup_insert|].
  intros st Hst Heq. apply Hs. rewrite <- Heq. apply elem_hash_fmap; assumption.
Qed.

(* the relation [Q] says what may happen to a stake that stays: nothing (eq), or a power cut *)
Definition stake_sim (x y : stake) : Prop :=
  s_from x = s_from y ∧ s_to x = s_to y ∧ s_hash x = s_hash y ∧ s_start x = s_start y ∧ s_refund x = s_refund y.
Record Qok (Q : stake → stake → Prop) : Prop := {
  Q_refl : ∀ x, Q x x;
  Q_trans : ∀ x y z, Q x y → Q y z → Q x z;
  Q_hash : ∀ x y, Q x y → s_hash x = s_hash y }.
Lemma Qok_eq : Qok eq.
Proof. split; [reflexivity | intros; congruence | intros ? ? ->; reflexivity]. Qed.
Lemma Qok_sim : Qok stake_sim.
Proof.
  split.
  - intros x; repeat split.
  - intros x y z (?&?&?&?&?) (?&?&?&?&?); repeat split; congruence.
  - intros x y (_&_&H&_); exact H.
Qed.

Definition evolves (Q : stake → stake → Prop) (R : Z) (l l' : ledgers) : Prop :=
  (∀ a d', dels l' !! a = Some d' → ∃ d, dels l !! a = Some d ∧
      (s_hash <$> d_stakes d') `sublist_of` (s_hash <$> d_stakes d) ∧
      ∀ s', s' ∈ d_stakes d' → ∃ s, s ∈ d_stakes d ∧ Q s s') ∧
  (∀ k x, frozen l' !! k = Some x → frozen l !! k = Some x ∨
      ∃ a d s0 s, dels l !! a = Some d ∧ s0 ∈ d_stakes d ∧ Q s0 s ∧ x = with_refund R s ∧ k = s_hash s0 ∧
        (NoDup (s_hash <$> d_stakes d) → ∀ d', dels l' !! a = Some d' → k ∉ s_hash <$> d_stakes d')).

Lemma stays Q (D : gmap addr delegatee) a d : Qok Q → D !! a = Some d →
  ∃ d0, D !! a = Some d0 ∧ (s_hash <$> d_stakes d) `sublist_of` (s_hash <$> d_stakes d0) ∧
        ∀ s', s' ∈ d_stakes d → ∃ s, s ∈ d_stakes d0 ∧ Q s s'.
Proof.
  intros HQ Hd. exists d. split; [exact Hd|]. split; [reflexivity|].
  intros s' Hs'. exists s'. split; [exact Hs' | apply (Q_refl _ HQ)].
Qed.

Lemma evolves_refl Q R l : Qok Q → evolves Q R l l.
Proof. intros HQ. split; [intros a d; apply stays, HQ | intros k x H; left; exact H]. Qed.

Lemma evolves_sf Q R l1 l1' l2 l2' : same_sf l1 l1' → same_sf l2 l2' → evolves Q R l1 l2 → evolves Q R l1' l2'.
Proof. intros [H1 H2] [H3 H4]. unfold evolves. rewrite H1, H2, H3, H4. auto. Qed.

Lemma evolves_trans Q R l1 l2 l3 : Qok Q → evolves Q R l1 l2 → evolves Q R l2 l3 → evolves Q R l1 l3.
Proof.
  intros HQ [A1 B1] [A2 B2]. split.
  - intros a d3 Hd3. destruct (A2 _ _ Hd3) as (d2 & Hd2 & Hsub2 & Hq2).
    destruct (A1 _ _ Hd2) as (d1 & Hd1 & Hsub1 & Hq1). exists d1. split; [assumption|]. split; [etrans; eassumption|].
    intros s3 Hs3. destruct (Hq2 _ Hs3) as (s2 & Hs2 & Hq). destruct (Hq1 _ Hs2) as (s1 & Hs1 & Hq').
    exists s1. split; [assumption | eapply (Q_trans _ HQ); eassumption].
  - intros k x H3. destruct (B2 _ _ H3) as [H2 | (a & d2 & s0 & s & Hd2 & Hs0 & Hq & -> & -> & Hnot)].
    + destruct (B1 _ _ H2) as [H1 | (a & d1 & s0 & s & Hd1 & Hs0 & Hq & -> & -> & Hnot)]; [left; assumption|].
      right. exists a, d1, s0, s. do 5 (split; [assumption || reflexivity|]).
      intros Hnd d3 Hd3 Hin. destruct (A2 _ _ Hd3) as (d2 & Hd2 & Hsub2 & _).
      apply (Hnot Hnd d2 Hd2). eapply sublist_elem; eassumption.
    + destruct (A1 _ _ Hd2) as (d1 & Hd1 & Hsub1 & Hq1). destruct (Hq1 _ Hs0) as (s1 & Hs1 & Hq').
      right. exists a, d1, s1, s. split; [assumption|]. split; [assumption|].
      split; [eapply (Q_trans _ HQ); eassumption|]. split; [reflexivity|].
      split; [symmetry; apply (Q_hash _ HQ); assumption|].
      intros Hnd. apply Hnot. eapply sublist_NoDup'; eassumption.
Qed.

Lemma evolves_weaken (Q Q' : stake → stake → Prop) R l l' :
  (∀ x y, Q x y → Q' x y) → evolves Q R l l' → evolves Q' R l l'.
Proof.
  intros HQ [A B]. split.
  - intros a d' Hd'. destruct (A _ _ Hd') as (d & Hd & Hsub & Hq). exists d. split; [assumption|]. split; [assumption|].
    intros s' Hs'. destruct (Hq _ Hs') as (s & Hs & Hqs). eauto.
  - intros k x H. destruct (B _ _ H) as [H' | (a & d & s0 & s & H1 & H2 & H3 & H4)]; [left; assumption|].
    right. exists a, d, s0, s. auto.
Qed.

(* ------------------------------------------------------------------ every stake-moving step is an evolution *)
Lemma unstake_result_frozen D F a d hs s0 R k x :
  find_stake hs (d_stakes d) = Some s0 → (unstake_result D F a d hs s0 R).2 !! k = Some x →
  F !! k = Some x ∨ (k = s_hash s0 ∧ x = with_refund R s0) ∨
  (d_self (del_stake d hs) = 0 ∧ ∃ st, st ∈ remove_stake hs (d_stakes d) ∧ k = s_hash st ∧ x = with_refund R st).
Proof.
  intros Hf. unfold unstake_result; cbv zeta; simpl.
  assert (H1 : ∀ k x, <[s_hash s0 := with_refund R s0]> F !! k = Some x → F !! k = Some x ∨ (k = s_hash s0 ∧ x = with_refund R s0)).
  { intros k' x' H. apply lookup_insert_Some in H as [[<- <-] | [_ H]]; auto. }
  destruct (d_self (del_stake d hs) =? 0) eqn:Es.
  - intros H. apply freeze_all_lookup in H as [H | (st & Hst & -> & ->)].
    + destruct (H1 _ _ H) as [H' | H']; auto.
    + right; right. apply Z.eqb_eq in Es. split; [assumption|]. exists st.
      unfold del_stake in Hst. rewrite Hf in Hst. simpl in Hst. auto.
  - intros H. destruct (H1 _ _ H) as [H' | H']; auto.
Qed.

Lemma ev_unstake Q R l l' a d hs s0 : Qok Q →
  dels l !! a = Some d → find_stake hs (d_stakes d) = Some s0 →
  dels l' = (unstake_result (dels l) (frozen l) a d hs s0 R).1 →
  frozen l' = (unstake_result (dels l) (frozen l) a d hs s0 R).2 →
  evolves Q R l l'.
Proof.
  intros HQ Hd Hf HD HF. destruct (find_stake_spec _ _ _ Hf) as [Hin0 Hh0].
  split.
  - intros a' d' Hd'. rewrite HD in Hd'. destruct (decide (a' = a)) as [->|Hne].
    + apply unstake_result_lookup_eq in Hd' as [Hsub _]; [|assumption].
      exists d. split; [assumption|].
      assert (Hsub' : d_stakes d' `sublist_of` d_stakes d) by (etrans; [exact Hsub | apply remove_stake_sublist]).
      split; [apply fmap_sublist; assumption|].
      intros s' Hs'. exists s'. split; [eapply sublist_elem; eassumption | apply (Q_refl _ HQ)].
    + rewrite unstake_result_lookup_ne in Hd' by assumption. exact (stays Q _ _ _ HQ Hd').
  - intros k x Hk. rewrite HF in Hk. apply unstake_result_frozen in Hk as [Hk | [[-> ->] | (Hs & st & Hst & -> & ->)]]; [left; assumption| | |assumption].
    + right. exists a, d, s0, s0. do 2 (split; [assumption|]). split; [apply (Q_refl _ HQ)|]. do 2 (split; [reflexivity|]).
      intros Hnd d' Hd'. rewrite HD in Hd'. apply unstake_result_lookup_eq in Hd' as [Hsub _]; [|assumption].
      intros Hin. apply (remove_stake_hash_notin hs _ Hnd). rewrite Hh0 in Hin.
      eapply sublist_elem; [apply fmap_sublist; exact Hsub | exact Hin].
    + right. exists a, d, st, st. split; [assumption|].
      split; [eapply sublist_elem; [apply remove_stake_sublist | exact Hst]|].
      split; [apply (Q_refl _ HQ)|]. do 2 (split; [reflexivity|]).
      intros _ d' Hd'. rewrite HD in Hd'. apply unstake_result_lookup_eq in Hd' as [_ Hnil]; [|assumption].
      rewrite (Hnil Hs). simpl. intros Hin; inversion Hin.
Qed.

Lemma ev_insert_sub Q R l a d d' : Qok Q → dels l !! a = Some d →
  (s_hash <$> d_stakes d') `sublist_of` (s_hash <$> d_stakes d) →
  (∀ s', s' ∈ d_stakes d' → ∃ s, s ∈ d_stakes d ∧ Q s s') →
  evolves Q R l (set_dels l (<[a := d']> (dels l))).
Proof.
  intros HQ Hd Hsub Hq. split.
  - intros a' d'' Hd''. rewrite dels_set_dels in Hd''. destruct (decide (a' = a)) as [->|Hne].
    + rewrite lookup_insert in Hd''. injection Hd'' as <-. exists d. auto.
    + rewrite lookup_insert_ne in Hd'' by congruence. exact (stays Q _ _ _ HQ Hd'').
  - intros k x H. left; exact H.
Qed.

Lemma ev_marks Q R l a d m : Qok Q → dels l !! a = Some d → evolves Q R l (set_dels l (<[a := with_marks d m]> (dels l))).
Proof.
  intros HQ Hd. apply (ev_insert_sub Q R l a d); [assumption|assumption|reflexivity|].
  intros s' Hs'. exists s'. split; [assumption | apply (Q_refl _ HQ)].
Qed.

Lemma ev_slash Q R l a d ratio : Qok Q →
  (∀ s, Q s (with_power (s_power s - (s_power s * ratio) `quot` 100) s)) → dels l !! a = Some d →
  evolves Q R l (set_dels l (<[a := (slash_all d ratio).1]> (dels l))).
Proof.
  intros HQ Hp Hd. apply (ev_insert_sub Q R l a d); [assumption|assumption| |].
  - unfold slash_all; simpl.
    etrans; [apply fmap_sublist, foldl_remove_sublist|].
    rewrite <- list_fmap_compose. erewrite list_fmap_ext; [reflexivity|].
    intros i s _. simpl. destruct (_ <? 1); reflexivity.
  - unfold slash_all; simpl. intros s' Hs'.
    apply (sublist_elem _ _ _ (foldl_remove_sublist _ _)) in Hs'.
    apply elem_of_list_fmap in Hs' as (s & -> & Hs). exists s. split; [assumption|].
    destruct (_ <? 1); [apply (Q_refl _ HQ) | apply Hp].
Qed.

Lemma ev_jail Q R l a d : Qok Q → dels l !! a = Some d → evolves Q R l (jail l a d R).
Proof.
  intros HQ Hd. unfold jail. split.
  - intros a' d' Hd'. rewrite dels_set_dels in Hd'. apply lookup_delete_Some in Hd' as [_ Hd'].
    exact (stays Q _ _ _ HQ Hd').
  - intros k x H. rewrite frozen_set_dels, frozen_set_frozen in H.
    apply freeze_all_lookup in H as [H | (st & Hst & -> & ->)]; [left; assumption|].
    right. exists a, d, st, st. do 2 (split; [assumption|]). split; [apply (Q_refl _ HQ)|]. do 2 (split; [reflexivity|]).
    intros _ d' Hd'. rewrite dels_set_dels, lookup_delete in Hd'. discriminate.
Qed.

Lemma ev_shrink Q R l l' : Qok Q → dels l' = dels l → (∀ k x, frozen l' !! k = Some x → frozen l !! k = Some x) →
  evolves Q R l l'.
Proof.
  intros HQ HD HF. split.
  - intros a d Hd. rewrite HD in Hd. exact (stays Q _ _ _ HQ Hd).
  - intros k x H. left. apply HF; assumption.
Qed.

(* ------------------------------------------------------------------ consequences of an evolution *)
Lemma hash_in_sub (l k : list stake) s : (s_hash <$> l) `sublist_of` (s_hash <$> k) → s ∈ l → ∃ sz, sz ∈ k ∧ s_hash sz = s_hash s.
Proof.
  intros Hsub Hs. apply elem_hash_fmap in Hs. apply (sublist_elem _ _ _ Hsub) in Hs.
  apply elem_of_list_fmap in Hs as (sz & Heq & Hin). eauto.
Qed.

Lemma hu_pt_evolves Q R l l' : Qok Q → hu_pt l → evolves Q R l l' → hu_pt l'.
Proof.
  intros HQ (U1 & U2 & U3 & U4) [A B]. split; [|split; [|split]].
  - intros a d' Hd'. destruct (A _ _ Hd') as (d & Hd & Hsub & _).
    eapply sublist_NoDup'; [exact Hsub | eapply U1; exact Hd].
  - intros a1 a2 d1' d2' s1 s2 Hd1' Hd2' Hs1 Hs2 Heq.
    destruct (A _ _ Hd1') as (d1 & Hd1 & Hsub1 & _). destruct (A _ _ Hd2') as (d2 & Hd2 & Hsub2 & _).
    destruct (hash_in_sub _ _ _ Hsub1 Hs1) as (s1z & Hin1 & Hh1).
    destruct (hash_in_sub _ _ _ Hsub2 Hs2) as (s2z & Hin2 & Hh2).
    eapply (U2 a1 a2 d1 d2 s1z s2z); try eassumption. congruence.
  - intros a' d' s' k x Hd' Hs' Hk Heq.
    destruct (A _ _ Hd') as (dz & Hdz & Hsub & _). destruct (hash_in_sub _ _ _ Hsub Hs') as (sz & Hinz & Hhz).
    destruct (B _ _ Hk) as [Hold | (a & d & s0 & s & Hd & Hs0 & Hq & -> & -> & Hnot)].
    + eapply (U3 a' dz sz k x); try eassumption. congruence.
    + assert (a' = a) by (eapply (U2 a' a dz d sz s0); try eassumption; congruence). subst a'.
      assert (dz = d) by congruence. subst dz.
      apply (Hnot (U1 _ _ Hd) d' Hd'). rewrite <- Heq. apply elem_hash_fmap; assumption.
  - intros k x Hk. destruct (B _ _ Hk) as [Hold | (a & d & s0 & s & Hd & Hs0 & Hq & -> & -> & _)]; [eapply U4; eassumption|].
    rewrite with_refund_hash. symmetry. apply (Q_hash _ HQ); assumption.
Qed.

Lemma hu_pt_inj l a1 a2 d1 d2 s1 s2 : hu_pt l →
  dels l !! a1 = Some d1 → dels l !! a2 = Some d2 → s1 ∈ d_stakes d1 → s2 ∈ d_stakes d2 →
  s_hash s1 = s_hash s2 → a1 = a2 ∧ d1 = d2 ∧ s1 = s2.
Proof.
  intros (U1 & U2 & _) Hd1 Hd2 Hs1 Hs2 Heq.
  assert (a1 = a2) by (eapply (U2 a1 a2 d1 d2 s1 s2); eassumption). subst a2.
  assert (d1 = d2) by congruence. subst d2.
  split; [reflexivity|]. split; [reflexivity|]. exact (NoDup_fmap_inj s_hash _ _ _ (U1 _ _ Hd1) Hs1 Hs2 Heq).
Qed.

(* where a bonded stake can be found afterwards (by hash): under its own delegatee, related by Q,
   or unbonding as a Q-related copy with the refund height R *)
Lemma evolves_fate Q R l l' a d st : Qok Q → hu_pt l → evolves Q R l l' →
  dels l !! a = Some d → st ∈ d_stakes d →
  (∀ a' d' st', dels l' !! a' = Some d' → st' ∈ d_stakes d' → s_hash st' = s_hash st → a' = a ∧ Q st st') ∧
  (∀ k x, frozen l' !! k = Some x → k = s_hash st → ∃ s, Q st s ∧ x = with_refund R s).
Proof.
  intros HQ Hu [A B] Hd Hst. split.
  - intros a' d' st' Hd' Hst' Heq. destruct (A _ _ Hd') as (dz & Hdz & _ & Hq). destruct (Hq _ Hst') as (sz & Hsz & Hqs).
    destruct (hu_pt_inj l a' a dz d sz st Hu Hdz Hd Hsz Hst) as (-> & _ & ->); [|auto].
    rewrite (Q_hash _ HQ _ _ Hqs). exact Heq.
  - intros k x Hk ->. destruct (B _ _ Hk) as [Hold | (a' & d' & s0 & s & Hd' & Hs0 & Hq & -> & Hh & _)].
    + exfalso. destruct Hu as (_ & _ & U3 & _). exact (U3 a d st _ _ Hd Hst Hold eq_refl).
    + destruct (hu_pt_inj l a' a d' d s0 st Hu Hd' Hd Hs0 Hst (eq_sym Hh)) as (_ & _ & ->). eauto.
Qed.

(* ------------------------------------------------------------------ the operations as evolutions *)
Lemma hu_pt_sf l l' : same_sf l l' → hu_pt l → hu_pt l'.
Proof. intros [H1 H2]. unfold hu_pt. rewrite H1, H2. auto. Qed.

Lemma deliver_moves s t s' r : deliver s t = (s', r) →
  evolves eq (release_height s) (work s) (work s') ∨
  (t_type t = TRX_STAKING ∧ t_sigok t = true ∧ ∃ d,
     (dels (work s) !! t_to t = Some d ∨
      (dels (work s) !! t_to t = None ∧ t_from t = t_to t ∧ d = new_delegatee (t_to t))) ∧
     dels (work s') = <[t_to t := add_stake d (stake_of_tx t (b_height (bctx s)) (power_of (t_amount t)))]> (dels (work s)) ∧
     frozen (work s') = frozen (work s)).
Proof.
  intros Hdel.
  apply deliver_stake_cases in Hdel as [Hsf | [Hst | (_ & _ & d & hs & b & s0 & Hd & _ & Hf & _ & HD & HF)]].
  - left. eapply evolves_sf; [apply same_sf_refl | exact Hsf | apply evolves_refl, Qok_eq].
  - right. exact Hst.
  - left. eapply ev_unstake; [apply Qok_eq | exact Hd | exact Hf | exact HD | exact HF].
Qed.

Definition block_release_height (s : state) (hd : header) : Z := h_height hd + g_lazyRewardBlocks (gparams s).

(* BeginBlock for any relation that admits the power cut of a slash; the cut is only asked for when
   the header carries evidence *)
Lemma begin_block_evolves_gen Q s hd : Qok Q →
  (∀ x, h_evidence hd ≠ [] →
     Q x (with_power (s_power x - (s_power x * g_slashRatio (gparams s)) `quot` 100) x)) →
  evolves Q (block_release_height s hd) (work s) (work (begin_block s hd).1).
Proof.
  intros HQ Hcut. apply (begin_block_ind (λ l, evolves Q (block_release_height s hd) (work s) l)).
  - intros l l' Hsf H. eapply evolves_sf; [apply same_sf_refl | exact Hsf | exact H].
  - apply evolves_refl, HQ.
  - intros l a d Hin H Hd. eapply evolves_trans; [exact HQ | exact H |].
    apply ev_slash; [exact HQ | | exact Hd].
    intros x. apply Hcut. intros Hev. rewrite Hev in Hin. inversion Hin.
  - intros l a d m H Hd. eapply evolves_trans; [exact HQ | exact H | apply ev_marks; [exact HQ | exact Hd]].
  - intros l a d _ H Hd. eapply evolves_trans; [exact HQ | exact H | apply ev_jail; [exact HQ | exact Hd]].
Qed.

Lemma begin_block_evolves s hd :
  evolves stake_sim (block_release_height s hd) (work s) (work (begin_block s hd).1).
Proof. apply begin_block_evolves_gen; [apply Qok_sim|]. intros x _. repeat split. Qed.

Lemma begin_block_evolves_noevidence s hd : h_evidence hd = [] →
  evolves eq (block_release_height s hd) (work s) (work (begin_block s hd).1).
Proof. intros Hev. apply begin_block_evolves_gen; [apply Qok_eq|]. intros x Hne. destruct (Hne Hev). Qed.

(* [begin_block_ind] for a property whose step at a jailing needs the hashes to be unique there *)
Lemma begin_block_ind_hu (X : ledgers → Prop) s hd :
  hu_pt (work s) → X (work s) →
  (∀ l l', same_sf l l' → X l → X l') →
  (∀ l a d, a ∈ h_evidence hd → X l → dels l !! a = Some d →
     X (set_dels l (<[a := (slash_all d (g_slashRatio (gparams s))).1]> (dels l)))) →
  (∀ l a d m, X l → dels l !! a = Some d → X (set_dels l (<[a := with_marks d m]> (dels l)))) →
  (∀ l a d, hu_pt l → X l → dels l !! a = Some d → X (jail l a d (block_release_height s hd))) →
  X (work (begin_block s hd).1).
Proof.
  intros Hu Hx Hsf Hsl Hmk Hjl.
  enough (HP : hu_pt (work (begin_block s hd).1) ∧ X (work (begin_block s hd).1)) by exact (proj2 HP).
  assert (Hstep : ∀ l l', hu_pt l → evolves stake_sim (block_release_height s hd) l l' → hu_pt l')
    by (intros l l'; apply hu_pt_evolves, Qok_sim).
  apply (begin_block_ind (λ l, hu_pt l ∧ X l)).
  - intros l l' H [H1 H2]. split; [exact (hu_pt_sf _ _ H H1) | exact (Hsf _ _ H H2)].
  - split; assumption.
  - intros l a d Hin [H1 H2] Hd. split; [|apply Hsl; assumption].
    apply (Hstep _ _ H1), ev_slash; [apply Qok_sim | intros y; repeat split | exact Hd].
  - intros l a d m [H1 H2] Hd. split; [|apply Hmk; assumption].
    apply (Hstep _ _ H1), ev_marks; [apply Qok_sim | exact Hd].
  - intros l a d _ [H1 H2] Hd. split; [|apply Hjl; assumption].
    apply (Hstep _ _ H1), ev_jail; [apply Qok_sim | exact Hd].
Qed.

Lemma end_block_evolves s R : evolves eq R (work s) (work (end_block s).1).
Proof. destruct (end_block_stakes s) as [HD HF]. apply ev_shrink; [apply Qok_eq | exact HD | exact HF]. Qed.

(* ================================================================== 7. (B1) uniqueness of hashes under fresh staking hashes *)
Lemma hu_pt_add l l' a d st :
  hu_pt l →
  (dels l !! a = Some d ∨ (dels l !! a = None ∧ d_stakes d = [])) →
  (∀ a0 d0 s0, dels l !! a0 = Some d0 → s0 ∈ d_stakes d0 → s_hash s0 ≠ s_hash st) →
  (∀ k x, frozen l !! k = Some x → k ≠ s_hash st) →
  dels l' = <[a := add_stake d st]> (dels l) → frozen l' = frozen l → hu_pt l'.
Proof.
  intros (U1 & U2 & U3 & U4) Hd F1 F2 HD HF.
  assert (Hel : ∀ a' d' s', dels l' !! a' = Some d' → s' ∈ d_stakes d' →
            (s' = st ∧ a' = a) ∨ (∃ dz, dels l !! a' = Some dz ∧ s' ∈ d_stakes dz)).
  { intros a' d' s' Hd' Hs'. rewrite HD in Hd'. destruct (decide (a' = a)) as [->|Hne].
    - rewrite lookup_insert in Hd'. injection Hd' as <-. simpl in Hs'.
      apply elem_of_app in Hs' as [Hs' | Hs'].
      + destruct Hd as [Hd | [_ Hd]]; [right; eauto | rewrite Hd in Hs'; inversion Hs'].
      + apply elem_of_list_singleton in Hs'. left; auto.
    - rewrite lookup_insert_ne in Hd' by congruence. right; eauto. }
  split; [|split; [|split]].
  - intros a' d' Hd'. rewrite HD in Hd'. destruct (decide (a' = a)) as [->|Hne].
    + rewrite lookup_insert in Hd'. injection Hd' as <-. simpl. rewrite fmap_app. apply NoDup_app. split; [|split].
      * destruct Hd as [Hd | [_ Hd]]; [eapply U1; exact Hd | rewrite Hd; constructor].
      * intros h Hh Hh'. simpl in Hh'. apply elem_of_list_singleton in Hh'. subst h.
        apply elem_of_list_fmap in Hh as (s0 & Heq & Hs0).
        destruct Hd as [Hd | [_ Hd]]; [eapply F1; eauto | rewrite Hd in Hs0; inversion Hs0].
      * simpl. apply NoDup_singleton.
    + rewrite lookup_insert_ne in Hd' by congruence. eapply U1; exact Hd'.
  - intros a1 a2 d1 d2 s1 s2 Hd1 Hd2 Hs1 Hs2 Heq.
    destruct (Hel _ _ _ Hd1 Hs1) as [[-> ->] | (dz1 & Hz1 & Hin1)];
      destruct (Hel _ _ _ Hd2 Hs2) as [[-> ->] | (dz2 & Hz2 & Hin2)].
    + reflexivity.
    + exfalso. eapply F1; [exact Hz2 | exact Hin2 | congruence].
    + exfalso. eapply F1; [exact Hz1 | exact Hin1 | congruence].
    + eapply (U2 a1 a2 dz1 dz2 s1 s2); eassumption.
  - intros a' d' s' k x Hd' Hs' Hk. rewrite HF in Hk.
    destruct (Hel _ _ _ Hd' Hs') as [[-> ->] | (dz & Hz & Hin)].
    + intros Heq. eapply F2; [exact Hk | congruence].
    + eapply U3; eassumption.
  - intros k x Hk. rewrite HF in Hk. eapply U4; exact Hk.
Qed.

(* the hypothesis on a run: a staking transaction that gets executed carries a hash no bonded
   or unbonding stake has (transaction hashes cover sender and nonce) *)
Definition fresh_tx (s : state) (t : tx) : Prop :=
  t_type t = TRX_STAKING → dels (work (deliver s t).1) ≠ dels (work s) →
  ∀ st, st ∈ bonded_stakes (work s) ++ frozen_stakes (work s) → s_hash st ≠ t_hash t.

Fixpoint fresh_run (s : state) (ops : list sop) : Prop :=
  match ops with
  | [] => True
  | o :: r => match o with SDeliver t => fresh_tx s t | _ => True end ∧ fresh_run (sstep s o) r
  end.

(* executable check, for the examples *)
Definition fresh_txb (s : state) (t : tx) : bool :=
  forallb (λ st, negb (s_hash st =? t_hash t)%N) (bonded_stakes (work s) ++ frozen_stakes (work s)).
Fixpoint fresh_runb (s : state) (ops : list sop) : bool :=
  match ops with
  | [] => true
  | o :: r => match o with SDeliver t => fresh_txb s t | _ => true end && fresh_runb (sstep s o) r
  end.
Lemma fresh_txb_ok s t : fresh_txb s t = true → fresh_tx s t.
Proof.
  unfold fresh_txb, fresh_tx. intros H _ _ st Hin. rewrite forallb_forall in H.
  apply elem_of_list_In, H in Hin. apply negb_true_iff, N.eqb_neq in Hin. exact Hin.
Qed.
Lemma fresh_runb_ok ops : ∀ s, fresh_runb s ops = true → fresh_run s ops.
Proof.
  induction ops as [|o ops IH]; intros s; simpl; [auto|].
  intros H. apply andb_true_iff in H as [H1 H2]. split; [|apply IH; assumption].
  destruct o; auto. apply fresh_txb_ok; assumption.
Qed.

Lemma insert_add_stake_ne (D : gmap addr delegatee) a d st :
  D !! a = Some d ∨ D !! a = None → <[a := add_stake d st]> D ≠ D.
Proof.
  intros Hd Heq. assert (Hl : D !! a = Some (add_stake d st)) by (rewrite <- Heq; apply lookup_insert).
  destruct Hd as [Hd | Hd]; rewrite Hd in Hl; [|discriminate].
  injection Hl as Hl. apply (f_equal (λ x, length (d_stakes x))) in Hl.
  simpl in Hl. rewrite app_length in Hl. simpl in Hl. lia.
Qed.

Lemma deliver_hashes_unique s t : hashes_unique (work s) → fresh_tx s t → hashes_unique (work (deliver s t).1).
Proof.
  rewrite !hashes_unique_pt. intros Hu Hfresh.
  destruct (deliver_moves _ _ _ _ (surjective_pairing (deliver s t))) as [Hev | (Hty & _ & d & Hd & HD & HF)].
  { eapply hu_pt_evolves; [apply Qok_eq | exact Hu | exact Hev]. }
  assert (Hne : dels (work (deliver s t).1) ≠ dels (work s)).
  { rewrite HD. apply insert_add_stake_ne. destruct Hd as [Hd | (Hd & _)]; auto. }
  specialize (Hfresh Hty Hne).
  eapply (hu_pt_add (work s) _ (t_to t) d); [exact Hu | | | | exact HD | exact HF].
  - destruct Hd as [Hd | (Hd & _ & ->)]; [left; assumption | right; split; [assumption | reflexivity]].
  - intros a0 d0 s0 Hd0 Hs0. apply Hfresh. apply elem_of_app. left. apply elem_of_bonded. eauto.
  - intros k x Hk Heq. destruct Hu as (_ & _ & _ & U4). apply (Hfresh x).
    + apply elem_of_app. right. apply elem_of_frozen. eauto.
    + rewrite (U4 _ _ Hk). exact Heq.
Qed.

Lemma sstep_hashes_unique s o : hashes_unique (work s) →
  match o with SDeliver t => fresh_tx s t | _ => True end → hashes_unique (work (sstep s o)).
Proof.
  intros Hu Hf. destruct o as [hd|t| |]; simpl.
  - apply hashes_unique_pt. eapply hu_pt_evolves; [apply Qok_sim | apply hashes_unique_pt, Hu | apply begin_block_evolves].
  - apply deliver_hashes_unique; assumption.
  - apply hashes_unique_pt. eapply hu_pt_evolves; [apply Qok_eq | apply hashes_unique_pt, Hu | apply (end_block_evolves s 0)].
  - exact Hu.
Qed.

Theorem hashes_unique_run ops : ∀ s, hashes_unique (work s) → fresh_run s ops → hashes_unique (work (srun s ops)).
Proof.
  unfold srun. induction ops as [|o ops IH]; intros s Hu Hf; simpl; [exact Hu|].
  destruct Hf as [Hf1 Hf2]. apply IH; [apply sstep_hashes_unique; assumption | exact Hf2].
Qed.
Print Assumptions hashes_unique_run.

(* it holds from genesis when there is at most one genesis validator (all genesis stakes carry hash 0) *)
Lemma init_chain_hashes_unique g : (length (gen_validators g) ≤ 1)%nat → hashes_unique (work (init_chain g)).
Proof.
  intros Hlen. apply hashes_unique_pt.
  destruct (init_chain_pre_sf g) as (l2 & [HD HF] & ->).
  assert (H2 : hu_pt l2).
  { unfold hu_pt. rewrite HD, HF. simpl. repeat split; intros *; rewrite lookup_empty; discriminate. }
  destruct (gen_validators g) as [|v [|v' vs]]; simpl in *; [exact H2 | | lia].
  eapply (hu_pt_add l2 _ v.1 (new_delegatee v.1) (genesis_stake v)); [exact H2 | | | | reflexivity | reflexivity].
  - right. split; [rewrite HD; apply lookup_empty | reflexivity].
  - intros a0 d0 s0 Hd0. rewrite HD in Hd0. simpl in Hd0. rewrite lookup_empty in Hd0. discriminate.
  - intros k x Hk. rewrite HF in Hk. simpl in Hk. rewrite lookup_empty in Hk. discriminate.
Qed.

Theorem hashes_unique_reachable g ops :
  (length (gen_validators g) ≤ 1)%nat → fresh_run (init_chain g) ops →
  hashes_unique (work (srun (init_chain g) ops)).
Proof. intros Hlen Hf. apply hashes_unique_run; [apply init_chain_hashes_unique; assumption | exact Hf]. Qed.
Print Assumptions hashes_unique_reachable.

(* ================================================================== 8. (B3) a stake's fields while it stays *)
Lemma hu_pt_same_hash l x y : hu_pt l → x ∈ bonded_stakes l → y ∈ bonded_stakes l → s_hash x = s_hash y → x = y.
Proof.
  intros Hu Hx Hy Heq.
  apply elem_of_bonded in Hx as (a1 & d1 & Hd1 & Hx). apply elem_of_bonded in Hy as (a2 & d2 & Hd2 & Hy).
  apply (hu_pt_inj l a1 a2 d1 d2 x y Hu Hd1 Hd2 Hx Hy Heq).
Qed.

Lemma evolves_fate_lists Q R l l' st : Qok Q → hu_pt l → evolves Q R l l' → st ∈ bonded_stakes l →
  (∀ st', st' ∈ bonded_stakes l' → s_hash st' = s_hash st → Q st st') ∧
  (∀ st', st' ∈ frozen_stakes l' → s_hash st' = s_hash st → ∃ s1, Q st s1 ∧ st' = with_refund R s1).
Proof.
  intros HQ Hu Hev Hst. pose proof (hu_pt_evolves _ _ _ _ HQ Hu Hev) as (_ & _ & _ & U4').
  apply elem_of_bonded in Hst as (a & d & Hd & Hst).
  destruct (evolves_fate Q R l l' a d st HQ Hu Hev Hd Hst) as [F1 F2]. split.
  - intros st' Hin Heq. apply elem_of_bonded in Hin as (a' & d' & Hd' & Hin). eapply F1; eassumption.
  - intros st' Hin Heq. apply elem_of_frozen in Hin as (k & Hk). apply (F2 k st' Hk).
    rewrite <- (U4' _ _ Hk). exact Heq.
Qed.

(* every operation except a BeginBlock carrying evidence leaves all fields but the refund height *)
Theorem stake_unchanged_step s o st :
  hashes_unique (work s) →
  match o with SBegin hd => h_evidence hd = [] | SDeliver t => fresh_tx s t | _ => True end →
  st ∈ bonded_stakes (work s) →
  (∀ st', st' ∈ bonded_stakes (work (sstep s o)) → s_hash st' = s_hash st → st' = st) ∧
  (∀ st', st' ∈ frozen_stakes (work (sstep s o)) → s_hash st' = s_hash st → st' = with_refund (s_refund st') st).
Proof.
  intros Hu Ho Hst. apply hashes_unique_pt in Hu.
  assert (Hfrom_ev : ∀ R l', evolves eq R (work s) l' →
     (∀ st', st' ∈ bonded_stakes l' → s_hash st' = s_hash st → st' = st) ∧
     (∀ st', st' ∈ frozen_stakes l' → s_hash st' = s_hash st → st' = with_refund (s_refund st') st)).
  { intros R l' Hev. destruct (evolves_fate_lists eq R _ _ st Qok_eq Hu Hev Hst) as [F1 F2]. split.
    - intros st' Hin Heq. symmetry. apply F1; assumption.
    - intros st' Hin Heq. destruct (F2 st' Hin Heq) as (s1 & <- & ->). reflexivity. }
  destruct o as [hd|t| |]; simpl.
  - eapply Hfrom_ev. apply begin_block_evolves_noevidence; assumption.
  - destruct (deliver_moves _ _ _ _ (surjective_pairing (deliver s t))) as [Hev | (Hty & _ & d & Hd & HD & HF)];
      [eapply Hfrom_ev; exact Hev|].
    (* a new stake: its hash is fresh, so it is none of the old ones *)
    assert (Hne : dels (work (deliver s t).1) ≠ dels (work s)).
    { rewrite HD. apply insert_add_stake_ne. destruct Hd as [Hd | (Hd & _)]; auto. }
    specialize (Ho Hty Hne). clear Hne. split.
    + intros st' Hin Heq. apply elem_of_bonded in Hin as (a' & d' & Hd' & Hin). rewrite HD in Hd'.
      assert (Hold : st' ∈ bonded_stakes (work s) → st' = st).
      { intros Hb. eapply hu_pt_same_hash; eassumption. }
      destruct (decide (a' = t_to t)) as [->|Hne].
      * rewrite lookup_insert in Hd'. injection Hd' as <-. simpl in Hin.
        apply elem_of_app in Hin as [Hin | Hin].
        -- destruct Hd as [Hd | (_ & _ & ->)]; [|inversion Hin]. apply Hold, elem_of_bonded. eauto.
        -- apply elem_of_list_singleton in Hin. subst st'. exfalso.
           apply (Ho st); [apply elem_of_app; left; assumption | symmetry; exact Heq].
      * rewrite lookup_insert_ne in Hd' by congruence. apply Hold, elem_of_bonded. eauto.
    + intros st' Hin Heq. exfalso. apply elem_of_frozen in Hin as (k & Hk). rewrite HF in Hk.
      destruct Hu as (_ & _ & U3 & U4). apply elem_of_bonded in Hst as (a0 & d0 & Hd0 & Hst0).
      apply (U3 a0 d0 st k st' Hd0 Hst0 Hk). rewrite <- Heq. apply U4; assumption.
  - eapply Hfrom_ev. apply (end_block_evolves s 0).
  - eapply Hfrom_ev. apply (evolves_refl eq 0), Qok_eq.
Qed.
Print Assumptions stake_unchanged_step.

(* BeginBlock in general: owner, target, hash and start height stay; only the power may be cut
   (slashing of the delegatees named in the evidence) *)
Theorem stake_begin_block_fields s hd st :
  hashes_unique (work s) → st ∈ bonded_stakes (work s) →
  (∀ st', st' ∈ bonded_stakes (work (begin_block s hd).1) → s_hash st' = s_hash st → stake_sim st st') ∧
  (∀ st', st' ∈ frozen_stakes (work (begin_block s hd).1) → s_hash st' = s_hash st →
     s_from st' = s_from st ∧ s_to st' = s_to st ∧ s_start st' = s_start st ∧
     s_refund st' = h_height hd + g_lazyRewardBlocks (gparams s)).
Proof.
  intros Hu Hst. apply hashes_unique_pt in Hu.
  destruct (evolves_fate_lists stake_sim _ _ _ st Qok_sim Hu (begin_block_evolves s hd) Hst) as [F1 F2]. split.
  - exact F1.
  - intros st' Hin Heq. destruct (F2 st' Hin Heq) as (s1 & (H1 & H2 & H3 & H4 & H5) & ->). simpl.
    unfold block_release_height. auto.
Qed.
Print Assumptions stake_begin_block_fields.

(* slashing only lowers a power (ratio between 0 and 100, as params_ok demands) *)
Definition stake_cut (x y : stake) : Prop := stake_sim x y ∧ (0 ≤ s_power x → 0 ≤ s_power y ≤ s_power x).
Lemma Qok_cut : Qok stake_cut.
Proof.
  split.
  - intros x. split; [apply (Q_refl _ Qok_sim) | lia].
  - intros x y z [H1 H2] [H3 H4]. split; [eapply (Q_trans _ Qok_sim); eassumption | lia].
  - intros x y [H _]. apply (Q_hash _ Qok_sim); assumption.
Qed.

Lemma slash_amount_bounds p ratio : 0 ≤ ratio ≤ 100 → 0 ≤ p → 0 ≤ p - (p * ratio) `quot` 100 ≤ p.
Proof.
  intros Hr Hp. rewrite Z.quot_div_nonneg by nia.
  assert (0 ≤ p * ratio / 100) by (apply Z.div_pos; nia).
  assert (p * ratio / 100 ≤ p) by (apply Z.div_le_upper_bound; nia). lia.
Qed.

Lemma begin_block_evolves_cut s hd : 0 ≤ g_slashRatio (gparams s) ≤ 100 →
  evolves stake_cut (block_release_height s hd) (work s) (work (begin_block s hd).1).
Proof.
  intros Hr. apply begin_block_evolves_gen; [apply Qok_cut|].
  intros x _. split; [repeat split | apply slash_amount_bounds; exact Hr].
Qed.

Theorem stake_begin_block_power s hd st :
  hashes_unique (work s) → 0 ≤ g_slashRatio (gparams s) ≤ 100 → st ∈ bonded_stakes (work s) → 0 ≤ s_power st →
  ∀ st', st' ∈ bonded_stakes (work (begin_block s hd).1) ++ frozen_stakes (work (begin_block s hd).1) →
    s_hash st' = s_hash st → 0 ≤ s_power st' ≤ s_power st.
Proof.
  intros Hu Hr Hst Hp st' Hin Heq. apply hashes_unique_pt in Hu.
  destruct (evolves_fate_lists stake_cut _ _ _ st Qok_cut Hu (begin_block_evolves_cut s hd Hr) Hst) as [F1 F2].
  apply elem_of_app in Hin as [Hin | Hin].
  - destruct (F1 st' Hin Heq) as [_ H]. auto.
  - destruct (F2 st' Hin Heq) as (s1 & [_ H] & ->). simpl. auto.
Qed.
Print Assumptions stake_begin_block_power.

(* ================================================================== 9. (C2) the unbonding period is fixed at release *)
(* where an unbonding entry comes from: it was there before, or it is a bonded stake released by this
   very operation, stamped with [current height + lazyRewardBlocks] of the parameters in force *)
Theorem release_stamps_refund_height s t s' r k x :
  deliver s t = (s', r) → frozen (work s') !! k = Some x →
  frozen (work s) !! k = Some x ∨
  ∃ st, st ∈ bonded_stakes (work s) ∧ k = s_hash st ∧
        x = with_refund (b_height (bctx s) + g_lazyRewardBlocks (gparams s)) st.
Proof.
  intros Hdel Hk. apply deliver_moves in Hdel as [[_ B] | (_ & _ & _ & _ & _ & HF)].
  - destruct (B _ _ Hk) as [Hold | (a & d & s0 & s1 & Hd & Hs0 & <- & -> & -> & _)]; [left; assumption|].
    right. exists s0. split; [apply elem_of_bonded; eauto | split; reflexivity].
  - left. rewrite <- HF. exact Hk.
Qed.
Print Assumptions release_stamps_refund_height.

Theorem force_release_stamps_refund_height s hd k x :
  frozen (work (begin_block s hd).1) !! k = Some x →
  frozen (work s) !! k = Some x ∨
  ∃ st s1, st ∈ bonded_stakes (work s) ∧ k = s_hash st ∧ stake_sim st s1 ∧
           x = with_refund (h_height hd + g_lazyRewardBlocks (gparams s)) s1.
Proof.
  intros Hk. destruct (begin_block_evolves s hd) as [_ B].
  destruct (B _ _ Hk) as [Hold | (a & d & s0 & s1 & Hd & Hs0 & Hq & -> & -> & _)]; [left; assumption|].
  right. exists s0, s1. split; [apply elem_of_bonded; eauto|]. auto.
Qed.
Print Assumptions force_release_stamps_refund_height.

Lemma unstake_result_frozen_kept D F a d hs s0 R k x :
  find_stake hs (d_stakes d) = Some s0 → (∀ s1, s1 ∈ d_stakes d → s_hash s1 ≠ k) → F !! k = Some x →
  (unstake_result D F a d hs s0 R).2 !! k = Some x.
Proof.
  intros Hf Hk HF. destruct (find_stake_spec _ _ _ Hf) as [Hin0 _].
  assert (H1 : <[s_hash s0 := with_refund R s0]> F !! k = Some x)
    by (rewrite lookup_insert_ne by (apply Hk, Hin0); exact HF).
  unfold unstake_result; cbv zeta; simpl. destruct (_ =? 0); [|exact H1].
  rewrite freeze_all_keep; [exact H1|]. intros s1 Hs1. apply Hk.
  unfold del_stake in Hs1. rewrite Hf in Hs1. exact (sublist_elem _ _ _ (remove_stake_sublist _ _) Hs1).
Qed.

(* an entry of the unbonding ledger is not touched by deliveries and BeginBlock; an entry can be
   lost only by a collision of hashes, which [hashes_unique] excludes: no bonded stake has its key *)
Theorem frozen_untouched s o k x :
  hashes_unique (work s) → o ≠ SEnd → frozen (work s) !! k = Some x → frozen (work (sstep s o)) !! k = Some x.
Proof.
  intros Hu Ho Hk. apply hashes_unique_pt in Hu. destruct o as [hd|t| |]; simpl.
  - apply (begin_block_ind_hu (λ l, frozen l !! k = Some x)); [exact Hu | exact Hk | | | |].
    + intros l l' [_ HF] H. rewrite HF. exact H.
    + intros l a d _ H _. exact H.
    + intros l a d m H _. exact H.
    + intros l a d (_ & _ & U3 & _) H Hd. unfold jail.
      rewrite frozen_set_dels, frozen_set_frozen, freeze_all_keep; [exact H|].
      intros st Hst. exact (U3 _ _ _ _ _ Hd Hst H).
  - destruct Hu as (_ & _ & U3 & _).
    destruct (deliver_stake_cases _ _ _ _ (surjective_pairing (deliver s t)))
      as [[_ HF] | [(_ & _ & _ & _ & _ & HF) | (_ & _ & d & hs & b & s0 & Hd & _ & Hf & _ & _ & HF)]].
    + rewrite HF. exact Hk.
    + rewrite HF. exact Hk.
    + rewrite HF. apply unstake_result_frozen_kept; [exact Hf | | exact Hk].
      intros s1 Hs1. exact (U3 _ _ _ _ _ Hd Hs1 Hk).
  - contradiction.
  - assumption.
Qed.
Print Assumptions frozen_untouched.

(* EndBlock only deletes from the unbonding ledger; parameters changing later cannot reach an entry *)
Theorem end_block_frozen_only_deletes s k x :
  frozen (work (end_block s).1) !! k = Some x → frozen (work s) !! k = Some x.
Proof.
  apply end_block_stakes.
Qed.

(* ================================================================== 10. (C3) the refund *)
Lemma credit_fields x amt :
  a_nonce (credit x amt) = a_nonce x ∧ a_code (credit x amt) = a_code x ∧
  a_name (credit x amt) = a_name x ∧ a_doc (credit x amt) = a_doc x.
Proof. repeat split. Qed.

Lemma foldl_credit_fields amts : ∀ x,
  a_nonce (foldl credit x amts) = a_nonce x ∧ a_code (foldl credit x amts) = a_code x ∧
  a_name (foldl credit x amts) = a_name x ∧ a_doc (foldl credit x amts) = a_doc x.
Proof.
  induction amts as [|a amts IH]; intros x; simpl; [repeat split|].
  destruct (IH (credit x a)) as (H1 & H2 & H3 & H4). simpl in *. auto.
Qed.

Lemma foldl_credit_bal_mod amts : ∀ x,
  a_bal (foldl credit x amts) mod two256 = (a_bal x + sumZ amts) mod two256.
Proof.
  induction amts as [|a amts IH]; intros x; simpl; [f_equal; lia|].
  rewrite IH. simpl. unfold add256, wrap256.
  rewrite Zplus_mod_idemp_l. f_equal. lia.
Qed.

Lemma foldl_credit_bal amts x : 0 ≤ a_bal x < two256 →
  a_bal (foldl credit x amts) = (a_bal x + sumZ amts) mod two256.
Proof.
  revert x. induction amts as [|a amts IH]; intros x Hx; simpl.
  - rewrite Z.add_0_r, Z.mod_small by assumption. reflexivity.
  - rewrite IH by (simpl; apply wrap256_range). simpl. unfold add256, wrap256.
    rewrite Zplus_mod_idemp_l. f_equal. lia.
Qed.

Lemma refunds_to_perm h a (l k : list (hash * stake)) : l ≡ₚ k → sumZ (refunds_to h a l) = sumZ (refunds_to h a k).
Proof.
  assert (Hcons : ∀ x l, sumZ (refunds_to h a (x :: l)) =
     (if matured h x && (s_from x.2 =? a)%N then power_to_amount (s_power x.2) else 0) + sumZ (refunds_to h a l)).
  { intros x l0. unfold refunds_to. simpl. destruct (matured h x && _); reflexivity. }
  induction 1 as [|x l k _ IH|x y l|l k m _ IH1 _ IH2].
  - reflexivity.
  - rewrite !Hcons, IH. reflexivity.
  - rewrite !Hcons. lia.
  - congruence.
Qed.

Lemma matured_exists h (m : gmap hash stake) k :
  existsb (λ kp : hash * stake, (kp.1 =? k)%N && matured h kp) (sorted_items m) = true ↔
  ∃ st, m !! k = Some st ∧ s_refund st ≤ h.
Proof.
  rewrite existsb_exists. split.
  - intros ([k' st] & Hin & Hb). apply andb_true_iff in Hb as [Hk Hm]. simpl in Hk. apply N.eqb_eq in Hk. subst k'.
    apply elem_of_list_In, elem_of_sorted_items in Hin. exists st. split; [assumption|].
    unfold matured in Hm. simpl in Hm. lia.
  - intros (st & Hst & Hle). exists (k, st). split; [apply elem_of_list_In, elem_of_sorted_items; assumption|].
    apply andb_true_iff. split; [apply N.eqb_refl | unfold matured; simpl; lia].
Qed.

(* the account EndBlock's refund loop starts from: the proposer has just received the block's fees *)
Definition fee_credited (s : state) (a : addr) : account :=
  match b_proposer (bctx s) with
  | Some pa => if decide (pa = a) then
                 if 0 <? sign256 (b_feesum (bctx s)) then credit (acct_of (work s) a) (b_feesum (bctx s))
                 else acct_of (work s) a
               else acct_of (work s) a
  | None => acct_of (work s) a
  end.

Definition refund_total (base : ledgers) (h : Z) (a : addr) : Z := sumZ (refunds_to h a (map_to_list (frozen base))).

Theorem unfreeze_exact s s' ups :
  end_block s = (s', Ok ups) →
  let h := b_height (bctx s) in let base := base_of s in
  (* matured entries of the committed ledger leave the unbonding ledger *)
  (∀ k st, frozen base !! k = Some st → s_refund st ≤ h → frozen (work s') !! k = None) ∧
  (* everything else stays, in particular what has not matured: never earlier *)
  (∀ k, (∀ st, frozen base !! k = Some st → h < s_refund st) → frozen (work s') !! k = frozen (work s) !! k) ∧
  (* each account receives exactly the amounts of the matured stakes it owns, once per entry *)
  (∀ a, acct_of (work s') a = foldl credit (fee_credited s a) (refunds_to h a (sorted_items (frozen base)))) ∧
  (* bonded stakes are not involved *)
  dels (work s') = dels (work s).
Proof.
  intros E. cbv zeta.
  apply end_block_inv in E as [[_ Hno] | (ups' & l3 & _ & [HD HF] & Hoth & Hprop & Hun & _)].
  { destruct (Hno ups); reflexivity. }
  rewrite unfreeze_eq in Hun. apply unfreeze_list_spec in Hun as (HD' & HF' & HA').
  split; [|split; [|split]].
  - intros k st Hst Hle. rewrite HF'.
    destruct (existsb _ _) eqn:Ex; [reflexivity|].
    assert (Ht : existsb (λ kp : hash * stake, (kp.1 =? k)%N && matured (b_height (bctx s)) kp)
                   (sorted_items (frozen (base_of s))) = true) by (apply matured_exists; eauto).
    congruence.
  - intros k Hk. rewrite HF'. destruct (existsb _ _) eqn:Ex; [|rewrite HF; reflexivity].
    apply matured_exists in Ex as (st & Hst & Hle). specialize (Hk _ Hst). lia.
  - intros a. rewrite HA'. f_equal. unfold fee_credited.
    destruct (b_proposer (bctx s)) as [pa|] eqn:Ep.
    + destruct (decide (pa = a)) as [->|Hne]; [apply Hprop; reflexivity | apply Hoth; congruence].
    + apply Hoth. discriminate.
  - congruence.
Qed.
Print Assumptions unfreeze_exact.

(* never to anyone else: an account that owns no matured entry is not touched by the refund loop *)
Corollary refund_only_to_owner s s' ups a :
  end_block s = (s', Ok ups) →
  (∀ k st, frozen (base_of s) !! k = Some st → s_refund st ≤ b_height (bctx s) → s_from st ≠ a) →
  acct_of (work s') a = fee_credited s a.
Proof.
  intros E Hno. destruct (unfreeze_exact _ _ _ E) as (_ & _ & HA & _). rewrite HA.
  replace (refunds_to (b_height (bctx s)) a (sorted_items (frozen (base_of s)))) with (@nil Z); [reflexivity|].
  symmetry. unfold refunds_to.
  assert (Hall : Forall (λ kp : hash * stake, matured (b_height (bctx s)) kp && (s_from kp.2 =? a)%N = false)
                   (sorted_items (frozen (base_of s)))).
  { apply Forall_forall. intros [k st] Hin. apply elem_of_sorted_items in Hin. simpl.
    destruct (matured _ _) eqn:Em; [|reflexivity]. simpl.
    apply N.eqb_neq. eapply Hno; [exact Hin|]. unfold matured in Em; simpl in Em; lia. }
  clear HA. induction Hall as [|kp l Hkp _ IH]; simpl; [reflexivity|]. rewrite Hkp. exact IH.
Qed.

(* in full: the balance grows by the sum of power x 10^18 over the owner's matured entries *)
Corollary refund_balance s s' ups a :
  end_block s = (s', Ok ups) → 0 ≤ a_bal (fee_credited s a) < two256 →
  bal_of (work s') a = (a_bal (fee_credited s a) + refund_total (base_of s) (b_height (bctx s)) a) mod two256.
Proof.
  intros E Hr. destruct (unfreeze_exact _ _ _ E) as (_ & _ & HA & _). unfold bal_of. rewrite HA.
  rewrite foldl_credit_bal by assumption. unfold refund_total.
  rewrite (refunds_to_perm _ _ _ _ (sorted_items_perm (frozen (base_of s)))). reflexivity.
Qed.

Print Assumptions refund_only_to_owner.
Print Assumptions refund_balance.

Lemma fee_credited_other s a : b_proposer (bctx s) ≠ Some a → fee_credited s a = acct_of (work s) a.
Proof.
  unfold fee_credited. destruct (b_proposer (bctx s)) as [pa|]; [|reflexivity].
  destruct (decide (pa = a)) as [->|]; [intros H; destruct H; reflexivity | reflexivity].
Qed.

Lemma power_to_amount_exact p : 0 ≤ p < two63 → power_to_amount p = p * amountPerPower.
Proof.
  Local Transparent two63 two64 two256.
  unfold power_to_amount, mul256, wrap256, two63, two64, two256, amountPerPower. intros Hp.
  rewrite (Z.mod_small p) by lia. apply Z.mod_small. lia.
  Local Opaque two63 two64 two256.
Qed.

(* exactly once: after the Commit that follows, the refunded keys are gone from the committed
   unbonding ledger, which is what the next EndBlock iterates *)
Corollary refunded_entry_gone s s' ups k st :
  end_block s = (s', Ok ups) → frozen (base_of s) !! k = Some st → s_refund st ≤ b_height (bctx s) →
  frozen (base_of (commit s')) !! k = None.
Proof.
  intros E Hst Hle. destruct (unfreeze_exact _ _ _ E) as (H1 & _).
  unfold base_of, commit. simpl. rewrite last_snoc. simpl. eapply H1; eassumption.
Qed.
Print Assumptions refunded_entry_gone.

(* ================================================================== 11. (B3) a stake is never lost: bonded or unbonding *)
Lemma unstake_result_no_loss D F a d hs s0 R st :
  delegatee_ok a d → NoDup (s_hash <$> d_stakes d) → (∀ x, x ∈ d_stakes d → 0 ≤ s_power x) →
  find_stake hs (d_stakes d) = Some s0 → st ∈ d_stakes d →
  (∃ d', (unstake_result D F a d hs s0 R).1 !! a = Some d' ∧ st ∈ d_stakes d') ∨
  (unstake_result D F a d hs s0 R).2 !! s_hash st = Some (with_refund R st).
Proof.
  intros Hok Hnd Hpos Hf Hst. destruct (find_stake_spec _ _ _ Hf) as [Hin0 Hh0].
  pose proof (del_stake_ok a d hs Hok) as (_ & Ht1 & Hs1 & _).
  assert (Hst1 : d_stakes (del_stake d hs) = remove_stake hs (d_stakes d)) by (unfold del_stake; rewrite Hf; reflexivity).
  assert (Hnd1 : NoDup (s_hash <$> remove_stake hs (d_stakes d))).
  { eapply sublist_NoDup'; [apply fmap_sublist, remove_stake_sublist | exact Hnd]. }
  unfold unstake_result; cbv zeta; simpl.
  destruct (decide (st = s0)) as [->|Hne].
  - right. destruct (d_self (del_stake d hs) =? 0).
    + rewrite freeze_all_keep; [apply lookup_insert|].
      intros x Hx Heq. rewrite Hst1 in Hx. apply (remove_stake_hash_notin hs _ Hnd).
      apply elem_of_list_fmap. exists x. split; [congruence | assumption].
    + apply lookup_insert.
  - assert (Hin1 : st ∈ remove_stake hs (d_stakes d)) by (eapply remove_stake_elem_ne; eassumption).
    destruct (d_self (del_stake d hs) =? 0) eqn:Es.
    + right. rewrite Hst1. apply freeze_all_new; assumption.
    + apply Z.eqb_neq in Es. destruct (d_total (del_stake d hs) =? 0) eqn:Et.
      * exfalso. apply Z.eqb_eq in Et. rewrite Hst1 in Ht1, Hs1.
        assert (Hb : 0 ≤ sum_power_of a (remove_stake hs (d_stakes d)) ≤ sum_power (remove_stake hs (d_stakes d))).
        { apply sum_power_of_bounds. intros x Hx. apply Hpos. eapply sublist_elem; [apply remove_stake_sublist | exact Hx]. }
        lia.
      * left. exists (del_stake d hs). split; [apply lookup_insert | rewrite Hst1; assumption].
Qed.

Theorem deliver_never_loses s t st :
  hashes_unique (work s) → dels_ok (work s) → (∀ x, x ∈ bonded_stakes (work s) → 0 ≤ s_power x) →
  st ∈ bonded_stakes (work s) →
  st ∈ bonded_stakes (work (deliver s t).1) ∨
  frozen (work (deliver s t).1) !! s_hash st
    = Some (with_refund (b_height (bctx s) + g_lazyRewardBlocks (gparams s)) st).
Proof.
  intros Hu Hok Hpos Hst. apply hashes_unique_pt in Hu. destruct Hu as (U1 & _).
  destruct (deliver s t) as [s' r] eqn:E. simpl.
  apply elem_of_bonded in Hst as (a & d & Hd & Hst).
  apply deliver_stake_cases in E as [[HD _] | [(_ & _ & d0 & Hd0 & HD & _) | (_ & _ & d0 & hs & b & s0 & Hd0 & _ & Hf & _ & HD & HF)]].
  - left. apply elem_of_bonded. exists a, d. rewrite HD. auto.
  - left. apply elem_of_bonded. rewrite HD. destruct (decide (a = t_to t)) as [->|Hne].
    + eexists _, _. split; [apply lookup_insert|]. simpl. apply elem_of_app. left.
      destruct Hd0 as [Hd0 | (Hd0 & _)]; [|congruence]. assert (d0 = d) by congruence. subst d0. assumption.
    + exists a, d. split; [|assumption]. rewrite lookup_insert_ne by congruence. assumption.
  - destruct (decide (a = t_to t)) as [->|Hne].
    + assert (d0 = d) by congruence. subst d0.
      destruct (unstake_result_no_loss (dels (work s)) (frozen (work s)) (t_to t) d hs s0 (release_height s) st)
        as [(d' & Hd' & Hin') | Hfr]; [exact (Hok _ _ Hd) | exact (U1 _ _ Hd) | | exact Hf | exact Hst | |].
      * intros x Hx. apply Hpos, elem_of_bonded. eauto.
      * left. apply elem_of_bonded. exists (t_to t), d'. rewrite HD. auto.
      * right. rewrite HF. exact Hfr.
    + left. apply elem_of_bonded. exists a, d. rewrite HD, unstake_result_lookup_ne by assumption. auto.
Qed.
Print Assumptions deliver_never_loses.

(* BeginBlock without evidence: a stake stays bonded or, when its validator is jailed for missed
   blocks, starts unbonding *)
Theorem begin_block_never_loses s hd st :
  hashes_unique (work s) → h_evidence hd = [] → st ∈ bonded_stakes (work s) →
  st ∈ bonded_stakes (work (begin_block s hd).1) ∨
  frozen (work (begin_block s hd).1) !! s_hash st
    = Some (with_refund (h_height hd + g_lazyRewardBlocks (gparams s)) st).
Proof.
  intros Hu Hev Hst. apply hashes_unique_pt in Hu.
  apply (begin_block_ind_hu (λ l, st ∈ bonded_stakes l ∨
           frozen l !! s_hash st = Some (with_refund (block_release_height s hd) st))); [exact Hu | left; exact Hst | | | |].
  - intros l l' [HD HF] H. rewrite HF. destruct H as [H | H]; [left | right; exact H].
    apply elem_of_bonded in H as (a & d & Hd & Hin). apply elem_of_bonded. exists a, d. rewrite HD. auto.
  - intros l a d Hin. rewrite Hev in Hin. inversion Hin.
  - intros l a d m H Hd. destruct H as [H | H]; [left | right; exact H].
    apply elem_of_bonded in H as (a' & d' & Hd' & Hin'). apply elem_of_bonded. rewrite dels_set_dels.
    destruct (decide (a' = a)) as [->|Hne].
    + exists a, (with_marks d m). split; [apply lookup_insert|]. simpl. congruence.
    + exists a', d'. split; [rewrite lookup_insert_ne by congruence; assumption | assumption].
  - intros l a d (U1 & _ & U3 & _) H Hd. unfold jail. rewrite frozen_set_dels, frozen_set_frozen.
    destruct H as [H | H].
    + apply elem_of_bonded in H as (a' & d' & Hd' & Hin'). destruct (decide (a' = a)) as [->|Hne].
      * right. assert (d' = d) by congruence. subst d'. apply freeze_all_new; [exact (U1 _ _ Hd) | assumption].
      * left. apply elem_of_bonded. exists a', d'. rewrite dels_set_dels, lookup_delete_ne by congruence. auto.
    + right. rewrite freeze_all_keep; [assumption|]. intros x Hx. exact (U3 _ _ _ _ _ Hd Hx H).
Qed.
Print Assumptions begin_block_never_loses.

(* which bonded stakes BeginBlock can take away: those of a delegatee named in the evidence (a stake
   whose slash would be less than 1 is removed by doSlashAll) or of a validator that missed a block
   (force release); all others keep a stake with their hash under the same delegatee *)
Theorem begin_block_release_cases s hd a d st :
  dels (work s) !! a = Some d → st ∈ d_stakes d →
  (∃ d' st', dels (work (begin_block s hd).1) !! a = Some d' ∧ st' ∈ d_stakes d' ∧ s_hash st' = s_hash st) ∨
  a ∈ h_evidence hd ∨ (∃ pw, (a, pw, false) ∈ h_votes hd).
Proof.
  intros Hd Hst.
  pose (P := λ l, (∃ d' st', dels l !! a = Some d' ∧ st' ∈ d_stakes d' ∧ s_hash st' = s_hash st) ∨
                  a ∈ h_evidence hd ∨ (∃ pw, (a, pw, false) ∈ h_votes hd)).
  apply (begin_block_ind P).
  - intros l l' [HD _] [H | H]; [left | right; exact H]. rewrite HD. exact H.
  - left. eauto.
  - intros l a0 d0 Hev [(d' & st' & Hd' & Hin' & Hh) | H] Hd0; [|right; exact H].
    destruct (decide (a0 = a)) as [->|Hne]; [right; left; exact Hev|].
    left. exists d', st'. rewrite dels_set_dels, lookup_insert_ne by assumption. auto.
  - intros l a0 d0 m [(d' & st' & Hd' & Hin' & Hh) | H] Hd0; [|right; exact H]. left.
    destruct (decide (a0 = a)) as [->|Hne].
    + assert (d0 = d') by congruence. subst d0. exists (with_marks d' m), st'.
      rewrite dels_set_dels, lookup_insert. auto.
    + exists d', st'. rewrite dels_set_dels, lookup_insert_ne by assumption. auto.
  - intros l a0 d0 Hmiss [(d' & st' & Hd' & Hin' & Hh) | H] Hd0; [|right; exact H].
    destruct (decide (a0 = a)) as [->|Hne]; [right; right; exact Hmiss|].
    left. exists d', st'. unfold jail. rewrite dels_set_dels, lookup_delete_ne by assumption. auto.
Qed.
Print Assumptions begin_block_release_cases.

(* ================================================================== 12. examples: the hypotheses are satisfiable *)
Definition ex_genesis : genesis :=
  {| gen_params := ex_params; gen_holders := [(1%N, 1000); (3%N, 5000000000000001000)]; gen_validators := [(1%N, 10)] |}.
Definition ex_stake (from to : addr) (amt nonce : Z) (txh : hash) : tx := {|
  t_type := TRX_STAKING; t_from := from; t_to := to; t_from_ok := true; t_to_ok := true;
  t_amount := amt; t_price := 1; t_gas := 10; t_nonce := nonce; t_payload := PNone; t_hash := txh;
  t_sigok := true; t_evm := None |}.
Definition ex_unstake2 (from to : addr) (h : hash) (nonce : Z) (txh : hash) : tx := {|
  t_type := TRX_UNSTAKING; t_from := from; t_to := to; t_from_ok := true; t_to_ok := true;
  t_amount := 0; t_price := 1; t_gas := 10; t_nonce := nonce; t_payload := PUnstake h true; t_hash := txh;
  t_sigok := true; t_evm := None |}.
(* block 1: account 3 delegates power 2 to validator 1; block 2: it releases that stake *)
Definition ex_b1 : list sop := [SBegin (ex_header 1); SDeliver (ex_stake 3%N 1%N 2000000000000000000 0 201%N); SEnd; SCommit].
Definition ex_tx_un : tx := ex_unstake2 3%N 1%N 201%N 1 202%N.
Definition ex_b2 : list sop := [SBegin (ex_header 2); SDeliver ex_tx_un; SEnd; SCommit].
Definition ex_b3 : list sop := [SBegin (ex_header 3); SEnd; SCommit].
Definition ex_delegation : stake :=
  {| s_from := 3%N; s_to := 1%N; s_hash := 201%N; s_start := 2; s_refund := 0; s_power := 2 |}.

Definition ex_s1 : state := srun (init_chain ex_genesis) ex_b1.                           (* after block 1 *)
Definition ex_s2 : state := srun (init_chain ex_genesis) (ex_b1 ++ [SBegin (ex_header 2)]). (* inside block 2 *)
Definition ex_s4 : state :=                                                              (* inside block 4 *)
  srun (init_chain ex_genesis) (ex_b1 ++ ex_b2 ++ ex_b3 ++ [SBegin (ex_header 4)]).

Lemma ex_fresh ops : fresh_runb (init_chain ex_genesis) ops = true →
  hashes_unique (work (srun (init_chain ex_genesis) ops)).
Proof. intros H. apply hashes_unique_reachable; [simpl; lia | apply fresh_runb_ok, H]. Qed.

(* (A): a reachable state with a delegation; the query equals the sum *)
Example ex_dels_ok :
  dels_ok (work ex_s1) ∧ bonded_stakes (work ex_s1) = [genesis_stake (1%N, 10); ex_delegation] ∧
  sumZ_with (λ kv : addr * delegatee, d_total kv.2) (map_to_list (dels (work ex_s1))) = 12 ∧
  (d_self <$> dels (work ex_s1) !! 1%N) = Some 10.
Proof. split; [apply dels_ok_reachable|]. vm_conj. Qed.

(* (B1)/(B3)/(C1)/(C2): the hypotheses of the theorems hold in block 2, where account 3 releases its stake *)
Example ex_release :
  let s := ex_s2 in let s' := (deliver s ex_tx_un).1 in
  hashes_unique (work s) ∧ fresh_tx s ex_tx_un ∧ dels_ok (work s) ∧
  (∀ x, x ∈ bonded_stakes (work s) → 0 ≤ s_power x) ∧
  deliver s ex_tx_un = (s', Ok 10) ∧
  ex_delegation ∈ bonded_stakes (work s) ∧ ex_delegation ∉ bonded_stakes (work s') ∧
  frozen (work s') !! 201%N = Some (with_refund 4 ex_delegation) ∧
  genesis_stake (1%N, 10) ∈ bonded_stakes (work s').
Proof.
  intros s s'.
  assert (Hev : bonded_stakes (work s) = [genesis_stake (1%N, 10); ex_delegation] ∧
                bonded_stakes (work s') = [genesis_stake (1%N, 10)] ∧
                fresh_txb s ex_tx_un = true ∧ (deliver s ex_tx_un).2 = Ok 10 ∧
                frozen (work s') !! 201%N = Some (with_refund 4 ex_delegation)) by vm_conj.
  destruct Hev as (Hb & Hb' & Hfresh & Hr & Hfr).
  split; [apply ex_fresh; vm_compute; reflexivity|].
  split; [apply fresh_txb_ok, Hfresh|].
  split; [apply dels_ok_reachable|].
  split. { intros x Hx. rewrite Hb in Hx. repeat (apply elem_of_cons in Hx as [-> | Hx]; [simpl; lia|]). inversion Hx. }
  split; [subst s'; rewrite <- Hr; apply surjective_pairing|].
  split; [rewrite Hb; right; left|].
  split. { rewrite Hb'. intros Hx. repeat (apply elem_of_cons in Hx as [Hx | Hx]; [discriminate Hx|]). inversion Hx. }
  split; [exact Hfr|].
  rewrite Hb'. left.
Qed.

(* slashing: evidence against validator 1 halves every stake bonded to it *)
Definition ex_header_evidence : header :=
  {| h_height := 2; h_proposer := Some 1%N; h_votes := []; h_evidence := [1%N] |}.
Example ex_slash :
  hashes_unique (work ex_s1) ∧ 0 ≤ g_slashRatio (gparams ex_s1) ≤ 100 ∧
  ex_delegation ∈ bonded_stakes (work ex_s1) ∧
  bonded_stakes (work (begin_block ex_s1 ex_header_evidence).1)
    = [with_power 5 (genesis_stake (1%N, 10)); with_power 1 ex_delegation].
Proof.
  assert (Hev : bonded_stakes (work ex_s1) = [genesis_stake (1%N, 10); ex_delegation] ∧
                g_slashRatio (gparams ex_s1) = 50 ∧
                bonded_stakes (work (begin_block ex_s1 ex_header_evidence).1)
                  = [with_power 5 (genesis_stake (1%N, 10)); with_power 1 ex_delegation]) by vm_conj.
  destruct Hev as (Hb & Hratio & Hb').
  split; [apply ex_fresh; vm_compute; reflexivity|].
  split; [rewrite Hratio; lia|].
  split; [rewrite Hb; right; left | exact Hb'].
Qed.

(* force release: with a window of 10 and 10 required signatures one missed block jails the validator;
   every stake bonded to it, the delegator's included, starts unbonding with refund height 2 + 2 *)
Definition ex_params_strict : params := {|
  g_version := 1; g_maxValidatorCnt := 10; g_minValidatorStake := 1000000000000000000; g_minDelegatorStake := 0;
  g_rewardPerPower := 1; g_lazyRewardBlocks := 2; g_lazyApplyingBlocks := 1; g_gasPrice := 1;
  g_minTrxGas := 10; g_maxTrxGas := 1000; g_maxBlockGas := 100000; g_minVotingPeriodBlocks := 1;
  g_maxVotingPeriodBlocks := 100; g_minSelfStakeRatio := 50; g_maxUpdatableStakeRatio := 30;
  g_maxIndividualStakeRatio := 100; g_slashRatio := 50; g_signedBlocksWindow := 10; g_minSignedBlocks := 10 |}.
Definition ex_genesis_strict : genesis :=
  {| gen_params := ex_params_strict; gen_holders := gen_holders ex_genesis; gen_validators := gen_validators ex_genesis |}.
Definition ex_header_missed : header :=
  {| h_height := 2; h_proposer := Some 1%N; h_votes := [(1%N, 12, false)]; h_evidence := [] |}.
Example ex_jail :
  let s := srun (init_chain ex_genesis_strict) ex_b1 in let s' := (begin_block s ex_header_missed).1 in
  (begin_block s ex_header_missed).2 = Ok 0 ∧
  bonded_stakes (work s) = [genesis_stake (1%N, 10); ex_delegation] ∧ bonded_stakes (work s') = [] ∧
  frozen (work s') !! 201%N = Some (with_refund 4 ex_delegation) ∧
  frozen (work s') !! 0%N = Some (with_refund 4 (genesis_stake (1%N, 10))).
Proof. intros s s'. vm_conj. Qed.

(* (C3): block 4 is the refund height of the released stake; account 3 gets 2 x 10^18 back *)
Example ex_refund :
  let s := ex_s4 in let s' := (end_block s).1 in
  end_block s = (s', Ok []) ∧
  frozen (base_of s) !! 201%N = Some (with_refund 4 ex_delegation) ∧ b_height (bctx s) = 4 ∧
  0 ≤ a_bal (fee_credited s 3%N) < two256 ∧
  refund_total (base_of s) 4 3%N = 2 * amountPerPower ∧
  bal_of (work s') 3%N = bal_of (work s) 3%N + 2 * amountPerPower ∧
  frozen_stakes (work s') = [] ∧ bal_of (work s') 1%N = bal_of (work s) 1%N.
Proof.
  intros s s'.
  assert (Hr : (end_block s).2 = Ok []) by (vm_compute; reflexivity).
  split; [subst s'; rewrite <- Hr; apply surjective_pairing|].
  vm_compute. repeat (match goal with |- _ ∧ _ => split end); try reflexivity. discriminate.
Qed.

(* one block earlier nothing is paid: never earlier *)
Example ex_not_earlier :
  let s := srun (init_chain ex_genesis) (ex_b1 ++ ex_b2 ++ [SBegin (ex_header 3)]) in
  (end_block s).2 = Ok [(1%N, 10)] ∧ bal_of (work (end_block s).1) 3%N = bal_of (work s) 3%N ∧
  frozen (work (end_block s).1) !! 201%N = Some (with_refund 4 ex_delegation).
Proof. intros s. vm_conj. Qed.
