(* SignerProofs.v — C20: the model signer never double-signs, over every sequence of requests,
   lost answers (crash after the state was saved) and reloads. *)
From Rigo Require Import Base Signer.

(* lexicographic order on (height, round, step), as Props over Z so that lia decides it *)
Definition t_lt (h1 r1 s1 h2 r2 s2 : Z) : Prop :=
  h1 < h2 \/ (h1 = h2 /\ (r1 < r2 \/ (r1 = r2 /\ s1 < s2))).
Definition t_eq (h1 r1 s1 h2 r2 s2 : Z) : Prop := h1 = h2 /\ r1 = r2 /\ s1 = s2.
Definition t_le (h1 r1 s1 h2 r2 s2 : Z) : Prop :=
  t_lt h1 r1 s1 h2 r2 s2 \/ t_eq h1 r1 s1 h2 r2 s2.

Lemma hrs_leb_iff a b :
  hrs_leb a b = true <-> t_le (rl_h a) (rl_r a) (rl_step a) (rl_h b) (rl_r b) (rl_step b).
Proof.
  unfold hrs_leb, t_le, t_lt, t_eq.
  rewrite !orb_true_iff, !andb_true_iff, !orb_true_iff, !andb_true_iff,
          !Z.ltb_lt, !Z.eqb_eq, Z.leb_le. lia.
Qed.

Lemma hrs_eqb_iff a b :
  hrs_eqb a b = true <-> t_eq (rl_h a) (rl_r a) (rl_step a) (rl_h b) (rl_r b) (rl_step b).
Proof.
  unfold hrs_eqb, t_eq. rewrite !andb_true_iff, !Z.eqb_eq. tauto.
Qed.

Lemma same_msg_iff a b :
  same_msg a b = true <-> rl_content a = rl_content b /\ rl_ts a = rl_ts b.
Proof. unfold same_msg. rewrite andb_true_iff, !Z.eqb_eq. tauto. Qed.

Lemma check_hrs_spec l h r s :
  match check_hrs l h r s with
  | inl _ => t_lt h r s (l_h l) (l_r l) (l_step l) \/
             (t_eq (l_h l) (l_r l) (l_step l) h r s /\ l_sb l = None)
  | inr true => t_eq (l_h l) (l_r l) (l_step l) h r s /\ exists m, l_sb l = Some m
  | inr false => t_lt (l_h l) (l_r l) (l_step l) h r s
  end.
Proof.
  unfold check_hrs, t_lt, t_eq.
  destruct (Z.ltb_spec h (l_h l)); [left; lia|]. destruct (Z.eqb_spec h (l_h l)); [|lia].
  destruct (Z.ltb_spec r (l_r l)); [left; lia|]. destruct (Z.eqb_spec r (l_r l)); [|lia].
  destruct (Z.ltb_spec s (l_step l)); [left; lia|]. destruct (Z.eqb_spec s (l_step l)); [|lia].
  destruct (l_sb l) as [m|]; [split; [lia|eauto] | right; split; [lia|reflexivity]].
Qed.

Definition outs_from (p : pv) (ops : list sop) : list sout := fst (fst (srun p ops)).
Definition rel_from (p : pv) (ops : list sop) : list released := released_of ops (outs_from p ops).

Lemma outs_from_cons p o ops :
  outs_from p (o :: ops) = snd (fst (sstep p o)) :: outs_from (fst (fst (sstep p o))) ops.
Proof.
  unfold outs_from. cbn [srun]. destruct (sstep p o) as [[p' out] ev]. cbn [fst snd].
  destruct (srun p' ops) as [[outs evs] pf]. reflexivity.
Qed.

Definition after (l : lss) (e : released) : Prop :=
  t_le (l_h l) (l_r l) (l_step l) (rl_h e) (rl_r e) (rl_step e) /\
  (t_eq (l_h l) (l_r l) (l_step l) (rl_h e) (rl_r e) (rl_step e) ->
   exists m, l_sb l = Some m /\ rl_content e = sb_content m /\ rl_ts e = sb_ts m).

Definition wf_sb (l : lss) : Prop :=
  forall m, l_sb l = Some m -> sb_h m = l_h l /\ sb_r m = l_r l /\ sb_step m = l_step l.

Lemma reload_id p : vol p = dur p -> reload p = p.
Proof. destruct p as [v d]; unfold reload; simpl; intros ->; reflexivity. Qed.

Definition stores (l : lss) (q : request) (m : signbytes) : Prop :=
  l_sb l = Some m /\ t_eq (l_h l) (l_r l) (l_step l) (q_h q) (q_r q) (q_step q) /\
  sb_content m = q_content q.

Definition fresh_pv (q : request) : pv :=
  let l' := {| l_h := q_h q; l_r := q_r q; l_step := q_step q; l_sb := Some (req_sb q) |} in
  {| vol := l'; dur := l' |}.

Lemma stores_fresh q : stores (vol (fresh_pv q)) q (req_sb q).
Proof. repeat split. Qed.

Lemma signbytes_eqb_only_ts x m : signbytes_eqb x m = true -> only_differ_by_ts m x = true.
Proof.
  unfold signbytes_eqb, only_differ_by_ts. rewrite !andb_true_iff, !Z.eqb_eq. intuition congruence.
Qed.

Lemma only_differ_by_ts_content m x : only_differ_by_ts m x = true -> sb_content m = sb_content x.
Proof. unfold only_differ_by_ts. rewrite !andb_true_iff, !Z.eqb_eq. tauto. Qed.

(* the three ways [sign] answers.  The two tests of the same-HRS branch are one: equal sign bytes
   differ at most by the timestamp. *)
Inductive sign_spec (p : pv) (q : request) : pv * resp -> Prop :=
| sign_err e : sign_spec p q (p, RErr e)
| sign_replay m : stores (vol p) q m -> sign_spec p q (p, RReplay m)
| sign_fresh :
    t_lt (l_h (vol p)) (l_r (vol p)) (l_step (vol p)) (q_h q) (q_r q) (q_step q) ->
    sign_spec p q (fresh_pv q, RFresh (req_sb q)).

Lemma sign_cases p q : sign_spec p q (sign p q).
Proof.
  unfold sign. pose proof (check_hrs_spec (vol p) (q_h q) (q_r q) (q_step q)) as H.
  destruct (check_hrs (vol p) (q_h q) (q_r q) (q_step q)) as [e|[|]].
  - apply sign_err.
  - destruct H as [Heq [m Hm]]. rewrite Hm.
    pose proof (signbytes_eqb_only_ts (req_sb q) m) as Hsame.
    pose proof (only_differ_by_ts_content m (req_sb q)) as Hcont.
    destruct (only_differ_by_ts m (req_sb q)).
    + assert (stores (vol p) q m) by (split; [exact Hm|split; [exact Heq|apply Hcont; reflexivity]]).
      destruct (signbytes_eqb (req_sb q) m); apply sign_replay; assumption.
    + destruct (signbytes_eqb (req_sb q) m); [discriminate (Hsame eq_refl)|apply sign_err].
  - apply sign_fresh. exact H.
Qed.

Lemma sign_sync p q : vol p = dur p -> vol (fst (sign p q)) = dur (fst (sign p q)).
Proof. intros Hs. destruct (sign_cases p q); [exact Hs|exact Hs|reflexivity]. Qed.

Lemma sign_wf p q : wf_sb (vol p) -> wf_sb (vol (fst (sign p q))).
Proof.
  intros Hw. destruct (sign_cases p q); [exact Hw|exact Hw|].
  intros m [= <-]. repeat split.
Qed.

Lemma sign_forward p q :
  let l := vol p in let l' := vol (fst (sign p q)) in
  l' = l \/ t_lt (l_h l) (l_r l) (l_step l) (l_h l') (l_r l') (l_step l').
Proof. destruct (sign_cases p q); [left; reflexivity|left; reflexivity|right; assumption]. Qed.

Lemma after_weaken l l' e :
  t_lt (l_h l) (l_r l) (l_step l) (l_h l') (l_r l') (l_step l') -> after l' e -> after l e.
Proof.
  unfold after, t_le, t_lt, t_eq; intros Hlt [Hle Heq]; split; [lia|].
  intros Hc; exfalso; lia.
Qed.

Lemma rel_from_cons_req p q ops :
  rel_from p (SReq q :: ops) =
  match snd (sign p q) with
  | RFresh m | RReplay m => rel_of q (sb_ts m) :: rel_from (fst (sign p q)) ops
  | RErr _ => rel_from (fst (sign p q)) ops
  end.
Proof.
  unfold rel_from. rewrite outs_from_cons. cbn [sstep]. destruct (sign p q) as [p' []]; reflexivity.
Qed.

Lemma rel_from_cons_lost p q ops :
  rel_from p (SReqLost q :: ops) = rel_from (reload (fst (sign p q))) ops.
Proof.
  unfold rel_from. rewrite outs_from_cons. cbn [sstep]. destruct (sign p q). reflexivity.
Qed.

Lemma rel_from_cons_fail p q ops :
  rel_from p (SReqFail q :: ops) = rel_from (reload p) ops.
Proof. unfold rel_from. rewrite outs_from_cons. reflexivity. Qed.

Lemma rel_from_cons_reload p ops :
  rel_from p (SReload :: ops) = rel_from (reload p) ops.
Proof. unfold rel_from. rewrite outs_from_cons. reflexivity. Qed.

(* a list of released signatures is fine for a run from state l: free of double signs, monotone,
   and everything in it is [after] l *)
Definition good (l : lss) (rl : list released) : Prop :=
  no_double_sign rl = true /\ hrs_monotone rl = true /\ forall e, In e rl -> after l e.

Lemma good_cons l q m rest :
  stores l q m -> good l rest -> good l (rel_of q (sb_ts m) :: rest).
Proof.
  intros (Hm & Heq & Hc) (Hnd & Hmono & Haft).
  assert (He : after l (rel_of q (sb_ts m))).
  { split; [right; exact Heq|]. intros _. exists m. auto. }
  split; [|split].
  - simpl. apply andb_true_iff; split; [|exact Hnd].
    apply forallb_forall; intros b Hb.
    destruct (hrs_eqb (rel_of q (sb_ts m)) b) eqn:Eeb; simpl; [|reflexivity].
    apply hrs_eqb_iff in Eeb. apply same_msg_iff.
    destruct (Haft b Hb) as [_ (m' & Hm' & Hc' & Ht')].
    { unfold t_eq in *; simpl in Eeb; lia. }
    rewrite Hm in Hm'; injection Hm' as <-. simpl. split; congruence.
  - destruct rest as [|b rest']; [reflexivity|].
    change (hrs_leb (rel_of q (sb_ts m)) b && hrs_monotone (b :: rest') = true).
    apply andb_true_iff; split; [|exact Hmono].
    apply hrs_leb_iff. destruct (Haft b (or_introl eq_refl)) as [Hle _].
    unfold t_le, t_lt, t_eq in *; simpl; lia.
  - intros e [<-|Hin]; [exact He|apply Haft; exact Hin].
Qed.

Lemma good_weaken l l' rl :
  l' = l \/ t_lt (l_h l) (l_r l) (l_step l) (l_h l') (l_r l') (l_step l') -> good l' rl -> good l rl.
Proof.
  intros [->|Hlt]; [auto|]. intros (Hnd & Hmono & Haft).
  split; [exact Hnd|split; [exact Hmono|]]. intros e He. eapply after_weaken; eauto.
Qed.

Lemma main_inv ops : forall p, vol p = dur p -> wf_sb (vol p) -> good (vol p) (rel_from p ops).
Proof.
  induction ops as [|o ops IH]; intros p Hsync Hwf.
  - split; [reflexivity|]. split; [reflexivity|]. intros e [].
  - destruct o as [q|q|q|].
    + (* SReq: the released signature, if any, is the message the new state stores *)
      rewrite rel_from_cons_req.
      apply (good_weaken _ _ _ (sign_forward p q)).
      specialize (IH _ (sign_sync p q Hsync) (sign_wf p q Hwf)). revert IH.
      destruct (sign_cases p q) as [e|m Hm|Hlt]; cbn [fst snd]; intros IH.
      * exact IH.
      * apply good_cons; assumption.
      * apply good_cons; [apply stores_fresh|exact IH].
    + rewrite rel_from_cons_lost, (reload_id _ (sign_sync p q Hsync)).
      apply (good_weaken _ _ _ (sign_forward p q)).
      apply IH; [apply sign_sync, Hsync|apply sign_wf, Hwf].
    + rewrite rel_from_cons_fail, (reload_id _ Hsync). apply IH; assumption.
    + rewrite rel_from_cons_reload, (reload_id _ Hsync). apply IH; assumption.
Qed.

Theorem signer_never_double_signs : forall ops, P_C20 ops (souts ops) = true.
Proof.
  intros ops. destruct (main_inv ops pv0 eq_refl) as (A & B & _); [intros m [=]|].
  unfold P_C20. change (souts ops) with (outs_from pv0 ops). fold (rel_from pv0 ops).
  rewrite A, B. reflexivity.
Qed.

Lemma sstep_sync p o :
  vol p = dur p -> vol (fst (fst (sstep p o))) = dur (fst (fst (sstep p o))).
Proof.
  intros Hs. destruct o as [q|q|q|]; cbn [sstep]; [| |reflexivity..].
  - pose proof (sign_sync p q Hs). destruct (sign p q). assumption.
  - destruct (sign p q). reflexivity.
Qed.

Lemma srun_sync ops : forall p, vol p = dur p -> vol (snd (srun p ops)) = dur (snd (srun p ops)).
Proof.
  induction ops as [|o ops IH]; intros p Hs; [exact Hs|]. cbn [srun].
  pose proof (IH _ (sstep_sync p o Hs)) as IH'.
  destruct (sstep p o) as [[p' out] ev]. cbn [fst] in IH'.
  destruct (srun p' ops) as [[outs evs] pf]. exact IH'.
Qed.

(* durable = volatile after every operation: the record is on disk before an answer leaves *)
Theorem signer_state_durable : forall ops, let p := snd (srun pv0 ops) in vol p = dur p.
Proof. intros ops. apply srun_sync. reflexivity. Qed.

Lemma sign_released p q m :
  snd (sign p q) = RFresh m \/ snd (sign p q) = RReplay m -> stores (vol (fst (sign p q))) q m.
Proof.
  destruct (sign_cases p q) as [e|m' Hm|Hlt]; cbn [fst snd]; intros [[=]|[=]]; subst.
  - assumption.
  - apply stores_fresh.
Qed.

Lemma sign_again p q m : wf_sb (vol p) -> stores (vol p) q m -> sign p q = (p, RReplay m).
Proof.
  intros Hwf (Hm & (Lh & Lr & Ls) & Mc). destruct (Hwf m Hm) as (Mh & Mr & Ms).
  unfold sign.
  assert (check_hrs (vol p) (q_h q) (q_r q) (q_step q) = inr true) as ->.
  { unfold check_hrs. rewrite <- Lh, <- Lr, <- Ls, Hm, !Z.ltb_irrefl, !Z.eqb_refl. reflexivity. }
  rewrite Hm.
  assert (only_differ_by_ts m (req_sb q) = true) as ->.
  { unfold only_differ_by_ts. cbn. rewrite Mh, Mr, Ms, Mc, Lh, Lr, Ls, !Z.eqb_refl. reflexivity. }
  destruct (signbytes_eqb (req_sb q) m); reflexivity.
Qed.

Lemma stores_same_request l q q' m :
  q_h q' = q_h q -> q_r q' = q_r q -> q_step q' = q_step q -> q_content q' = q_content q ->
  stores l q m -> stores l q' m.
Proof. unfold stores. intros -> -> -> ->. auto. Qed.

(* a repeated request (same HRS and content, any timestamp) right after a successful one gets
   the original signature, i.e. the original timestamp *)
Theorem signer_replays_original : forall p q q' m,
  snd (sign p q) = RFresh m \/ snd (sign p q) = RReplay m ->
  wf_sb (vol p) ->
  q_h q' = q_h q -> q_r q' = q_r q -> q_step q' = q_step q -> q_content q' = q_content q ->
  snd (sign (fst (sign p q)) q') = RReplay m.
Proof.
  intros p q q' m Hres Hwf Hh Hr Hs Hc.
  rewrite (sign_again _ q' m); [reflexivity|apply sign_wf, Hwf|].
  apply (stores_same_request _ q); auto using sign_released.
Qed.

(* non-vacuity: a concrete run with a fresh signature, a timestamp-only repeat, a conflict,
   a regression, a lost answer and a reload *)
Example signer_example :
  souts [ SReq {| q_h := 5; q_r := 0; q_step := 2; q_content := 7; q_ts := 100 |};
          SReq {| q_h := 5; q_r := 0; q_step := 2; q_content := 7; q_ts := 200 |};
          SReq {| q_h := 5; q_r := 0; q_step := 2; q_content := 8; q_ts := 200 |};
          SReq {| q_h := 4; q_r := 9; q_step := 3; q_content := 7; q_ts := 300 |};
          SReqLost {| q_h := 5; q_r := 0; q_step := 3; q_content := 9; q_ts := 400 |};
          SReload;
          SReq {| q_h := 5; q_r := 0; q_step := 3; q_content := 1; q_ts := 500 |};
          SReq {| q_h := 5; q_r := 0; q_step := 3; q_content := 9; q_ts := 600 |} ]
  = [ OSigned 100; OSigned 100; OErr EConflict; OErr EHeight; ONone; ONone; OErr EConflict; OSigned 400 ].
Proof. vm_compute. reflexivity. Qed.

(* the third clause of C20: a repeated request is answered with the original signature *)
Definition resign_inv (p : pv) (last : option released) : Prop :=
  match last with
  | None => True
  | Some a => exists q m, stores (vol p) q m /\ a = rel_of q (sb_ts m)
  end.

Lemma same_request_iff a q :
  same_request a q = true <-> rl_h a = q_h q /\ rl_r a = q_r q /\ rl_step a = q_step q /\ rl_content a = q_content q.
Proof.
  unfold same_request. rewrite !andb_true_iff, !Z.eqb_eq. tauto.
Qed.

Lemma resign_answer p q a :
  wf_sb (vol p) -> resign_inv p (Some a) -> same_request a q = true ->
  exists m, snd (sign p q) = RReplay m /\ sb_ts m = rl_ts a.
Proof.
  intros Hw (q0 & m & Hst & ->) (E1 & E2 & E3 & E4)%same_request_iff. exists m.
  rewrite (sign_again p q m); [split; reflexivity|exact Hw|].
  apply (stores_same_request _ q0); auto.
Qed.

Lemma resign_next p q last :
  resign_inv p last ->
  resign_inv (fst (sign p q))
    match snd (sign p q) with RFresh m | RReplay m => Some (rel_of q (sb_ts m)) | RErr _ => last end.
Proof.
  intros Hi. destruct (sign_cases p q) as [e|m Hm|Hlt]; cbn [fst snd].
  - exact Hi.
  - exists q, m. auto.
  - exists q, (req_sb q). split; [apply stores_fresh|reflexivity].
Qed.

Lemma resign_main ops : forall p last,
  vol p = dur p -> wf_sb (vol p) -> resign_inv p last -> resign_ok last ops (outs_from p ops) = true.
Proof.
  induction ops as [|o ops IH]; intros p last Hs Hw Hi; [reflexivity|].
  rewrite outs_from_cons. destruct o as [q|q|q|]; cbn [sstep resign_ok].
  - rewrite (surjective_pairing (sign p q)). cbn [fst snd]. apply andb_true_iff. split.
    + destruct last as [a|]; [|reflexivity]. destruct (same_request a q) eqn:Esr; [|reflexivity].
      destruct (resign_answer p q a Hw Hi Esr) as (m & -> & Ht). apply Z.eqb_eq, Ht.
    + apply IH; [apply sign_sync, Hs|apply sign_wf, Hw|].
      pose proof (resign_next p q last Hi) as Hi'. destruct (snd (sign p q)); exact Hi'.
  - rewrite (surjective_pairing (sign p q)). cbn [fst snd].
    rewrite (reload_id _ (sign_sync p q Hs)). apply IH; [apply sign_sync, Hs|apply sign_wf, Hw|exact I].
  - rewrite (reload_id p Hs). apply IH; [exact Hs|exact Hw|exact I].
  - rewrite (reload_id p Hs). apply IH; assumption.
Qed.

Theorem signer_resigns_original : forall ops, P_C20_resign ops (souts ops) = true.
Proof.
  intros ops. apply resign_main; [reflexivity|intros m [=]|exact I].
Qed.
