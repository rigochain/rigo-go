(* LedgerRefine.v — the executable ledger model (Ledger.v) refines the abstract versioned
   store (LedgerSpec.v): property C18. *)
From stdpp Require Import gmap sorting.
From Rigo Require Import Ledger LedgerSpec.

(** * Lists of removed keys *)
Fixpoint cnt (k : N) (l : list N) : nat :=
  match l with
  | [] => 0
  | x :: r => (if decide (x = k) then 1 else 0) + cnt k r
  end.

Lemma cnt_app k l1 l2 : cnt k (l1 ++ l2) = cnt k l1 + cnt k l2.
Proof. induction l1 as [|x l1 IH]; simpl; [done|]. rewrite IH. lia. Qed.

Lemma cnt_0_iff k l : cnt k l = 0 ↔ k ∉ l.
Proof.
  induction l as [|x l IH]; simpl.
  - split; [intros _; apply not_elem_of_nil|done].
  - rewrite not_elem_of_cons. destruct (decide (x = k)) as [->|Hne]; simpl.
    + split; [lia|]. intros [Hk _]. by destruct Hk.
    + rewrite IH. split; [intros Hk; split; [congruence|done]|by intros [_ Hk]].
Qed.

Lemma cnt_pos_iff k l : cnt k l ≠ 0 ↔ k ∈ l.
Proof.
  rewrite cnt_0_iff. split; [|by intros Hk Hn].
  intros Hn. destruct (decide (k ∈ l)) as [Hk|Hk]; [done|by destruct Hn].
Qed.

Lemma cnt_remove_first_eq k l : cnt k (remove_first k l) = pred (cnt k l).
Proof.
  induction l as [|x l IH]; simpl; [done|].
  destruct (decide (x = k)) as [->|Hne]; simpl; [done|].
  rewrite decide_False by done. simpl. done.
Qed.

Lemma cnt_remove_first_ne k k' l : k ≠ k' → cnt k' (remove_first k l) = cnt k' l.
Proof.
  intros Hne. induction l as [|x l IH]; simpl; [done|].
  destruct (decide (x = k)) as [->|Hxk]; simpl.
  - rewrite decide_False by done. done.
  - rewrite IH. done.
Qed.

Lemma elem_of_remove_first k k' l : k' ∈ remove_first k l → k' ∈ l.
Proof.
  induction l as [|x l IH]; simpl; [done|].
  destruct (decide (x = k)) as [->|Hxk].
  - intros Hk. by right.
  - rewrite !elem_of_cons. intros [->|Hk]; [by left|right; by apply IH].
Qed.

(** * Sorting *)
Global Instance key_ge_trans : Transitive key_ge.
Proof. intros a b c Hab Hbc. unfold key_ge in *. lia. Qed.
Global Instance key_ge_total : Total key_ge.
Proof. intros a b. unfold key_ge. lia. Qed.
Global Instance key_ge_antisymm : AntiSymm (=) key_ge.
Proof. intros a b Hab Hba. unfold key_ge in *. lia. Qed.

Lemma sort_desc_perm l1 l2 : l1 ≡ₚ l2 → sort_desc l1 = sort_desc l2.
Proof.
  intros Hp. unfold sort_desc.
  apply (StronglySorted_unique key_ge).
  - apply StronglySorted_merge_sort; apply _.
  - apply StronglySorted_merge_sort; apply _.
  - rewrite !merge_sort_Permutation. done.
Qed.

Lemma elem_of_sort_desc k l : k ∈ sort_desc l ↔ k ∈ l.
Proof. unfold sort_desc. by rewrite merge_sort_Permutation. Qed.

Section refine.
Context {V : Type}.
Implicit Types (m : mem V) (o : overlay V) (T : gmap N V) (k : N) (c : fledger V) (s : sstate V).

(** * Overlay entries *)
Lemma ent_of_insert o k e k' :
  ent_of (<[k:=e]> o) k' = if decide (k = k') then e else ent_of o k'.
Proof.
  unfold ent_of. destruct (decide (k = k')) as [->|Hne].
  - by rewrite lookup_insert.
  - by rewrite lookup_insert_ne.
Qed.

Lemma ent_of_empty k : ent_of (∅ : overlay V) k = ent0.
Proof. unfold ent_of. by rewrite lookup_empty. Qed.

(** * The invariant relating one memItems to one overlay over the saved tree [T] *)
(** the object in updatedItems is the object in gotItems *)
Definition alias_inv m : Prop := ∀ k v, upd m !! k = Some v → got m !! k = Some v.
(** a cached value that is not a pending write is the committed value, and its key is
    not among the removed keys *)
Definition clean_inv m T : Prop :=
  ∀ k v, got m !! k = Some v → upd m !! k = None → k ∉ removed m ∧ T !! k = Some v.

Definition Rov m o T : Prop :=
  (∀ k, upd m !! k = written (ent_of o k)) ∧
  (∀ k, cnt k (removed m) = ndel (ent_of o k)) ∧
  alias_inv m ∧
  clean_inv m T.

(** ** the alias invariant alone (it also survives in-place mutation, below) *)
Lemma alias_empty : alias_inv (mem_empty : mem V).
Proof. intros k v Hk. simpl in Hk. by rewrite lookup_empty in Hk. Qed.

Lemma alias_set k v m : alias_inv m → alias_inv (mem_set k v m).
Proof.
  intros Ha k' v'. simpl. destruct (decide (k = k')) as [<-|Hne].
  - by rewrite !lookup_insert.
  - rewrite !lookup_insert_ne by done. apply Ha.
Qed.

Lemma alias_cancel_set k m : alias_inv m → alias_inv (mem_cancel_set k m).
Proof.
  intros Ha k' v'. simpl. destruct (decide (k = k')) as [<-|Hne].
  - by rewrite !lookup_delete.
  - rewrite !lookup_delete_ne by done. apply Ha.
Qed.

Lemma alias_set_got k v m : got m !! k = None → alias_inv m → alias_inv (set_got_item k v m).
Proof.
  intros Hg Ha k' v' Hk'. simpl in *. destruct (decide (k = k')) as [<-|Hne].
  - apply Ha in Hk'. congruence.
  - rewrite lookup_insert_ne by done. by apply Ha.
Qed.

Lemma alias_get T k m : alias_inv m → alias_inv (mem_get T k m).1.
Proof.
  intros Ha. unfold mem_get. destruct (got m !! k) as [v|] eqn:Hg; [done|].
  destruct (is_removed_key m k); [done|]. destruct (tree_read T k) as [v|]; [|done].
  by apply alias_set_got.
Qed.

Lemma alias_del T k m : alias_inv m → alias_inv (mem_del mem_get T k m).1.
Proof.
  intros Ha. pose proof (alias_get T k m Ha) as Ha1. unfold mem_del.
  destruct (mem_get T k m) as [m1 [v|]]; simpl in *; [|done].
  by apply (alias_cancel_set k m1).
Qed.

Lemma alias_refresh m : alias_inv (mem_refresh m).
Proof. intros k v Hk. simpl in Hk. by rewrite lookup_empty in Hk. Qed.

(** [Rov] speaks of every key by itself, and every operation touches one key *)
Definition Rov_at m o T k : Prop :=
  upd m !! k = written (ent_of o k) ∧
  cnt k (removed m) = ndel (ent_of o k) ∧
  (∀ v, upd m !! k = Some v → got m !! k = Some v) ∧
  (∀ v, got m !! k = Some v → upd m !! k = None → k ∉ removed m ∧ T !! k = Some v).

Lemma Rov_at_elim m o T k : Rov m o T → Rov_at m o T k.
Proof. intros (Hu & Hr & Ha & Hc). split; [done|split; [done|split]]; [apply Ha|apply Hc]. Qed.

Lemma Rov_at_intro m o T : (∀ k, Rov_at m o T k) → Rov m o T.
Proof. intros H. split; [|split; [|split]]; intros k; apply (H k). Qed.

Lemma Rov_empty T : Rov mem_empty ∅ T.
Proof.
  apply Rov_at_intro. intros k. unfold Rov_at. rewrite ent_of_empty. simpl.
  by rewrite !lookup_empty.
Qed.

Lemma Rov_view m o T k :
  Rov m o T →
  view o T k = match upd m !! k with
               | Some v => Some v
               | None => if decide (k ∈ removed m) then None else T !! k
               end.
Proof.
  intros (Hu & Hr & _). unfold view. rewrite <-Hu, <-Hr.
  destruct (upd m !! k) as [v|]; [done|].
  destruct (decide (k ∈ removed m)) as [Hin|Hnin].
  - apply cnt_pos_iff in Hin. by destruct (cnt k (removed m)).
  - apply cnt_0_iff in Hnin. by rewrite Hnin.
Qed.

(** get / getFinality (repaired) returns the overlay view; the read-through keeps the invariant *)
Lemma mem_get_sim m o T k :
  Rov m o T →
  (mem_get T k m).2 = view o T k ∧ Rov (mem_get T k m).1 o T ∧
  ((mem_get T k m).2 = None → (mem_get T k m).1 = m).
Proof.
  intros HR. rewrite (Rov_view m o T k HR). pose proof HR as (_ & _ & Ha & Hc).
  unfold mem_get, is_removed_key, tree_read.
  destruct (got m !! k) as [v|] eqn:Hg; simpl.
  - split; [|done]. destruct (upd m !! k) as [w|] eqn:Hw.
    + apply Ha in Hw. congruence.
    + destruct (Hc k v Hg Hw) as [Hnr HT]. by rewrite decide_False.
  - assert (upd m !! k = None) as ->.
    { destruct (upd m !! k) as [w|] eqn:Hw; [|done]. apply Ha in Hw. congruence. }
    rewrite <-decide_bool_decide. destruct (decide (k ∈ removed m)) as [Hin|Hnin]; [done|].
    destruct (T !! k) as [v|] eqn:HT; simpl; [|done].
    (* read-through: the committed value enters gotItems *)
    split; [done|]. split; [|done]. apply Rov_at_intro. intros k'.
    destruct (Rov_at_elim _ _ _ k' HR) as (Hu' & Hr' & Ha' & Hc').
    split; [done|split; [done|]]. simpl. destruct (decide (k = k')) as [<-|Hne].
    + rewrite lookup_insert. split; [intros w Hw; apply Ha' in Hw; congruence|].
      intros ? [= <-] _. done.
    + by rewrite lookup_insert_ne.
Qed.

Lemma mem_set_sim m o T k v : Rov m o T → Rov (mem_set k v m) (o_set k v o) T.
Proof.
  intros HR. apply Rov_at_intro. intros k'. destruct (Rov_at_elim _ _ _ k' HR) as (Hu & Hr & Ha & Hc).
  unfold Rov_at, o_set. simpl. rewrite ent_of_insert.
  destruct (decide (k = k')) as [<-|Hne].
  - rewrite !lookup_insert. simpl. split; [done|split; [done|split]]; [done|intros ? _ [=]].
  - by rewrite !lookup_insert_ne.
Qed.

Lemma mem_cancel_set_sim m o T k : Rov m o T → Rov (mem_cancel_set k m) (o_cancel_set k o) T.
Proof.
  intros HR. apply Rov_at_intro. intros k'. destruct (Rov_at_elim _ _ _ k' HR) as (Hu & Hr & Ha & Hc).
  unfold Rov_at, o_cancel_set. simpl. rewrite ent_of_insert.
  destruct (decide (k = k')) as [<-|Hne].
  - rewrite !lookup_delete. simpl. split; [done|split; [done|split]]; intros ? [=].
  - by rewrite !lookup_delete_ne.
Qed.

Lemma del_removed_key_sim m o T k : Rov m o T → Rov (del_removed_key k m) (o_cancel_del k o) T.
Proof.
  intros HR. apply Rov_at_intro. intros k'. destruct (Rov_at_elim _ _ _ k' HR) as (Hu & Hr & Ha & Hc).
  unfold Rov_at, o_cancel_del. simpl. rewrite ent_of_insert.
  split; [by destruct (decide (k = k')) as [<-|]|]. split; [|split; [done|]].
  - destruct (decide (k = k')) as [<-|Hne]; simpl.
    + by rewrite cnt_remove_first_eq, Hr.
    + by rewrite cnt_remove_first_ne.
  - intros v Hg Hw. destruct (Hc v Hg Hw) as [Hnr HT]. split; [|done].
    intros Hin. by apply elem_of_remove_first in Hin.
Qed.

(** del / DelFinality's second half *)
Lemma mem_del_sim m o T k :
  Rov m o T →
  (mem_del mem_get T k m).2 = (o_del T k o).2 ∧
  Rov (mem_del mem_get T k m).1 (o_del T k o).1 T.
Proof.
  intros HR. destruct (mem_get_sim m o T k HR) as (Hv & HR1 & Hnone).
  unfold mem_del, o_del. destruct (mem_get T k m) as [m1 r] eqn:Hget. simpl in *.
  rewrite <-Hv. destruct r as [v|]; simpl; [|split; [done|by rewrite Hnone]].
  split; [done|]. apply Rov_at_intro. intros k'.
  destruct (Rov_at_elim _ _ _ k' HR1) as (Hu & Hr & Ha & Hc).
  unfold Rov_at. simpl. rewrite ent_of_insert, cnt_app. simpl.
  destruct (decide (k = k')) as [<-|Hne]; simpl.
  - rewrite !lookup_delete, Hr. split; [done|split; [lia|split]]; intros ? [=].
  - rewrite !lookup_delete_ne, Hr by done. split; [done|split; [lia|split]]; [done|].
    intros v' Hg Hw. destruct (Hc v' Hg Hw) as [Hnr HT]. split; [|done].
    rewrite elem_of_app, elem_of_list_singleton. intros [Hin|Heq]; [done|congruence].
Qed.

(** * Commit *)
Lemma foldl_keys (f : gmap N V → N → gmap N V) (r : N → option V) ks k :
  (∀ T x, x ∈ ks → f T x !! x = r x) → (∀ T x, x ≠ k → f T x !! k = T !! k) →
  ∀ T, foldl f T ks !! k = if decide (k ∈ ks) then r k else T !! k.
Proof.
  intros Hat Hne. induction ks as [|x ks IH]; intros T; cbn [foldl].
  - by rewrite decide_False by apply not_elem_of_nil.
  - rewrite IH by (intros T' y Hy; apply Hat; by right).
    destruct (decide (k = x)) as [->|Hkx].
    + rewrite (decide_True _ _ (elem_of_list_here x ks)), Hat by left.
      by destruct (decide (x ∈ ks)).
    + rewrite Hne by done. apply decide_ext. rewrite elem_of_cons. naive_solver.
Qed.

Lemma foldl_removes (u : gmap N V) T rem k :
  foldl (apply_treeop u) T (map (pair false) rem) !! k
  = if decide (k ∈ rem) then None else T !! k.
Proof.
  rewrite (foldl_fmap _ _ rem). apply (foldl_keys _ (λ _, None)).
  - intros T' x _. apply lookup_delete.
  - intros T' x Hx. by apply lookup_delete_ne.
Qed.

Lemma foldl_sets (u : gmap N V) T ks k :
  (∀ k', k' ∈ ks → is_Some (u !! k')) →
  foldl (apply_treeop u) T (map (pair true) ks) !! k
  = if decide (k ∈ ks) then u !! k else T !! k.
Proof.
  intros Hks. rewrite (foldl_fmap _ _ ks). apply (foldl_keys _ (u !!.)); unfold apply_treeop; simpl.
  - intros T' x Hx. destruct (Hks x Hx) as [v ->]. apply lookup_insert.
  - intros T' x Hx. destruct (u !! x); [by apply lookup_insert_ne|done].
Qed.

Lemma elem_of_upd_keys m k : k ∈ upd_keys m ↔ is_Some (upd m !! k).
Proof.
  unfold upd_keys. rewrite elem_of_list_fmap. split.
  - intros [[k' v] [-> Hin]]. apply elem_of_map_to_list in Hin. by exists v.
  - intros [v Hv]. exists (k, v). split; [done|]. by apply elem_of_map_to_list.
Qed.

Lemma commit_tree_lookup c k :
  tree (commit c).1 !! k =
  match upd (fin c) !! k with
  | Some v => Some v
  | None => if decide (k ∈ removed (fin c)) then None else tree c !! k
  end.
Proof.
  unfold commit, commit_treeops; simpl. rewrite foldl_app.
  rewrite foldl_sets.
  - rewrite foldl_removes.
    destruct (decide (k ∈ sort_desc (upd_keys (fin c)))) as [Hin|Hnin].
    + apply elem_of_sort_desc, elem_of_upd_keys in Hin. destruct Hin as [v Hv]. by rewrite Hv.
    + rewrite elem_of_sort_desc, elem_of_upd_keys in Hnin.
      destruct (upd (fin c) !! k) as [v|] eqn:Hv; [|done]. destruct Hnin. by exists v.
  - intros k' Hk'. by apply elem_of_sort_desc, elem_of_upd_keys in Hk'.
Qed.

Lemma commit_tree_view (o : overlay V) T k : commit_tree o T !! k = view o T k.
Proof.
  unfold commit_tree, view, ent_of. rewrite lookup_merge.
  destruct (o !! k), (T !! k); done.
Qed.

Lemma commit_hist c : hist (commit c).1 = hist c ++ [tree (commit c).1].
Proof. done. Qed.

(** * The simulation relation *)
Definition R c s : Prop :=
  hist c = committed s ∧
  tree c = default ∅ (last (hist c)) ∧
  Rov (chk c) (mp s) (tree c) ∧
  Rov (fin c) (cs s) (tree c).

Lemma R_empty : R fledger_empty sstate_empty.
Proof. split; [done|split; [done|split; apply Rov_empty]]. Qed.

Lemma R_latest c s : R c s → latest s = tree c.
Proof. intros (Hh & Ht & _). unfold latest. by rewrite <-Hh, Ht. Qed.

Lemma erase_out_of_read (r : option V) : erase_treeops (out_of_read r) = out_of_read r.
Proof. by destruct r. Qed.

Lemma erase_idemp (x : out V) : erase_treeops (erase_treeops x) = erase_treeops x.
Proof. by destruct x. Qed.

Lemma commit_sim c s :
  R c s →
  commit_tree (cs s) (tree c) = tree (commit c).1 ∧
  R (commit c).1 (SState (committed s ++ [commit_tree (cs s) (tree c)]) ∅ ∅).
Proof.
  intros (Hh & Ht & Hm & Hf).
  assert (commit_tree (cs s) (tree c) = tree (commit c).1) as HT.
  { apply map_eq. intros k.
    by rewrite commit_tree_lookup, commit_tree_view, (Rov_view _ _ _ k Hf). }
  destruct Hf as (_ & _ & _ & Hc).
  split; [done|].
  rewrite HT. split; [|split; [|split]].
  - rewrite commit_hist. simpl. by rewrite Hh.
  - rewrite commit_hist. by rewrite last_snoc.
  - apply Rov_empty.
  - split; [|split; [|split]].
    + intros k. rewrite ent_of_empty. simpl. by rewrite lookup_empty.
    + intros k. by rewrite ent_of_empty.
    + apply alias_refresh.
    + intros k v Hg _. split; [apply not_elem_of_nil|].
      rewrite commit_tree_lookup. simpl in Hg.
      apply lookup_union_Some_raw in Hg as [Hg|[Hn Hg]].
      * by rewrite Hg.
      * rewrite Hn. destruct (Hc k v Hg Hn) as [Hnr Hv]. by rewrite decide_False.
Qed.

(** * One step *)
Lemma R_with_chk c s m o : R c s → Rov m o (tree c) → R (with_chk c m) (SState (committed s) o (cs s)).
Proof. intros (Hh & Ht & _ & Hf) Hm. by split; [|split; [|split]]. Qed.

Lemma R_with_fin c s m o : R c s → Rov m o (tree c) → R (with_fin c m) (SState (committed s) (mp s) o).
Proof. intros (Hh & Ht & Hm & _) Hf. by split; [|split; [|split]]. Qed.

Lemma step_sim c s (o : op V) :
  R c s →
  erase_treeops (step c o).2 = (spec_step s o).2 ∧ R (step c o).1 (spec_step s o).1.
Proof.
  intros HR. pose proof (R_latest c s HR) as HT.
  pose proof HR as (Hh & Ht & Hm & Hf).
  unfold step, step_with, spec_step. rewrite HT.
  destruct o as [k v|k|k|k|k|k| |k v|k|k|k|k| | |n k|n| ].
  - (* SetM *) split; [done|]. apply R_with_chk; [done|]. by apply mem_set_sim.
  - (* CancelSetM *) split; [done|]. apply R_with_chk; [done|]. by apply mem_cancel_set_sim.
  - (* GetM *)
    destruct (mem_get_sim (chk c) (mp s) (tree c) k Hm) as (Hv & HR1 & _).
    destruct (mem_get (tree c) k (chk c)) as [m1 r]. simpl in *.
    rewrite erase_out_of_read, Hv. split; [done|]. by apply (R_with_chk c s m1 (mp s)).
  - (* DelM *)
    destruct (mem_del_sim (chk c) (mp s) (tree c) k Hm) as (Hv & HR1).
    destruct (mem_del mem_get (tree c) k (chk c)) as [m1 r].
    destruct (o_del (tree c) k (mp s)) as [o1 r']. simpl in *.
    rewrite erase_out_of_read, Hv. split; [done|]. by apply R_with_chk.
  - (* CancelDelM *) split; [done|]. apply R_with_chk; [done|]. by apply del_removed_key_sim.
  - (* Read *) simpl. by rewrite erase_out_of_read.
  - (* IterM *) done.
  - (* SetF *) split; [done|]. apply R_with_fin; [done|]. by apply mem_set_sim.
  - (* CancelSetF *) split; [done|]. apply R_with_fin; [done|]. by apply mem_cancel_set_sim.
  - (* GetF *)
    destruct (mem_get_sim (fin c) (cs s) (tree c) k Hf) as (Hv & HR1 & _).
    destruct (mem_get (tree c) k (fin c)) as [m1 r]. simpl in *.
    rewrite erase_out_of_read, Hv. split; [done|]. by apply (R_with_fin c s m1 (cs s)).
  - (* DelF *)
    destruct (mem_del_sim (chk c) (mp s) (tree c) k Hm) as (_ & HR1).
    destruct (mem_del_sim (fin c) (cs s) (tree c) k Hf) as (Hv & HR2).
    destruct (mem_del mem_get (tree c) k (chk c)) as [m1 r1].
    destruct (o_del (tree c) k (mp s)) as [o1 r1'].
    destruct (mem_del mem_get (tree c) k (fin c)) as [m2 r2].
    destruct (o_del (tree c) k (cs s)) as [o2 r2']. simpl in *.
    rewrite erase_out_of_read, Hv. split; [done|]. by split; [|split; [|split]].
  - (* CancelDelF *) split; [done|]. apply R_with_fin; [done|]. by apply del_removed_key_sim.
  - (* IterF *) done.
  - (* Commit *)
    destruct (commit_sim c s HR) as (_ & HR'). split; [|done].
    simpl. by rewrite Hh.
  - (* ReadAt *) simpl. rewrite Hh. split; [|done].
    destruct (tree_at (committed s) n); [|done]. by rewrite erase_out_of_read.
  - (* IterAt *) simpl. rewrite Hh. split; [|done]. by destruct (tree_at (committed s) n).
  - (* Reopen *) split; [done|]. simpl. split; [done|split; [done|split; apply Rov_empty]].
Qed.

Lemma step_sim_let c s (o : op V) :
  R c s →
  let '(c', oc) := step c o in
  let '(s', os) := spec_step s o in
  erase_treeops oc = os ∧ R c' s'.
Proof.
  intros HR. pose proof (step_sim c s o HR) as Hs.
  destruct (step c o) as [c' oc], (spec_step s o) as [s' os]. done.
Qed.

(** * Whole runs *)
Lemma run_sim ops : ∀ c s,
  R c s →
  outs (run_from step c ops).2 = (spec_run_from s ops).2 ∧
  R (run_from step c ops).1 (spec_run_from s ops).1.
Proof.
  induction ops as [|o ops IH]; intros c s HR; simpl; [done|].
  destruct (step_sim c s o HR) as (Ho & HR1).
  destruct (step c o) as [c1 x], (spec_step s o) as [s1 y]. simpl in *.
  destruct (IH c1 s1 HR1) as (Hos & HR2).
  destruct (run_from step c1 ops) as [c2 xs], (spec_run_from s1 ops) as [s2 ys]. simpl in *.
  split; [|done]. unfold outs in *. simpl. by rewrite Ho, Hos.
Qed.

Lemma spec_outs_erased ops : ∀ s, outs (spec_run_from s ops).2 = (spec_run_from s ops).2.
Proof.
  induction ops as [|o ops IH]; intros s; simpl; [done|].
  assert (erase_treeops (spec_step s o).2 = (spec_step s o).2) as He.
  { unfold spec_step. destruct o; simpl; try done; try apply erase_out_of_read.
    - destruct (o_del _ _ _). apply erase_out_of_read.
    - destruct (o_del _ _ (mp s)), (o_del _ _ (cs s)). apply erase_out_of_read.
    - destruct (tree_at _ _); [apply erase_out_of_read|done].
    - by destruct (tree_at _ _). }
  destruct (spec_step s o) as [s1 y]. specialize (IH s1).
  destruct (spec_run_from s1 ops) as [s2 ys]. simpl in *. unfold outs in *. simpl.
  by rewrite He, IH.
Qed.

(** MAIN THEOREM: on every finite sequence of operations the (repaired) ledger model and
    the abstract store produce the same observations. *)
Theorem ledger_refines (ops : list (op V)) : outs (run ops) = outs (spec_run ops).
Proof.
  unfold run, spec_run. rewrite spec_outs_erased.
  apply (run_sim ops fledger_empty sstate_empty R_empty).
Qed.

Lemma final_R (ops : list (op V)) : R (final ops) (spec_run_from sstate_empty ops).1.
Proof. apply (run_sim ops fledger_empty sstate_empty R_empty). Qed.

(** * Runs: append *)
Lemma run_from_app (stp : fledger V → op V → fledger V * out V) (ops1 : list (op V)) :
  ∀ c (ops2 : list (op V)),
  run_from stp c (ops1 ++ ops2) =
  ((run_from stp (run_from stp c ops1).1 ops2).1,
   (run_from stp c ops1).2 ++ (run_from stp (run_from stp c ops1).1 ops2).2).
Proof.
  induction ops1 as [|p ops1 IH]; intros c ops2; simpl.
  - by destruct (run_from stp c ops2).
  - destruct (stp c p) as [c1 x]. rewrite IH.
    destruct (run_from stp c1 ops1) as [c2 xs]. simpl.
    by destruct (run_from stp c2 ops2).
Qed.

Lemma final_app (ops1 ops2 : list (op V)) : final (ops1 ++ ops2) = (run_from step (final ops1) ops2).1.
Proof. unfold final. by rewrite run_from_app. Qed.

Lemma run_app (ops1 ops2 : list (op V)) : run (ops1 ++ ops2) = run ops1 ++ (run_from step (final ops1) ops2).2.
Proof. unfold run, final. by rewrite run_from_app. Qed.

Lemma run_snoc (ops : list (op V)) (p : op V) : run (ops ++ [p]) = run ops ++ [(step (final ops) p).2].
Proof. rewrite run_app. simpl. by destruct (step (final ops) p). Qed.

(** * Corollary 1: the mempool overlay is invisible to consensus reads and discarded by commit *)
Definition mempool_op (p : op V) : bool :=
  match p with
  | SetM _ _ | CancelSetM _ | GetM _ | DelM _ | CancelDelM _ => true
  | _ => false
  end.

Fixpoint cons_outs (ops : list (op V)) (xs : list (out V)) : list (out V) :=
  match ops, xs with
  | p :: ops', x :: xs' => if mempool_op p then cons_outs ops' xs' else x :: cons_outs ops' xs'
  | _, _ => []
  end.

Fixpoint drop_mempool_ops (ops : list (op V)) : list (op V) :=
  match ops with
  | [] => []
  | p :: ops' => if mempool_op p then drop_mempool_ops ops' else p :: drop_mempool_ops ops'
  end.

Definition cons_eq c c' : Prop := tree c = tree c' ∧ hist c = hist c' ∧ fin c = fin c'.

Lemma step_mempool_op c (p : op V) : mempool_op p = true → cons_eq (step c p).1 c.
Proof.
  unfold step, step_with, cons_eq.
  destruct p; try discriminate; intros _; simpl; try case_match; auto.
Qed.

Lemma step_cons_eq c c' (p : op V) :
  mempool_op p = false → cons_eq c c' →
  (step c p).2 = (step c' p).2 ∧ cons_eq (step c p).1 (step c' p).1.
Proof.
  destruct c as [t h ch f], c' as [t' h' ch' f']. intros Hp (Ht & Hh & Hf). simpl in *. subst.
  unfold step, step_with, cons_eq.
  destruct p; try discriminate Hp; simpl; repeat case_match; auto.
Qed.

Lemma mempool_invisible_from (ops : list (op V)) : ∀ c c',
  cons_eq c c' →
  cons_outs ops (run_from step c ops).2 = (run_from step c' (drop_mempool_ops ops)).2.
Proof.
  induction ops as [|p ops IH]; intros c c' Hc; simpl; [done|].
  destruct (mempool_op p) eqn:Hp.
  - pose proof (step_mempool_op c p Hp) as (H1 & H2 & H3).
    destruct (step c p) as [c1 x]. simpl in *.
    specialize (IH c1 c').
    destruct (run_from step c1 ops) as [c2 xs]. simpl. rewrite ?Hp. apply IH.
    destruct Hc as (Hc1 & Hc2 & Hc3). split; [congruence|split; congruence].
  - destruct (step_cons_eq c c' p Hp Hc) as (Ho & Hc1). simpl.
    destruct (step c p) as [c1 x], (step c' p) as [c1' x']. simpl in *. subst x'.
    specialize (IH c1 c1' Hc1).
    destruct (run_from step c1 ops) as [c2 xs], (run_from step c1' (drop_mempool_ops ops)) as [c2' xs'].
    simpl in *. rewrite ?Hp. by rewrite IH.
Qed.

(** Deleting every mempool-overlay operation (Set, CancelSet, Get, Del, CancelDel) from a
    run changes no output of any other operation — in particular of no GetFinality,
    DelFinality, Commit, Read, iterate or historical read. *)
Theorem mempool_invisible (ops : list (op V)) :
  cons_outs ops (run ops) = run (drop_mempool_ops ops).
Proof. unfold run. by apply mempool_invisible_from. Qed.

Lemma mem_get_empty T k :
  mem_get T k mem_empty =
  match tree_read T k with
  | Some v => (set_got_item k v mem_empty, Some v)
  | None => (mem_empty, None)
  end.
Proof.
  unfold mem_get. simpl. by rewrite lookup_empty.
Qed.

(** After a commit the mempool overlay is empty: a mempool read sees the committed value. *)
Theorem mempool_discarded_by_commit (ops : list (op V)) k :
  chk (final (ops ++ [Commit])) = mem_empty ∧
  run (ops ++ [Commit; GetM k]) = run (ops ++ [Commit; Read k]).
Proof.
  split.
  - rewrite final_app. done.
  - rewrite !(cons_middle Commit), !app_assoc, !run_snoc. f_equal. f_equal.
    assert (∀ c', chk c' = mem_empty → (step c' (GetM k)).2 = (step c' (Read k)).2) as Hgen.
    { intros c' Hc'. unfold step, step_with. rewrite Hc', mem_get_empty.
      by destruct (tree_read (tree c') k). }
    apply Hgen. by rewrite final_app.
Qed.

(** * Corollary 2: a commit persists exactly the consensus overlay's net effect as version+1 *)
Theorem commit_net_effect c :
  let c' := (step c Commit).1 in
  hist c' = hist c ++ [tree c'] ∧
  (∃ tops, (step c Commit).2 = OCommitted (N.of_nat (S (length (hist c)))) tops) ∧
  ∀ k, tree c' !! k =
       match upd (fin c) !! k with
       | Some v => Some v
       | None => if decide (k ∈ removed (fin c)) then None else tree c !! k
       end.
Proof.
  simpl. split; [done|]. split; [by eexists|]. intros k. apply commit_tree_lookup.
Qed.

Lemma tree_at_snoc_new (h : list (gmap N V)) T :
  tree_at (h ++ [T]) (Z.of_nat (S (length h))) = Some T.
Proof.
  unfold tree_at.
  destruct (decide (Z.of_nat (length (h ++ [T])) < Z.of_nat (S (length h)))%Z) as [Hlt|_].
  { rewrite app_length in Hlt. simpl in Hlt. lia. }
  destruct (decide (Z.of_nat (S (length h)) ≤ 0)%Z) as [Hle|_]; [lia|].
  replace (Z.to_nat (Z.of_nat (S (length h)) - 1)) with (length h) by lia.
  by rewrite list_lookup_middle.
Qed.

Lemma tree_at_prefix (h h' : list (gmap N V)) n :
  (1 ≤ n ≤ Z.of_nat (length h))%Z → tree_at (h ++ h') n = tree_at h n.
Proof.
  intros Hn. unfold tree_at.
  destruct (decide (Z.of_nat (length (h ++ h')) < n)%Z) as [Hlt|_].
  { rewrite app_length in Hlt. lia. }
  destruct (decide (Z.of_nat (length h) < n)%Z) as [Hlt|_]; [lia|].
  destruct (decide (n ≤ 0)%Z) as [Hle|_]; [lia|].
  apply lookup_app_l. lia.
Qed.

(** In every reachable state: what version+1 holds for a key after Commit is exactly what
    GetFinality returned for that key just before the commit (and nothing of the mempool
    overlay: see [mempool_invisible]). *)
Theorem commit_persists_consensus_view (ops : list (op V)) k :
  let c := final ops in
  let c' := (step c Commit).1 in
  length (hist c') = S (length (hist c)) ∧
  (step c' (ReadAt (Z.of_nat (S (length (hist c)))) k)).2 = (step c (GetF k)).2.
Proof.
  intros c c'. pose proof (final_R ops) as HR. fold c in HR.
  set (s := (spec_run_from sstate_empty ops).1) in HR.
  destruct (commit_sim c s HR) as (HT & _).
  pose proof HR as (_ & _ & _ & Hf).
  destruct (mem_get_sim (fin c) (cs s) (tree c) k Hf) as (Hv & _ & _).
  split.
  - unfold c'. simpl. rewrite app_length. simpl. lia.
  - unfold c', step, step_with. simpl. rewrite tree_at_snoc_new.
    destruct (mem_get (tree c) k (fin c)) as [m1 r]. simpl in *. rewrite Hv.
    unfold tree_read. fold (tree (commit c).1). rewrite <-HT.
    by rewrite commit_tree_view.
Qed.

(** * Corollary 3: history is immutable *)
Lemma step_hist_grows c (p : op V) : hist c `prefix_of` hist (step c p).1.
Proof.
  unfold step, step_with. destruct p; simpl; repeat case_match; simpl; try done.
  by eexists.
Qed.

Lemma run_hist_grows (ops : list (op V)) : ∀ c, hist c `prefix_of` hist (run_from step c ops).1.
Proof.
  induction ops as [|p ops IH]; intros c; simpl; [done|].
  pose proof (step_hist_grows c p) as H1. destruct (step c p) as [c1 x].
  specialize (IH c1). destruct (run_from step c1 ops) as [c2 xs]. by etrans.
Qed.

Lemma step_ReadAt c n k :
  (step c (ReadAt n k)).2 =
  match tree_at (hist c) n with Some T => out_of_read (tree_read T k) | None => OErr end.
Proof. done. Qed.
Lemma step_IterAt c n :
  (step c (IterAt n)).2 =
  match tree_at (hist c) n with Some T => OItems (sorted_items T) | None => OErr end.
Proof. done. Qed.

(** Whatever operations [ops'] follow (further commits, reopen, ...), reading an existing
    version n gives what it gave when that version was the newest or any time in between. *)
Theorem history_immutable (ops ops' : list (op V)) n :
  (1 ≤ n ≤ Z.of_nat (length (hist (final ops))))%Z →
  (∀ k, (step (final (ops ++ ops')) (ReadAt n k)).2 = (step (final ops) (ReadAt n k)).2) ∧
  (step (final (ops ++ ops')) (IterAt n)).2 = (step (final ops) (IterAt n)).2.
Proof.
  intros Hn. rewrite final_app.
  destruct (run_hist_grows ops' (final ops)) as [h' Hh].
  split; [intros k|]; rewrite ?step_ReadAt, ?step_IterAt, Hh, tree_at_prefix by done; done.
Qed.

Theorem history_immutable_trace (ops ops' : list (op V)) n k :
  (1 ≤ n ≤ Z.of_nat (length (hist (final ops))))%Z →
  last (run (ops ++ ops' ++ [ReadAt n k])) = last (run (ops ++ [ReadAt n k])).
Proof.
  intros Hn. rewrite app_assoc, !run_snoc, !last_snoc.
  by destruct (history_immutable ops ops' n Hn) as [-> _].
Qed.

(** * Corollary 4: the tree operations of a commit do not depend on the order in which
    Go's map iteration delivers the keys of updatedItems *)
Theorem commit_treeops_order_irrelevant rem (l1 l2 : list N) :
  l1 ≡ₚ l2 → commit_treeops rem l1 = commit_treeops rem l2.
Proof. intros Hp. unfold commit_treeops. by rewrite (sort_desc_perm l1 l2 Hp). Qed.

Theorem commit_output_order_irrelevant c (iter_keys : list N) :
  iter_keys ≡ₚ upd_keys (fin c) →
  (step c Commit).2 =
    OCommitted (N.of_nat (S (length (hist c)))) (commit_treeops (removed (fin c)) iter_keys) ∧
  tree (step c Commit).1 =
    foldl (apply_treeop (upd (fin c))) (tree c) (commit_treeops (removed (fin c)) iter_keys).
Proof.
  intros Hp. simpl. by rewrite (commit_treeops_order_irrelevant _ _ _ Hp).
Qed.

(** * Mutation through aliased pointers (outside C18) *)
Definition xfinal (ops : list (xop V)) : fledger V := (xrun_from fledger_empty ops).1.

Lemma alias_mutate k f m : alias_inv m → alias_inv (mem_mutate_got k f m).
Proof.
  intros Ha k' v'. simpl. destruct (decide (k = k')) as [<-|Hne].
  - rewrite !lookup_alter. destruct (upd m !! k) as [w|] eqn:Hw; [|done].
    apply Ha in Hw. by rewrite Hw.
  - rewrite !lookup_alter_ne by done. apply Ha.
Qed.

Lemma alias_step c (p : op V) :
  alias_inv (chk c) → alias_inv (fin c) →
  alias_inv (chk (step c p).1) ∧ alias_inv (fin (step c p).1).
Proof.
  intros Hm Hf. unfold step, step_with.
  destruct p as [k v|k|k|k|k|k| |k v|k|k|k|k| | |n k|n| ]; simpl; try done.
  - split; [by apply alias_set|done].
  - split; [by apply alias_cancel_set|done].
  - pose proof (alias_get (tree c) k (chk c) Hm). by destruct (mem_get _ _ _).
  - pose proof (alias_del (tree c) k (chk c) Hm). by destruct (mem_del _ _ _ _).
  - split; [done|by apply alias_set].
  - split; [done|by apply alias_cancel_set].
  - pose proof (alias_get (tree c) k (fin c) Hf). by destruct (mem_get _ _ _).
  - pose proof (alias_del (tree c) k (chk c) Hm). pose proof (alias_del (tree c) k (fin c) Hf).
    by destruct (mem_del _ _ _ (chk c)), (mem_del _ _ _ (fin c)).
Qed.

Lemma alias_xstep c (p : xop V) :
  alias_inv (chk c) → alias_inv (fin c) →
  alias_inv (chk (xstep c p).1) ∧ alias_inv (fin (xstep c p).1).
Proof.
  intros Hm Hf. destruct p as [p|k f|k f]; simpl.
  - by apply alias_step.
  - split; [by apply alias_mutate|done].
  - split; [done|by apply alias_mutate].
Qed.

(** in every state reachable by ledger operations and in-place mutations, the object in
    updatedItems is the object in gotItems *)
Theorem alias_inv_reachable (ops : list (xop V)) :
  alias_inv (chk (xfinal ops)) ∧ alias_inv (fin (xfinal ops)).
Proof.
  unfold xfinal.
  assert (∀ c, alias_inv (chk c) → alias_inv (fin c) →
    alias_inv (chk (xrun_from c ops).1) ∧ alias_inv (fin (xrun_from c ops).1)) as Hgen.
  { induction ops as [|p ops IH]; intros c Hm Hf; simpl; [done|].
    destruct (alias_xstep c p Hm Hf) as (Hm1 & Hf1).
    destruct (xstep c p) as [c1 x]. simpl in *.
    specialize (IH c1 Hm1 Hf1). by destruct (xrun_from c1 ops). }
  apply Hgen; apply alias_empty.
Qed.

(** Set/SetFinality after an in-place mutation = a plain Set/SetFinality of the mutated value *)
Lemma set_after_mutate_gen k f x m : mem_set k x (mem_mutate_got k f m) = mem_set k x m.
Proof.
  unfold mem_set, mem_mutate_got, set_got_item, set_updated_item. simpl.
  f_equal; apply map_eq; intros k'; (destruct (decide (k = k')) as [<-|Hne];
    [by rewrite !lookup_insert|by rewrite !lookup_insert_ne, lookup_alter_ne by done]).
Qed.

Lemma set_after_mutate k f v m :
  got m !! k = Some v → mem_set k (f v) (mem_mutate_got k f m) = mem_set k (f v) m.
Proof. intros _. apply set_after_mutate_gen. Qed.

(** ... whereas WITHOUT the following Set the mutation of a clean cached object is visible
    to reads but never reaches the tree (it is not in updatedItems): *)
Lemma mutate_clean_not_committed k f m :
  upd m !! k = None → upd (mem_mutate_got k f m) !! k = None.
Proof. intros Hu. simpl. by rewrite lookup_alter, Hu. Qed.

End refine.

(** * The unrepaired code does NOT refine the specification *)
Theorem ledger_buggy_refuted :
  ∃ ops : list (op N), outs (run_buggy ops) ≠ outs (run_spec ops).
Proof.
  exists [SetF 1%N 10%N; Commit; DelF 1%N; SetF 1%N 11%N; GetF 1%N].
  vm_compute. intros Heq. discriminate Heq.
Qed.

(** * The premises are inhabited: a non-trivial run
    key 1 is written and committed (version 1), then within one commit interval deleted,
    re-created, deleted twice more (the second delete fails: NotFound) and re-created
    again; the mempool write of key 2 is seen by the mempool read only and is gone after
    the commit; two more commits and a reopen later, versions 1 and 2 still read as
    committed. *)
Open Scope N_scope.
Definition c18_example : list (op N) :=
  [SetF 1 10; SetM 2 7; GetM 2; GetF 2; Commit; GetM 2; GetF 1; DelF 1; GetF 1; SetF 1 11;
   GetF 1; DelF 1; DelF 1; SetF 1 12; SetF 3 30; Commit; DelF 3; Commit; Reopen;
   ReadAt 1 1; ReadAt 2 1; ReadAt 3 1; IterAt 2; ReadAt 0 3; ReadAt 4 1].

Example c18_example_run :
  run c18_example =
  [ONil; ONil; OVal 7; ONotFound; OCommitted 1 [(true, 1)]; ONotFound;
   OVal 10; OVal 10; ONotFound; ONil; OVal 11;
   OVal 11; ONotFound; ONil; ONil;
   OCommitted 2 [(false, 1); (false, 1); (true, 3); (true, 1)];
   OVal 30; OCommitted 3 [(false, 3)]; ONil;
   OVal 10; OVal 12; OVal 12; OItems [(1, 12); (3, 30)]; ONotFound; OErr].
Proof. vm_compute. reflexivity. Qed.

(* the premise of [history_immutable] holds for version 2 after the first 16 operations,
   with the remaining 9 (a commit, a reopen, ...) as [ops'] *)
Example c18_example_history_premise :
  (1 ≤ 2 ≤ Z.of_nat (length (hist (final (take 16 c18_example)))))%Z ∧
  c18_example = take 16 c18_example ++ drop 16 c18_example.
Proof.
  split; [|by rewrite take_drop].
  vm_compute. split; intros Hc; discriminate Hc.
Qed.
Close Scope N_scope.
