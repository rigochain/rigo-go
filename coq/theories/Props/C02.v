(* C02 — Conservation of value across accounts, stakes, unbonding and rewards.
   Statements about Spec.v, closed by lemmas of InvSupply.v, InvReach.v and InvEvmClosed.v.
   supply = sum of balances + 10^18 * (bonded power + unbonding power). *)
From Rigo Require Import Base.
From stdpp Require Import gmap sorting.
From Rigo Require Import Spec SpecProps InvFee InvSupply.
Local Open Scope Z_scope.

Theorem C02_deliver_ok : forall s t s' g,
  deliver s t = (s', Ok g) -> native s t -> tx_wf t -> payload_wf t -> bal_range (work s) ->
  room_for (work s) t (t_to t) -> room_for (work s) t (t_from t) ->
  stake_amount_ok t -> unstake_ok (work s) t ->
  supply (work s') = supply (work s) - fee_of t + withdrawn_of t.
Proof. exact deliver_native_supply. Qed.
Print Assumptions C02_deliver_ok.

Theorem C02_deliver_fail : forall s t s' r,
  deliver s t = (s', r) -> (forall g, r <> Ok g) ->
  tx_wf t -> payload_wf t -> params_ok (gparams s) -> bal_range (work s) ->
  bal_of (work s) (t_from t) < two255 ->
  supply (work s') = supply (work s) /\ bal_range (work s') /\ frozen (work s') = frozen (work s).
Proof. exact deliver_fail_supply. Qed.
Print Assumptions C02_deliver_fail.

Theorem C02_begin_block : forall s hd s' r,
  begin_block s hd = (s', r) -> h_height hd = last_height s + 1 ->
  0 <= g_slashRatio (gparams s) <= 100 -> hashes_unique (work s) -> bonded_nonneg (work s) ->
  supply (work s') = supply (work s) - amountPerPower * slashed_power s hd /\ 0 <= slashed_power s hd /\
  accts (work s') = accts (work s) /\ hashes_unique (work s') /\ frozen (work s) ⊆ frozen (work s').
Proof. exact begin_block_supply. Qed.
Print Assumptions C02_begin_block.

Theorem C02_end_block : forall s s' ups,
  end_block s = (s', Ok ups) -> bal_range (work s) -> 0 <= b_feesum (bctx s) < two256 -> frozen_synced s ->
  (forall a, bal_of (work s) a + end_fee (bctx s) a +
             refunds_to (sorted_items (frozen (base_of s))) (b_height (bctx s)) a < two256) ->
  supply (work s') = supply (work s) + paid_fees (bctx s).
Proof. exact end_block_supply. Qed.
Print Assumptions C02_end_block.

(* over every history of blocks from a genesis (BeginBlock/EndBlock answering Ok, deliveries free to
   fail), with the stake invariants of C11 along the run and the genesis total plus withdrawn rewards
   below 2^63 RIGO: supply + the open block's pending fee sum = genesis supply + rewards withdrawn
   - 10^18 * power destroyed by slashing - fees of proposer-less blocks; no balance ever wraps *)
Theorem C02_holds : forall g ops s p gh,
  hrun (init_chain g, PIdle, ghost0) ops = Some (s, p, gh) ->
  (forall pre, pre `prefix_of` ops -> run_ok (srun (init_chain g) pre)) ->
  txs_ok ops ->
  bal_range (work (init_chain g)) ->
  supply (work (init_chain g)) + gh_withdrawn gh < supply_bound ->
  s = srun (init_chain g) ops /\
  C02_equation g s p gh /\
  bal_range (work s) /\
  (forall a, 0 <= bal_of (work s) a < supply_bound) /\
  0 <= gh_withdrawn gh /\ 0 <= gh_slashed gh /\ 0 <= gh_burned gh.
Proof. exact C02_history. Qed.
Print Assumptions C02_holds.

(* without unique stake hashes the equation is false (known finding): two genesis validators unstake
   their genesis stakes (both hash 0) in one block; 100 units of power vanish although nothing was
   slashed, burned or withdrawn *)
Theorem C02_collision_refuted :
  exists g ops s p gh,
    hrun (init_chain g, PIdle, ghost0) ops = Some (s, p, gh) /\
    gh = ghost0 /\ p = PIdle /\
    Forall (fun o => match o with SDeliver t => tx_wf t /\ payload_wf t /\ t_evm t = None | _ => True end) ops /\
    params_ok (gen_params g) /\
    supply (work s) = supply (work (init_chain g)) - 100 * amountPerPower /\
    ~ C02_equation g s p gh /\
    ~ hashes_unique (work (init_chain g)).
Proof. exact InvSupply.C02_collision_refuted. Qed.
Print Assumptions C02_collision_refuted.

(* the history theorem with its hypothesis about the run ([run_ok] at every prefix) discharged:
   every assumption is about what the environment supplies -- the genesis document (parameters in
   range, at most one validator [with two the genesis stakes collide, see C02_collision_refuted],
   validator powers in the int64 range, holder balances in the uint256 range), the operation list
   (executed staking transactions carry fresh hashes; transactions carry Go-typed fields and no EVM
   execution; the parameter documents of submitted parameter proposals keep well-formed parameters
   well formed when merged, which the submission check does not enforce) -- plus the bound on the
   total ever minted (genesis supply + rewards withdrawn during the history) *)
From Rigo Require InvStake InvReach.
Theorem C02_holds_closed : forall g ops s p gh,
  hrun (init_chain g, PIdle, ghost0) ops = Some (s, p, gh) ->
  (params_ok (gen_params g) /\ (length (gen_validators g) <= 1)%nat /\
   Forall (fun v : addr * Z => 0 <= v.2 < two63) (gen_validators g) /\
   Forall (fun h : addr * Z => 0 <= h.2 < two256) (gen_holders g)) ->
  InvStake.fresh_run (init_chain g) ops ->
  txs_ok ops ->
  Forall (fun o => match o with SDeliver t => InvReach.tx_opts_ok t | _ => True end) ops ->
  supply (work (init_chain g)) + gh_withdrawn gh < supply_bound ->
  s = srun (init_chain g) ops /\
  C02_equation g s p gh /\
  bal_range (work s) /\
  (forall a, 0 <= bal_of (work s) a < supply_bound) /\
  0 <= gh_withdrawn gh /\ 0 <= gh_slashed gh /\ 0 <= gh_burned gh.
Proof. exact InvReach.C02_closed. Qed.
Print Assumptions C02_holds_closed.

(* the run-level hypothesis of C02_holds, from the same input-only hypotheses (no history, no bound) *)
Theorem C02_run_ok_reachable : forall g ops,
  (params_ok (gen_params g) /\ (length (gen_validators g) <= 1)%nat /\
   Forall (fun v : addr * Z => 0 <= v.2 < two63) (gen_validators g) /\
   Forall (fun h : addr * Z => 0 <= h.2 < two256) (gen_holders g)) ->
  InvStake.fresh_run (init_chain g) ops ->
  Forall (fun o => match o with SDeliver t => InvReach.tx_opts_ok t | _ => True end) ops ->
  forall pre, pre `prefix_of` ops -> run_ok (srun (init_chain g) pre).
Proof. exact InvReach.run_ok_reachable. Qed.
Print Assumptions C02_run_ok_reachable.

(* every hypothesis on the inputs, nothing presupposed about the run: a well-formed genesis document,
   a well-bracketed operation list (ABCI order, consecutive heights, no votes in block 1, transactions
   as in C09), staking transactions with pairwise distinct non-zero hashes, Go-typed fields and no EVM
   execution, and genesis supply + everything the list's withdrawals REQUEST below 2^63 RIGO.  Then
   the list is a history (every BeginBlock / EndBlock answers Ok) and its end state satisfies the
   C02 equation; no balance wraps *)
From Rigo Require InvPanic.
Theorem C02_holds_inputs : forall g ops,
  (params_ok (gen_params g) /\ (length (gen_validators g) <= 1)%nat /\
   Forall (fun v : addr * Z => 0 <= v.2 < two63) (gen_validators g) /\
   Forall (fun h : addr * Z => 0 <= h.2 < two256) (gen_holders g)) ->
  InvPanic.bracketed InvPanic.Idle 0 ops ->
  NoDup (0%N :: InvReach.stake_hashes ops) ->
  txs_ok ops ->
  supply (work (init_chain g)) + InvReach.requested ops < supply_bound ->
  exists s p gh,
    hrun (init_chain g, PIdle, ghost0) ops = Some (s, p, gh) /\
    s = srun (init_chain g) ops /\
    C02_equation g s p gh /\
    bal_range (work s) /\
    (forall a, 0 <= bal_of (work s) a < supply_bound) /\
    0 <= gh_withdrawn gh <= InvReach.requested ops /\ 0 <= gh_slashed gh /\ 0 <= gh_burned gh.
Proof. exact InvReach.C02_closed_total. Qed.
Print Assumptions C02_holds_inputs.

(* ---- histories with contract calls, the effect contract replaced by the CHECKED boolean
   (EffectCheck.v).  InvSupply.C02_history_evm assumes [covered]: every EVM-path delivery carries an
   effect satisfying [evm_effect_fee_ok ... (evm_burn s t)].  Here that part is derived from
   [effects_hold] (= [check_effects c = []], check_effects_sound); what remains of [covered] is that
   delivered transactions carry Go-typed fields ([txs_typed]: tx_wf and payload_wf, nothing about
   t_evm).  [hrunE] is the history relation that accounts [evm_burn] under gh_burned. *)
From Rigo Require AppRun EffectCheck InvEvmClosed.
Theorem C02_checked_run : forall g rest senders s p gh,
  InvEvmClosed.no_init rest ->
  EffectCheck.effects_hold senders AppRun.state0 (AppRun.AInit g :: rest) ->
  hrunE (init_chain g, PIdle, ghost0) (InvEvmClosed.sops_of rest) = Some (s, p, gh) ->
  (forall pre, pre `prefix_of` InvEvmClosed.sops_of rest -> run_ok (srun (init_chain g) pre)) ->
  Forall (fun o => match o with SDeliver t => tx_wf t /\ payload_wf t | _ => True end) (InvEvmClosed.sops_of rest) ->
  bal_range (work (init_chain g)) ->
  supply (work (init_chain g)) + gh_withdrawn gh < supply_bound ->
  s = srun (init_chain g) (InvEvmClosed.sops_of rest) /\
  C02_equation g s p gh /\
  bal_range (work s) /\
  (forall a, 0 <= bal_of (work s) a < supply_bound) /\
  0 <= gh_withdrawn gh /\ 0 <= gh_slashed gh /\ 0 <= gh_burned gh.
Proof. exact InvEvmClosed.C02_checked_run. Qed.
Print Assumptions C02_checked_run.

(* ... and with [run_ok] at the prefixes discharged as in C02_holds_closed (run_ok_reachable asks
   nothing of t_evm): hypotheses on the inputs, the verdict of the check, the minted bound *)
Theorem C02_checked : forall g rest senders s p gh,
  InvEvmClosed.no_init rest ->
  EffectCheck.effects_hold senders AppRun.state0 (AppRun.AInit g :: rest) ->
  hrunE (init_chain g, PIdle, ghost0) (InvEvmClosed.sops_of rest) = Some (s, p, gh) ->
  (params_ok (gen_params g) /\ (length (gen_validators g) <= 1)%nat /\
   Forall (fun v : addr * Z => 0 <= v.2 < two63) (gen_validators g) /\
   Forall (fun h : addr * Z => 0 <= h.2 < two256) (gen_holders g)) ->
  NoDup (0%N :: InvReach.stake_hashes (InvEvmClosed.sops_of rest)) ->
  Forall (fun o => match o with SDeliver t => InvReach.tx_opts_ok t | _ => True end) (InvEvmClosed.sops_of rest) ->
  Forall (fun o => match o with SDeliver t => tx_wf t /\ payload_wf t | _ => True end) (InvEvmClosed.sops_of rest) ->
  supply (work (init_chain g)) + gh_withdrawn gh < supply_bound ->
  s = srun (init_chain g) (InvEvmClosed.sops_of rest) /\
  C02_equation g s p gh /\
  bal_range (work s) /\
  (forall a, 0 <= bal_of (work s) a < supply_bound) /\
  0 <= gh_withdrawn gh /\ 0 <= gh_slashed gh /\ 0 <= gh_burned gh.
Proof. exact InvEvmClosed.C02_checked. Qed.
Print Assumptions C02_checked.
