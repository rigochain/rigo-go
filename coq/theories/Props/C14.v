(* C14 — Slashing and downtime jailing hit exactly the offending validator, exactly once.
   Statements about Spec.v, closed by lemmas of InvSlash.v, InvSlashClosed.v and InvJailHistory.v. *)
From Rigo Require Import Base.
From stdpp Require Import gmap sorting.
From Rigo Require InvFee.
From Rigo Require Import Spec SpecProps InvReward InvSlash InvPanic InvSupply InvReach InvSlashClosed.
Local Open Scope Z_scope.

(* one evidence item against a delegatee: every stake with floor(power*ratio/100) >= 1 keeps
   power - floor(power*ratio/100), every other stake is forfeited; totals are recomputed; order,
   owner, target, hash and start height of the remaining stakes are unchanged (stake hashes within
   the delegatee pairwise distinct) *)
Theorem C14_slash : forall d ratio,
  0 <= ratio -> Forall (fun s => 0 <= s_power s) (d_stakes d) -> NoDup (s_hash <$> d_stakes d) ->
  slash_all d ratio =
    ({| d_addr := d_addr d;
        d_self := sum_power_of (d_addr d) (slash_kept ratio (d_stakes d));
        d_total := sum_power (slash_kept ratio (d_stakes d));
        d_stakes := slash_kept ratio (d_stakes d);
        d_marks := d_marks d |},
     sumZ_with (cut ratio) (List.filter (survives ratio) (d_stakes d))).
Proof. exact slash_all_spec. Qed.
Print Assumptions C14_slash.

(* the evidence of a block on the staking side: each named delegatee is slashed once per item that
   names it; unknown addresses change nothing; every other delegatee, every account, unbonding stake,
   reward, proposal and parameter is untouched *)
Theorem C14_stake_frame : forall l ratio evi,
  (forall a, dels (stake_punish l ratio evi) !! a = Nat.iter (times a evi) (slash1 ratio) <$> dels l !! a) /\
  (forall a, a ∉ evi -> dels (stake_punish l ratio evi) !! a = dels l !! a) /\
  accts (stake_punish l ratio evi) = accts l /\ frozen (stake_punish l ratio evi) = frozen l /\
  rewards (stake_punish l ratio evi) = rewards l /\ props (stake_punish l ratio evi) = props l /\
  fprops (stake_punish l ratio evi) = fprops l /\ lparams (stake_punish l ratio evi) = lparams l.
Proof. exact stake_punish_spec. Qed.
Print Assumptions C14_stake_frame.

(* ... and on the governance side: in every open proposal that records the offender as a voter its
   weight shrinks by floor(power*ratio/100) (removed at <= 0), an existing choice is re-cast with the
   new weight, total and majority follow; nothing else changes *)
Theorem C14_voter : forall p a ratio v,
  p_voters p !! a = Some v -> 0 <= v_power v < two63 -> 0 <= ratio <= 100 ->
  prop_punish p a ratio = (punished_prop p a v (v_power v * ratio / 100), v_power v * ratio / 100).
Proof. exact prop_punish_spec. Qed.
Print Assumptions C14_voter.

Theorem C14_gov_frame : forall l ratio evi,
  (forall h, props (gov_punish l ratio evi) !! h = (fun p => foldl (fun p a => punish1 ratio a p) p evi) <$> props l !! h) /\
  accts (gov_punish l ratio evi) = accts l /\ dels (gov_punish l ratio evi) = dels l /\
  frozen (gov_punish l ratio evi) = frozen l /\ rewards (gov_punish l ratio evi) = rewards l /\
  fprops (gov_punish l ratio evi) = fprops l /\ lparams (gov_punish l ratio evi) = lparams l.
Proof. exact gov_punish_spec. Qed.
Print Assumptions C14_gov_frame.

(* downtime: for a validator that did not sign block h-1, the miss is recorded and IFF the signed
   blocks inside the window fall below the minimum all stake bonded to it moves to unbonding (refund
   height h + period) and it leaves the delegatee ledger; otherwise only its miss record changes *)
Theorem C14_jail : forall g h l a d,
  dels l !! a = Some d -> incr (d_marks d) -> 0 <= g_signedBlocksWindow g -> 1 <= h ->
  let sh := h - 1 in
  let m1 := mark (d_marks d) sh in
  let s0 := Z.max 0 (sh - g_signedBlocksWindow g) in
  let cnt := Z.of_nat (length (List.filter (in_window s0 sh) m1)) in
  let m2 := if (2 <=? length (List.filter (before_window s0) m1))%nat
            then List.filter (fun x => negb (before_window s0 x)) m1 else m1 in
  jail_step g h l a =
    if g_signedBlocksWindow g - cnt <? g_minSignedBlocks g
    then set_frozen (set_dels l (delete a (dels l))) (freeze_all (frozen l) (h + g_lazyRewardBlocks g) (d_stakes d))
    else set_dels l (<[a := with_marks d m2]> (dels l)).
Proof. exact jail_step_spec. Qed.
Print Assumptions C14_jail.

(* the miss records are strictly increasing in every reachable state (hypothesis of C14_jail) *)
Theorem C14_marks_increasing : forall g ops, marks_incr (work (srun (init_chain g) ops)).
Proof. exact marks_incr_run. Qed.
Print Assumptions C14_marks_increasing.

(* BeginBlock as a whole: accounts, frozen proposals, parameters and all control state unchanged;
   proposals change only by the governance-side punishment, delegatees and unbonding stakes only by
   the staking-side punishment and by jailing *)
Theorem C14_holds : forall s hd s' r,
  begin_block s hd = (s', r) ->
  let ratio := g_slashRatio (gparams s) in
  let evi := h_evidence hd in
  let h := h_height hd in
  let l2 := stake_punish (gov_punish (work s) ratio evi) ratio evi in
  (h <> last_height s + 1 -> s' = s /\ r = Panic P_BEGINBLOCK) /\
  (h = last_height s + 1 ->
     committed s' = committed s /\ gparams s' = gparams s /\ newparams s' = newparams s /\
     lastvals s' = lastvals s /\ last_height s' = last_height s /\
     bctx s' = {| b_height := h; b_proposer := h_proposer hd; b_feesum := 0; b_txs := 0 |} /\
     accts (work s') = accts (work s) /\ fprops (work s') = fprops (work s) /\ lparams (work s') = lparams (work s) /\
     props (work s') = punish_props ratio (props (work s)) evi /\
     dels l2 = punish_dels ratio (dels (work s)) evi /\ frozen l2 = frozen (work s) /\
     match r with
     | Ok _ => dels (work s') = dels (jail_votes (gparams s) h l2 (h_votes hd)) /\
               frozen (work s') = frozen (jail_votes (gparams s) h l2 (h_votes hd))
     | _ => dels (work s') = dels l2 /\ frozen (work s') = frozen l2 /\ rewards (work s') = rewards (work s)
     end).
Proof. exact begin_block_frame. Qed.
Print Assumptions C14_holds.

(* the distinct-hash hypothesis of C14_slash is needed: with two stakes of one hash in one delegatee the
   wrong one is forfeited *)
Theorem C14_dup_hash_refuted :
  exists d ratio, 0 <= ratio <= 100 /\ Forall (fun s => 0 <= s_power s) (d_stakes d) /\
    d_stakes (slash_all d ratio).1 = [dup_small] /\ slash_kept ratio (d_stakes d) = [with_power 900 dup_big].
Proof. exact slash_dup_hash_refuted. Qed.
Print Assumptions C14_dup_hash_refuted.

(* ================================================================== whole runs, hypotheses on the inputs only
   (InvSlashClosed.v): the hypotheses of the per-step theorems above — distinct stake hashes inside a
   delegatee, slash ratio in 0..100, increasing miss marks, window parameter, voter powers in range —
   are discharged from reachability; what is assumed is a well-formed genesis document, fresh staking
   hashes, parameter documents in range and a BeginBlock that carries the next height *)
(* For each piece of evidence in a block, every stake bonded to the named validator loses the
   governance slash percentage of its power, rounded down; a stake too small to be reduced is
   forfeited; repeated evidence cuts repeatedly; unknown addresses change nothing.
   In every state [s] reachable by a list [pre], for the BeginBlock that continues the list:
   - the slash percentage in force is between 0 and 100;
   - after the punishment phase (the ledgers the vote loop starts from) the entry of EVERY address [a]
     is its old entry with the stake list passed [times a evi] times through [slash_kept], self and
     total power recomputed as sums over the remaining stakes, miss marks untouched;
   - the same is true of the state BeginBlock leaves behind for every delegatee that is not
     reported as a non-signer (those are the subject of C14_run_jail_iff), whatever BeginBlock answers;
   - no delegatee is created. *)
Theorem C14_run_slash_exact : forall g pre hd,
  genesis_ok g → hashes_fresh pre → opts_ok pre → blocks InvPanic.Idle 0 (pre ++ [SBegin hd]) →
  let s := srun (init_chain g) pre in
  let s' := sstep s (SBegin hd) in
  let ratio := g_slashRatio (gparams s) in
  let evi := h_evidence hd in
  0 ≤ ratio ≤ 100 ∧
  (∀ a, dels (punished s hd) !! a = slashed_n ratio (times a evi) a <$> dels (work s) !! a) ∧
  (∀ a d, dels (work s) !! a = Some d → a ∉ nonsigners (h_votes hd) →
     dels (work s') !! a = Some (slashed_n ratio (times a evi) a d)) ∧
  (∀ a, dels (work s) !! a = None → dels (work s') !! a = None).
Proof. exact InvSlashClosed.C14_run_slash_exact. Qed.
Print Assumptions C14_run_slash_exact.

(* one evidence item, spelled out stake by stake: a stake of the named validator with
   floor(power*ratio/100) >= 1 keeps its owner, target, hash, start and refund height and has
   power - floor(power*ratio/100); the others are gone; the order is kept *)
Theorem C14_run_slash_once : forall g pre hd a d,
  genesis_ok g → hashes_fresh pre → opts_ok pre → blocks InvPanic.Idle 0 (pre ++ [SBegin hd]) →
  let s := srun (init_chain g) pre in
  let ratio := g_slashRatio (gparams s) in
  dels (work s) !! a = Some d → times a (h_evidence hd) = 1%nat →
  ∃ d', dels (punished s hd) !! a = Some d' ∧ d_addr d' = a ∧ d_marks d' = d_marks d ∧
        d_stakes d' = slash_kept ratio (d_stakes d) ∧
        d_total d' = sum_power (d_stakes d') ∧ d_self d' = sum_power_of a (d_stakes d') ∧
        (∀ st', st' ∈ d_stakes d' ↔
           ∃ st, st ∈ d_stakes d ∧ 1 ≤ s_power st * ratio / 100 ∧
                 st' = with_power (s_power st - s_power st * ratio / 100) st) ∧
        (∀ st, st ∈ d_stakes d → s_power st * ratio / 100 < 1 → s_hash st ∉ s_hash <$> d_stakes d') ∧
        sublist (s_hash <$> d_stakes d') (s_hash <$> d_stakes d).
Proof. exact InvSlashClosed.C14_run_slash_once. Qed.
Print Assumptions C14_run_slash_once.

(* ... while no other validator, stake or account changes.  In every reachable state, for the
   BeginBlock that continues the list, whatever it answers:
   - a delegatee that is neither named by the evidence nor reported as a non-signer keeps its entry
     (and no entry appears for an address that had none);
   - a delegatee that is not named keeps address, self power, total power and stake list as long as it
     has an entry: only its miss marks may differ;
   - accounts, frozen proposals, the parameter ledger, the committed versions, the active and the
     pending parameters, the validator set and the last height are unchanged;
   - an open proposal in which no named address is a voter is unchanged, and no proposal appears;
   - the unbonding ledger is unchanged when no vote is marked "did not sign" (otherwise see C14_run_jail_iff);
   - the reward ledger is unchanged when no vote is marked "signed" (otherwise see C13). *)
Theorem C14_run_others_untouched : forall g pre hd,
  genesis_ok g → hashes_fresh pre → opts_ok pre → blocks InvPanic.Idle 0 (pre ++ [SBegin hd]) →
  let s := srun (init_chain g) pre in
  let s' := sstep s (SBegin hd) in
  let evi := h_evidence hd in
  (∀ a, a ∉ evi → a ∉ nonsigners (h_votes hd) → dels (work s') !! a = dels (work s) !! a) ∧
  (∀ a d d', a ∉ evi → dels (work s) !! a = Some d → dels (work s') !! a = Some d' → same_but_marks d d') ∧
  accts (work s') = accts (work s) ∧ fprops (work s') = fprops (work s) ∧ lparams (work s') = lparams (work s) ∧
  committed s' = committed s ∧ gparams s' = gparams s ∧ newparams s' = newparams s ∧
  lastvals s' = lastvals s ∧ last_height s' = last_height s ∧
  (∀ k p, props (work s) !! k = Some p → (∀ a, a ∈ evi → p_voters p !! a = None) → props (work s') !! k = Some p) ∧
  (∀ k, props (work s) !! k = None → props (work s') !! k = None) ∧
  (nonsigners (h_votes hd) = [] → frozen (work s') = frozen (work s)) ∧
  (Forall (λ v : addr * Z * bool, v.2 = false) (h_votes hd) → rewards (work s') = rewards (work s)).
Proof. exact InvSlashClosed.C14_run_others_untouched. Qed.
Print Assumptions C14_run_others_untouched.

(* downtime over runs ([jailing_exact], InvSlashClosed.v): with the reported non-signers pairwise
   distinct, a delegatee leaves in this block iff it is reported as a non-signer and its signed
   blocks in the window [max(0,h-1-window), h-1] are fewer than the minimum; every stake it had is
   then in the unbonding ledger with refund height h + lazyRewardBlocks, and nothing else of that
   ledger changes.  That BeginBlock answers Ok is derived: votes are carried only from height 2 on *)
Theorem C14_run_jail_iff : forall g pre hd,
  genesis_ok g → hashes_fresh pre → opts_ok pre → blocks InvPanic.Idle 0 (pre ++ [SBegin hd]) →
  NoDup (nonsigners (h_votes hd)) → (h_votes hd = [] ∨ 2 ≤ h_height hd) →
  (∃ iss, (begin_block (srun (init_chain g) pre) hd).2 = Ok iss) ∧
  jailing_exact (srun (init_chain g) pre) hd.
Proof. exact InvSlashClosed.C14_run_jail_iff. Qed.
Print Assumptions C14_run_jail_iff.

(* ... and the validator's voting weight in open proposals shrinks by the same percentage.
   In every state [s] reachable by a list [pre], for the BeginBlock that continues the list
   ([voters_punished], written out in InvSlashClosed.v):
   - every recorded voter of every open proposal has a power in [0, 2^63) and the slash percentage is in
     0..100: the hypotheses of C14_voter hold, and keep holding item after item;
   - every open proposal [p] is replaced by [p] punished for each evidence item in order; no proposal
     appears or disappears;
   - item by item: with [q] the proposal as the items before left it, an item naming a recorded voter
     [v] of [q] turns [q] into [punished_prop q a v (floor(power*ratio/100))] (the voter's weight, the
     option it had chosen and the total lose exactly that amount, the majority threshold is recomputed,
     the voter is removed when nothing is left); an item naming nobody recorded leaves [q] as it is;
   - overall a voter named n times has its weight cut n times ([punish_voter] iterated), voters not named
     keep their record; hash, voting window, apply height, option type, number of options and major
     option of the proposal are unchanged. *)
Theorem C14_run_voters : forall g pre hd,
  genesis_ok g → hashes_fresh pre → opts_ok pre → blocks InvPanic.Idle 0 (pre ++ [SBegin hd]) →
  voters_punished (srun (init_chain g) pre) hd.
Proof. exact InvSlashClosed.C14_run_voters. Qed.
Print Assumptions C14_run_voters.

(* a voter named by exactly one evidence item: floor(power*ratio/100) less, removed at <= 0 *)
Theorem C14_run_voter_once : forall g pre hd k p a v,
  genesis_ok g → hashes_fresh pre → opts_ok pre → blocks InvPanic.Idle 0 (pre ++ [SBegin hd]) →
  let s := srun (init_chain g) pre in
  let ratio := g_slashRatio (gparams s) in
  props (work s) !! k = Some p → p_voters p !! a = Some v → times a (h_evidence hd) = 1%nat →
  0 ≤ v_power v < two63 ∧ 0 ≤ ratio ≤ 100 ∧
  ∃ p', props (work (sstep s (SBegin hd))) !! k = Some p' ∧
        p_voters p' !! a =
          if v_power v - v_power v * ratio / 100 <=? 0 then None
          else Some {| v_power := v_power v - v_power v * ratio / 100; v_choice := v_choice v |}.
Proof. exact InvSlashClosed.C14_run_voter_once. Qed.
Print Assumptions C14_run_voter_once.

(* "leaves the validator set" is not immediate: the eligible set of a block is built from the
   COMMITTED tree before stakes are punished and non-signers jailed, so the validator jailed (and
   slashed) in BeginBlock of block 4 is still announced, with its old power 120, by EndBlock of
   block 4; it is dropped by EndBlock of block 5 *)
Theorem C14_jailed_same_block_set_refuted : 
  ∃ g pre hd,
    genesis_ok g ∧ InvPanic.bracketed InvPanic.Idle 0 (pre ++ [SBegin hd]) ∧ hashes_fresh (pre ++ [SBegin hd]) ∧
    txs_ok (pre ++ [SBegin hd]) ∧ supply (work (init_chain g)) + requested (pre ++ [SBegin hd]) < supply_bound ∧
    let s' := srun (init_chain g) (pre ++ [SBegin hd]) in
    dels (work s') !! 11%N = None ∧
    lastvals (srun s' [SEnd]) = [(11%N, 120)] ∧
    (end_block s').2 = Ok [] ∧
    lastvals (srun s' [SEnd; SCommit; SBegin (InvFee.demo_hdr 5 (Some 11%N)); SEnd]) = [].
Proof. exact InvSlashClosed.C14_jailed_same_block_set_refuted. Qed.
Print Assumptions C14_jailed_same_block_set_refuted.

(* ================================================================== the jailing decision from the block HEADERS
   (InvJailHistory.v).  [reported_misses a g ops]: the heights h-1 at which a BeginBlock of height h
   reported a as a non-signer, collected while a stays a delegatee.  As long as no operation of the run
   ENLARGES the signing window (window_nonincr), the miss marks the node keeps agree with them inside every
   window (trimming only removes what no later window needs), so the decision "leaves in BeginBlock" can be
   read off the headers alone — which is what the trace predicate P_C14_jail_history does on the real node.
   When governance enlarges the window, already trimmed heights come back into view: the claim is then false
   of the model (and of the code), witness C14_window_growth_refuted; the predicate stays silent for one
   window length after such a change. *)
From Rigo Require Import InvJailHistory.
Theorem C14_marks_window_agree : forall g ops hd a d,
  genesis_ok g → opts_ok ops → blocks InvPanic.Idle 0 (ops ++ [SBegin hd]) → votes_from_2 ops → window_nonincr g ops →
  let s := srun (init_chain g) ops in
  let h := h_height hd in
  let s0 := win_start (gparams s) h in
  let R := reported_misses a g ops in
  dels (work s) !! a = Some d →
  List.filter (in_window s0 (h - 1)) (d_marks d) = List.filter (in_window s0 (h - 1)) R ∧
  List.filter (in_window s0 (h - 1)) (missed_marks h d) = List.filter (in_window s0 (h - 1)) (R ++ [h - 1]) ∧
  (∀ x, x ∈ d_marks d → x ∈ R) ∧
  incr R ∧ Forall (λ x, x < h - 1) R.
Proof. exact InvJailHistory.marks_window_agree. Qed.
Print Assumptions C14_marks_window_agree.

Theorem C14_jail_iff_headers : forall g pre hd,
  genesis_ok g → hashes_fresh pre → opts_ok pre → blocks InvPanic.Idle 0 (pre ++ [SBegin hd]) →
  NoDup (nonsigners (h_votes hd)) → votes_from_2 (pre ++ [SBegin hd]) → window_nonincr g pre →
  let s := srun (init_chain g) pre in
  ∀ a d, dels (work s) !! a = Some d →
    (dels (work (sstep s (SBegin hd))) !! a = None ↔
     a ∈ nonsigners (h_votes hd) ∧
     header_decision (gparams s) (h_height hd) (reported_misses a g pre) = true).
Proof. exact InvJailHistory.C14_jail_iff_headers. Qed.
Print Assumptions C14_jail_iff_headers.

Theorem C14_window_growth_refuted : 
  let g := jr_genesis in let ops := jr_pre in let hd := jr_hdr 9 true in let a := 11%N in
  let s := srun (init_chain g) ops in
  genesis_ok g ∧ hashes_fresh ops ∧ opts_ok ops ∧ blocks InvPanic.Idle 0 (ops ++ [SBegin hd]) ∧
  NoDup (nonsigners (h_votes hd)) ∧ votes_from_2 (ops ++ [SBegin hd]) ∧
  g_signedBlocksWindow (gen_params g) = 2 ∧ g_signedBlocksWindow (gparams s) = 100 ∧
  ¬ window_const g ops ∧ ¬ window_nonincr g ops ∧
  ∃ d, dels (work s) !! a = Some d ∧ d_marks d = [5] ∧ reported_misses a g ops = [1; 2; 5] ∧
       win_start (gparams s) 9 = 0 ∧
       List.filter (in_window 0 8) (d_marks d) ≠ List.filter (in_window 0 8) (reported_misses a g ops) ∧
       jailed (gparams s) 9 (after_evidence s hd a d) = false ∧
       header_decision (gparams s) 9 (reported_misses a g ops) = true ∧
       is_Some (dels (work (sstep s (SBegin hd))) !! a).
Proof. exact InvJailHistory.window_growth_refuted. Qed.
Print Assumptions C14_window_growth_refuted.
