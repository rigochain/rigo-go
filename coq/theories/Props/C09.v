(* C09 — No externally supplied input can crash the node (model part).
   PARTIAL by nature: byte-level decoding, go-ethereum and IAVL are outside the model; every explicit
   panic, unchecked type assertion, slice expression and division of the Go code that is reachable
   from a decoded transaction or from block processing is a `Panic site` result of Spec.v, and these
   theorems show none of them can be reached.  Statements closed by lemmas of InvPanic.v and
   InvReach.v. *)
From Rigo Require Import Base.
From stdpp Require Import gmap sorting.
From Rigo Require Import Spec SpecProps InvFail InvPanic.
Local Open Scope Z_scope.

(* no transaction can make DeliverTx panic: for every state satisfying state_ok (well-formed
   governance parameters, supply below 2^63 RIGO, non-negative delegatee totals, a consistent stake
   limiter, reward heights not above the block height) and every decoded transaction within the Go
   types' ranges whose payload kind matches its type (both wire decoders guarantee that) *)
Theorem C09_deliver_never_panics : forall s t,
  state_ok s -> tx_wf t -> payload_kind_ok t -> forall s' p, deliver s t <> (s', Panic p).
Proof. exact deliver_never_panics. Qed.
Print Assumptions C09_deliver_never_panics.

Theorem C09_begin_never_panics : forall s hd,
  reward_heights_ok s -> heights_ok s -> h_height hd = last_height s + 1 ->
  (h_votes hd <> [] -> committed s <> []) -> forall s' p, begin_block s hd <> (s', Panic p).
Proof. exact begin_block_never_panics. Qed.
Print Assumptions C09_begin_never_panics.

Theorem C09_end_never_panics : forall s,
  0 <= g_maxValidatorCnt (gparams s) -> keys_ok s -> gov_ok (fun _ => True) (base_of s) ->
  frozen_owned (accts (work s)) (base_of s) -> forall s' p, end_block s <> (s', Panic p).
Proof. exact end_block_never_panics. Qed.
Print Assumptions C09_end_never_panics.

(* over whole histories: for every well-bracketed sequence of blocks from a genesis with well-formed
   parameters, transactions as above whose governance options keep the parameters well-formed, no
   votes in block 1, and the bookkeeping / supply facts of C11 and C02 along the run: every
   BeginBlock and EndBlock answers Ok and no DeliverTx panics *)
Theorem C09_holds : forall g ops,
  params_ok (gen_params g) -> bracketed Idle 0 ops ->
  (forall pre post, ops = pre ++ post -> let l := work (srun (init_chain g) pre) in
     (forall a d, dels l !! a = Some d -> delegatee_ok a d) /\ ranges_ok l /\ supply l < two63 * amountPerPower) ->
  run_answers (init_chain g) ops.
Proof. exact run_never_panics_C02_C11. Qed.
Print Assumptions C09_holds.

(* the supply hypothesis is needed: a genesis holder owning 2^63 RIGO or more that self-stakes that
   amount makes DeliverTx panic (AmountToPower), reachable from init_chain under params_ok *)
Theorem C09_supply_bound_needed : exists g ops t,
  params_ok (gen_params g) /\ tx_wf t /\ payload_kind_ok t /\
  (deliver (srun (init_chain g) ops) t).2 = Panic P_AMOUNT_TO_POWER.
Proof. exact deliver_panics_reachable. Qed.
Print Assumptions C09_supply_bound_needed.

(* the history theorem with its hypothesis about the run discharged: a well-formed genesis document
   (parameters in range, at most one validator, powers in the int64 range, balances in the uint256
   range), a well-bracketed operation list whose transactions are as in C09_holds ([bracketed]
   carries tx_wf, payload kind, parse flag and parameter documents that keep parameters well formed),
   executed staking transactions with fresh hashes, withdrawal requests in the uint256 range and no
   EVM execution ([txs_ok]), and genesis supply + rewards withdrawn during the run below 2^63 RIGO.
   Nothing is assumed about intermediate states, and BeginBlock / EndBlock answering Ok is proved. *)
From Rigo Require InvStake InvSupply InvReach.
Theorem C09_holds_closed : forall g ops,
  (params_ok (gen_params g) /\ (length (gen_validators g) <= 1)%nat /\
   Forall (fun v : addr * Z => 0 <= v.2 < two63) (gen_validators g) /\
   Forall (fun h : addr * Z => 0 <= h.2 < two256) (gen_holders g)) ->
  bracketed Idle 0 ops ->
  InvStake.fresh_run (init_chain g) ops ->
  InvSupply.txs_ok ops ->
  supply (work (init_chain g)) + InvReach.minted (init_chain g) ops < InvSupply.supply_bound ->
  run_answers (init_chain g) ops.
Proof. exact InvReach.C09_closed. Qed.
Print Assumptions C09_holds_closed.

(* the same with every hypothesis on the inputs: staking transactions carry pairwise distinct
   non-zero hashes (instead of fresh_run), and the bound is on what the withdrawals of the list
   request (instead of what the run withdrew) *)
Theorem C09_holds_inputs : forall g ops,
  (params_ok (gen_params g) /\ (length (gen_validators g) <= 1)%nat /\
   Forall (fun v : addr * Z => 0 <= v.2 < two63) (gen_validators g) /\
   Forall (fun h : addr * Z => 0 <= h.2 < two256) (gen_holders g)) ->
  bracketed Idle 0 ops ->
  NoDup (0%N :: InvReach.stake_hashes ops) ->
  InvSupply.txs_ok ops ->
  supply (work (init_chain g)) + InvReach.requested ops < InvSupply.supply_bound ->
  run_answers (init_chain g) ops.
Proof. exact InvReach.C09_closed_inputs. Qed.
Print Assumptions C09_holds_inputs.

(* and the run-level hypothesis of C09_holds itself holds at every point of such a run *)
Theorem C09_run_facts_reachable : forall g ops,
  (params_ok (gen_params g) /\ (length (gen_validators g) <= 1)%nat /\
   Forall (fun v : addr * Z => 0 <= v.2 < two63) (gen_validators g) /\
   Forall (fun h : addr * Z => 0 <= h.2 < two256) (gen_holders g)) ->
  bracketed Idle 0 ops ->
  InvStake.fresh_run (init_chain g) ops ->
  InvSupply.txs_ok ops ->
  supply (work (init_chain g)) + InvReach.minted (init_chain g) ops < InvSupply.supply_bound ->
  forall pre post, ops = pre ++ post -> let l := work (srun (init_chain g) pre) in
     (forall a d, dels l !! a = Some d -> delegatee_ok a d) /\ ranges_ok l /\ supply l < two63 * amountPerPower.
Proof. exact InvReach.reach_facts. Qed.
Print Assumptions C09_run_facts_reachable.
