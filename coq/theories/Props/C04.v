(* C04 — Per-account nonces give exactly-once, in-order execution.  Statements about Spec.v,
   closed by lemmas of InvNonce.v and InvEvmClosed.v. *)
From Rigo Require Import Base.
From stdpp Require Import gmap sorting.
From Rigo Require Import Spec SpecProps InvFail InvNonce.
Local Open Scope Z_scope.

(* success only with the sender's current nonce; the nonce then moves by exactly one and nobody
   else's nonce moves (native execution path) *)
Theorem C04_step : forall s t s' g,
  t_type t <> TRX_CONTRACT -> a_code (acct_of (work s) (t_to t)) = false ->
  deliver s t = (s', Ok g) ->
  nonce_of (work s) (t_from t) = t_nonce t /\
  nonce_of (work s') (t_from t) = (t_nonce t + 1) mod two64 /\
  forall a, a <> t_from t -> nonce_of (work s') a = nonce_of (work s) a.
Proof. exact deliver_ok_nonce_step. Qed.
Print Assumptions C04_step.

(* EVM execution path: the nonces afterwards are those of the observed effect; with the effect's
   contract "the sender's nonce is bumped by one" the step is the same *)
Theorem C04_step_evm : forall s t s' g,
  evm_path s t = true -> evm_effect_nonce_ok t -> deliver s t = (s', Ok g) ->
  nonce_of (work s) (t_from t) = t_nonce t /\
  nonce_of (work s') (t_from t) = (t_nonce t + 1) mod two64 /\
  exists e, t_evm t = Some e /\
    forall a, nonce_of (work s') a = default (nonce_of (work s) a) (eff_nonce (e_accts e) a).
Proof. exact deliver_ok_nonce_step_evm. Qed.
Print Assumptions C04_step_evm.

(* failed transactions and block-level processing leave every nonce unchanged *)
Theorem C04_fail : forall s t s' e, deliver s t = (s', Err e) -> forall a, nonce_of (work s') a = nonce_of (work s) a.
Proof. exact deliver_fail_nonce. Qed.
Theorem C04_begin : forall s hd a, nonce_of (work (begin_block s hd).1) a = nonce_of (work s) a.
Proof. exact begin_block_nonce. Qed.
Theorem C04_end : forall s a, nonce_of (work (end_block s).1) a = nonce_of (work s) a.
Proof. exact end_block_nonce. Qed.
Theorem C04_commit : forall s a, nonce_of (work (commit s)) a = nonce_of (work s) a.
Proof. exact commit_nonce. Qed.
Print Assumptions C04_fail.
Print Assumptions C04_end.

(* consequently: in ANY history (any start state, any sequence of blocks, deliveries, replays) a
   given (sender, nonce) takes effect at most once, as long as nonces stay below 2^64 - 1 *)
Theorem C04_holds : forall s0 ops i j t1 t2,
  run_ok (hist_ok (t_from t1)) s0 ops -> (i < j)%nat ->
  ops !! i = Some (SDeliver t1) -> ops !! j = Some (SDeliver t2) ->
  delivered (srun s0 (take i ops)) t1 -> delivered (srun s0 (take j ops)) t2 ->
  t_from t2 = t_from t1 -> t_nonce t2 = t_nonce t1 -> False.
Proof. exact nonce_used_once. Qed.
Print Assumptions C04_holds.

Theorem C04_holds_native : forall s0 ops i j t1 t2,
  no_code (work s0) -> Forall (native_op (t_from t1)) ops -> (i < j)%nat ->
  ops !! i = Some (SDeliver t1) -> ops !! j = Some (SDeliver t2) ->
  delivered (srun s0 (take i ops)) t1 -> delivered (srun s0 (take j ops)) t2 ->
  t_from t2 = t_from t1 -> t_nonce t2 = t_nonce t1 -> False.
Proof. exact nonce_used_once_native. Qed.
Print Assumptions C04_holds_native.

(* ---- the EVM nonce contract replaced by the CHECKED boolean (EffectCheck.v).  The correspondence
   check evaluates [check_effects c] on every recorded history c; "it returned []" is
   [effects_hold senders state0 (c_ops c)] (check_effects_sound).  The operations after the
   InitChain, as a sop list: [InvEvmClosed.sops_of]; [no_init]: no further InitChain. *)
From Rigo Require AppRun EffectCheck InvEvmClosed.

(* the history theorem under the weaker per-step hypothesis [hist_ok']: the EVM nonce contract is
   demanded of the SUCCESSFUL EVM-path deliveries only (a failing delivery changes no nonce
   whatever effect record it carries) *)
Theorem C04_holds' : forall s0 ops i j t1 t2,
  run_ok (InvEvmClosed.hist_ok' (t_from t1)) s0 ops -> (i < j)%nat ->
  ops !! i = Some (SDeliver t1) -> ops !! j = Some (SDeliver t2) ->
  delivered (srun s0 (take i ops)) t1 -> delivered (srun s0 (take j ops)) t2 ->
  t_from t2 = t_from t1 -> t_nonce t2 = t_nonce t1 -> False.
Proof. exact InvEvmClosed.nonce_used_once'. Qed.
Print Assumptions C04_holds'.

(* in a history on which the check passed, for a sender the check watches, with no successful
   transaction of that sender carrying the last nonce 2^64 - 1 ([no_wrap], the second clause of
   [hist_ok]): the per-step hypothesis holds along the run ... *)
Theorem C04_checked_run_ok' : forall g rest senders a,
  InvEvmClosed.no_init rest ->
  EffectCheck.effects_hold senders AppRun.state0 (AppRun.AInit g :: rest) ->
  a ∈ senders ->
  run_ok (InvEvmClosed.no_wrap a) (init_chain g) (InvEvmClosed.sops_of rest) ->
  run_ok (InvEvmClosed.hist_ok' a) (init_chain g) (InvEvmClosed.sops_of rest).
Proof. exact InvEvmClosed.C04_checked_run_ok'. Qed.
Print Assumptions C04_checked_run_ok'.

(* ... hence no two deliveries with its address and the same nonce both succeed *)
Theorem C04_checked : forall g rest senders i j t1 t2,
  InvEvmClosed.no_init rest ->
  EffectCheck.effects_hold senders AppRun.state0 (AppRun.AInit g :: rest) ->
  t_from t1 ∈ senders ->
  run_ok (InvEvmClosed.no_wrap (t_from t1)) (init_chain g) (InvEvmClosed.sops_of rest) ->
  (i < j)%nat ->
  InvEvmClosed.sops_of rest !! i = Some (SDeliver t1) -> InvEvmClosed.sops_of rest !! j = Some (SDeliver t2) ->
  delivered (srun (init_chain g) (take i (InvEvmClosed.sops_of rest))) t1 ->
  delivered (srun (init_chain g) (take j (InvEvmClosed.sops_of rest))) t2 ->
  t_from t2 = t_from t1 -> t_nonce t2 = t_nonce t1 -> False.
Proof. exact InvEvmClosed.C04_checked. Qed.
Print Assumptions C04_checked.

(* the same from the verdict on a recorded case: the check watches every sender of the case *)
Theorem C04_checked_case : forall c g rest i j t1 t2,
  AppRun.c_ops c = AppRun.AInit g :: rest -> InvEvmClosed.no_init rest ->
  EffectCheck.check_effects c = [] ->
  run_ok (InvEvmClosed.no_wrap (t_from t1)) (init_chain g) (InvEvmClosed.sops_of rest) ->
  (i < j)%nat ->
  InvEvmClosed.sops_of rest !! i = Some (SDeliver t1) -> InvEvmClosed.sops_of rest !! j = Some (SDeliver t2) ->
  delivered (srun (init_chain g) (take i (InvEvmClosed.sops_of rest))) t1 ->
  delivered (srun (init_chain g) (take j (InvEvmClosed.sops_of rest))) t2 ->
  t_from t2 = t_from t1 -> t_nonce t2 = t_nonce t1 -> False.
Proof. exact InvEvmClosed.C04_checked_case. Qed.
Print Assumptions C04_checked_case.

(* [hist_ok] itself (the hypothesis of C04_holds) does NOT follow from the check: it asks for the
   nonce contract of failing EVM-path deliveries too, which the check does not look at.  Witness: a
   contract transaction with a stale nonce whose effect record disagrees with its nonce *)
Theorem C04_checked_hist_ok_refuted : exists g rest senders t1,
  InvEvmClosed.no_init rest /\
  EffectCheck.effects_hold senders AppRun.state0 (AppRun.AInit g :: rest) /\
  t_from t1 ∈ senders /\
  run_ok (InvEvmClosed.no_wrap (t_from t1)) (init_chain g) (InvEvmClosed.sops_of rest) /\
  ~ run_ok (hist_ok (t_from t1)) (init_chain g) (InvEvmClosed.sops_of rest).
Proof. exact InvEvmClosed.C04_checked_hist_ok_refuted. Qed.
Print Assumptions C04_checked_hist_ok_refuted.
