(* C13 — Rewards: only for signed blocks, proportional to stake; withdrawals exact.
   Statements about Spec.v, closed by lemmas of InvReward.v and InvClosed.v. *)
From Rigo Require Import Base.
From stdpp Require Import gmap sorting.
From Rigo Require Import Spec SpecProps InvFail InvReward.
Local Open Scope Z_scope.

(* Issuance of one block.  [old] is the delegatee ledger of the version consensus derived the voting
   powers from (max(1, height-4)); [rewarded_stakes old votes] are the stakes of the validators that
   signed and are recorded there with the power they voted with.  Every owner of such a stake gets
   power * rewardPerPower per stake added to its record; every other record is untouched; the
   block's issued total is the sum. *)
Theorem C13_issuance : forall s hd s' issued old,
  begin_block s hd = (s', Ok issued) ->
  ledgers_at s (hgt_of_power (h_height hd)) = Some old ->
  let g := gparams s in let h := h_height hd in
  let sts := rewarded_stakes old (h_votes hd) in
  issued = total_issue g sts mod two256 /\
  forall a, rewards (work s') !! a =
         if has_stake a sts
         then Some (issued_record (default reward0 (rewards (work s) !! a)) (issue_to g sts a) h)
         else rewards (work s) !! a.
Proof. exact begin_block_rewards. Qed.
Print Assumptions C13_issuance.

(* the same without modular arithmetic, for powers and reward-per-power in range *)
Theorem C13_issuance_exact : forall s hd s' issued old a,
  begin_block s hd = (s', Ok issued) ->
  ledgers_at s (hgt_of_power (h_height hd)) = Some old ->
  0 <= g_rewardPerPower (gparams s) < 2 ^ 192 ->
  (forall st, st ∈ bonded_stakes old -> 0 <= s_power st < two63) ->
  let r := default reward0 (rewards (work s) !! a) in
  let sts := rewarded_stakes old (h_votes hd) in
  let E := sumZ_with (fun st => s_power st * g_rewardPerPower (gparams s)) (List.filter (fun st => (s_from st =? a)%N) sts) in
  0 <= r_cumulated r -> r_cumulated r + E < two256 -> has_stake a sts = true ->
  exists r', rewards (work s') !! a = Some r' /\ r_cumulated r' = r_cumulated r + E /\ r_height r' = h_height hd /\
        r_issued r' = (if r_height r <? h_height hd then E else r_issued r + E) mod two256 /\
        r_withdrawn r' = r_withdrawn r /\ r_slashed r' = r_slashed r.
Proof. exact begin_block_rewards_exact. Qed.
Print Assumptions C13_issuance_exact.

(* a withdrawal succeeds only up to the withdrawable amount ... *)
Theorem C13_withdraw_bounded : forall s t s' g,
  deliver s t = (s', Ok g) -> t_type t = TRX_WITHDRAW ->
  exists req r, t_payload t = PWithdraw req /\ rewards (work s) !! t_from t = Some r /\
           req <= r_cumulated r /\ t_amount t = 0.
Proof. exact withdraw_only_up_to. Qed.
Print Assumptions C13_withdraw_bounded.

(* ... and credits the balance by exactly the requested amount (minus the fee), reducing the
   withdrawable amount by exactly that; nothing else changes *)
Theorem C13_withdraw_exact : forall s t s' g,
  deliver s t = (s', Ok g) -> t_type t = TRX_WITHDRAW -> payload_wf t -> ranges_ok (work s) ->
  exists req r r',
    t_payload t = PWithdraw req /\
    rewards (work s) !! t_from t = Some r /\ 0 <= req <= r_cumulated r /\
    rewards (work s') !! t_from t = Some r' /\
    r_cumulated r' = r_cumulated r - req /\
    r_withdrawn r' = (if r_height r <? b_height (bctx s) then req else add256 (r_withdrawn r) req) /\
    r_issued r' = r_issued r /\ r_slashed r' = r_slashed r /\ r_height r' = b_height (bctx s) /\
    (forall b, b <> t_from t -> rewards (work s') !! b = rewards (work s) !! b) /\
    bal_of (work s') (t_from t) = sub256 (add256 (bal_of (work s) (t_from t)) req) (fee_of t) /\
    (bal_of (work s) (t_from t) + req < two256 ->
       bal_of (work s') (t_from t) = bal_of (work s) (t_from t) + req - fee_of t) /\
    (forall b, b <> t_from t -> acct_of (work s') b = acct_of (work s) b) /\
    dels (work s') = dels (work s) /\ frozen (work s') = frozen (work s) /\ props (work s') = props (work s) /\
    fprops (work s') = fprops (work s) /\ lparams (work s') = lparams (work s).
Proof. exact withdraw_ok. Qed.
Print Assumptions C13_withdraw_exact.

(* nothing but issuance and successful withdrawals touches the reward ledger *)
Theorem C13_other_tx : forall s t, t_type t <> TRX_WITHDRAW -> rewards (work (deliver s t).1) = rewards (work s).
Proof. exact deliver_rewards_other. Qed.
Theorem C13_end_block : forall s, rewards (work (end_block s).1) = rewards (work s).
Proof. exact end_block_rewards. Qed.
Theorem C13_commit : forall s, rewards (work (commit s)) = rewards (work s).
Proof. exact commit_rewards. Qed.
Print Assumptions C13_other_tx.
Print Assumptions C13_end_block.

(* over every run from a genesis: withdrawable = everything issued minus everything withdrawn *)
Theorem C13_holds : forall g ops a,
  run_wf (init_chain g) ops -> issued_to (init_chain g) ops a < two256 ->
  cum_of (srun (init_chain g) ops) a = issued_to (init_chain g) ops a - withdrawn_by (init_chain g) ops a /\
  0 <= withdrawn_by (init_chain g) ops a <= issued_to (init_chain g) ops a.
Proof. exact reward_identity_genesis. Qed.
Print Assumptions C13_holds.

(* the history theorem with [run_wf] discharged from the inputs (hypotheses of C09_holds_inputs:
   well-formed genesis document, well-bracketed list, staking transactions with pairwise distinct
   non-zero hashes, transactions in the Go ranges, genesis supply + requested withdrawals below
   2^63 RIGO).  What remains is the no-wrap condition of the statement itself. *)
From Rigo Require InvStake InvSupply InvPanic InvReach InvClosed.
Theorem C13_holds_closed : forall g ops a,
  (params_ok (gen_params g) /\ (length (gen_validators g) <= 1)%nat /\
   Forall (fun v : addr * Z => 0 <= v.2 < two63) (gen_validators g) /\
   Forall (fun h : addr * Z => 0 <= h.2 < two256) (gen_holders g)) ->
  InvPanic.bracketed InvPanic.Idle 0 ops ->
  NoDup (0%N :: InvReach.stake_hashes ops) ->
  InvSupply.txs_ok ops ->
  supply (work (init_chain g)) + InvReach.requested ops < InvSupply.supply_bound ->
  issued_to (init_chain g) ops a < two256 ->
  cum_of (srun (init_chain g) ops) a = issued_to (init_chain g) ops a - withdrawn_by (init_chain g) ops a /\
  0 <= withdrawn_by (init_chain g) ops a <= issued_to (init_chain g) ops a.
Proof. exact InvClosed.C13_closed. Qed.
Print Assumptions C13_holds_closed.

(* with no hypothesis beyond the inputs: the identity modulo 2^256 *)
Theorem C13_holds_closed_mod : forall g ops a,
  (params_ok (gen_params g) /\ (length (gen_validators g) <= 1)%nat /\
   Forall (fun v : addr * Z => 0 <= v.2 < two63) (gen_validators g) /\
   Forall (fun h : addr * Z => 0 <= h.2 < two256) (gen_holders g)) ->
  InvPanic.bracketed InvPanic.Idle 0 ops ->
  NoDup (0%N :: InvReach.stake_hashes ops) ->
  InvSupply.txs_ok ops ->
  supply (work (init_chain g)) + InvReach.requested ops < InvSupply.supply_bound ->
  cum_of (srun (init_chain g) ops) a
    = (issued_to (init_chain g) ops a - withdrawn_by (init_chain g) ops a) mod two256.
Proof. exact InvClosed.C13_closed_mod. Qed.
Print Assumptions C13_holds_closed_mod.

(* [run_wf] itself, from the inputs *)
Theorem C13_run_wf_reachable : forall g ops,
  (params_ok (gen_params g) /\ (length (gen_validators g) <= 1)%nat /\
   Forall (fun v : addr * Z => 0 <= v.2 < two63) (gen_validators g) /\
   Forall (fun h : addr * Z => 0 <= h.2 < two256) (gen_holders g)) ->
  InvPanic.bracketed InvPanic.Idle 0 ops ->
  NoDup (0%N :: InvReach.stake_hashes ops) ->
  InvSupply.txs_ok ops ->
  supply (work (init_chain g)) + InvReach.requested ops < InvSupply.supply_bound ->
  run_wf (init_chain g) ops.
Proof. exact InvClosed.run_wf_reachable. Qed.
Print Assumptions C13_run_wf_reachable.
