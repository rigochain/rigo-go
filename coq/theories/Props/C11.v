(* C11 — Stake bookkeeping: a validator's power is the sum of the stakes bonded to it.
   Statements about Spec.v, closed by lemmas of InvStake.v and InvClosed.v. *)
From Rigo Require Import Base.
From stdpp Require Import gmap sorting.
From Rigo Require Import Spec SpecProps InvStake.
Local Open Scope Z_scope.

(* over EVERY sequence of operations from a genesis, in the working state and in every committed
   version: each delegatee's total power is the sum of its stakes' powers, its self power the sum of
   its owner's own stakes, and every stake recorded under it is bonded to it *)
Theorem C11_holds : forall g ops,
  dels_ok (work (srun (init_chain g) ops)) /\ Forall dels_ok (committed (srun (init_chain g) ops)).
Proof. exact dels_ok_reachable. Qed.
Print Assumptions C11_holds.

(* the total-power query equals the sum over all bonded stakes *)
Theorem C11_total_power_query : forall l, dels_ok l ->
  sumZ_with (fun kv : addr * delegatee => d_total kv.2) (map_to_list (dels l)) = bonded_power l.
Proof. exact total_power_query. Qed.
Print Assumptions C11_total_power_query.

(* "recorded in exactly one place": every stake hash occurs once among bonded and unbonding stakes,
   as long as staking transactions carry fresh hashes — and the genesis has at most one validator,
   because ALL genesis stakes carry hash 0 *)
Theorem C11_hashes_unique : forall g ops,
  (length (gen_validators g) <= 1)%nat -> fresh_run (init_chain g) ops ->
  hashes_unique (work (srun (init_chain g) ops)).
Proof. exact hashes_unique_reachable. Qed.
Print Assumptions C11_hashes_unique.

(* under unique hashes a bonded stake is never lost by a transaction: it stays bonded or is recorded as
   unbonding under its own hash, unchanged but for the refund height *)
Theorem C11_never_lost : forall s t st,
  hashes_unique (work s) -> dels_ok (work s) -> (forall x, x ∈ bonded_stakes (work s) -> 0 <= s_power x) ->
  st ∈ bonded_stakes (work s) ->
  st ∈ bonded_stakes (work (deliver s t).1) \/
  frozen (work (deliver s t).1) !! s_hash st
    = Some (with_refund (b_height (bctx s) + g_lazyRewardBlocks (gparams s)) st).
Proof. exact deliver_never_loses. Qed.
Print Assumptions C11_never_lost.

(* owner, target, hash, start height and power of a stake do not change except by slashing *)
Theorem C11_identity_preserved : forall s o st,
  hashes_unique (work s) ->
  match o with SBegin hd => h_evidence hd = [] | SDeliver t => fresh_tx s t | _ => True end ->
  st ∈ bonded_stakes (work s) ->
  (forall st', st' ∈ bonded_stakes (work (sstep s o)) -> s_hash st' = s_hash st -> st' = st) /\
  (forall st', st' ∈ frozen_stakes (work (sstep s o)) -> s_hash st' = s_hash st -> st' = with_refund (s_refund st') st).
Proof. exact stake_unchanged_step. Qed.
Print Assumptions C11_identity_preserved.

(* with two genesis validators the unique-placement part is FALSE (known finding): both unstake their
   genesis stake (hash 0) in one block, every call succeeds, and one stake is afterwards in neither
   place and is never refunded *)
Theorem C11_collision_refuted : exists g ops1 ops2,
  let s0 := init_chain g in let s1 := srun s0 ops1 in let s2 := srun s1 ops2 in
  length (gen_validators g) = 2%nat /\
  all_ok s0 (ops1 ++ ops2) = true /\
  ~ hashes_unique (work s0) /\
  bonded_power (work s0) + frozen_power (work s0) = 20 /\
  bonded_power (work s1) + frozen_power (work s1) = 10 /\
  total_balance (work s1) = total_balance (work s0) /\
  bal_of (work s1) 1%N = 1000 + 10 /\ bal_of (work s1) 2%N = 1000 - 10 /\
  bonded_stakes (work s1) = [] /\
  frozen_stakes (work s1) = [with_refund 3 (genesis_stake (2%N, 10))] /\
  supply (work s1) = supply (work s0) - 10 * amountPerPower /\
  bonded_power (work s2) + frozen_power (work s2) = 0 /\
  bal_of (work s2) 1%N = 1000 + 10 /\
  bal_of (work s2) 2%N = 1000 - 10 + 10 * amountPerPower /\
  supply (work s2) = supply (work s0) - 10 * amountPerPower.
Proof. exact InvStake.C11_collision_refuted. Qed.
Print Assumptions C11_collision_refuted.

(* the same with the hypotheses on the inputs: [fresh_run] follows from the staking transactions of
   the list carrying pairwise distinct non-zero hashes *)
From Rigo Require InvSupply InvReach InvClosed.
Theorem C11_hashes_unique_inputs : forall g ops,
  (length (gen_validators g) <= 1)%nat -> NoDup (0%N :: InvReach.stake_hashes ops) ->
  hashes_unique (work (srun (init_chain g) ops)).
Proof. exact InvClosed.C11_hashes_unique_inputs. Qed.
Print Assumptions C11_hashes_unique_inputs.

(* C11_never_lost in every state reached from a well-formed genesis document by such a list whose
   parameter documents keep parameters well formed *)
Theorem C11_never_lost_inputs : forall g ops t st,
  (params_ok (gen_params g) /\ (length (gen_validators g) <= 1)%nat /\
   Forall (fun v : addr * Z => 0 <= v.2 < two63) (gen_validators g) /\
   Forall (fun h : addr * Z => 0 <= h.2 < two256) (gen_holders g)) ->
  NoDup (0%N :: InvReach.stake_hashes ops) -> InvReach.opts_ok ops ->
  let s := srun (init_chain g) ops in
  st ∈ bonded_stakes (work s) ->
  st ∈ bonded_stakes (work (deliver s t).1) \/
  frozen (work (deliver s t).1) !! s_hash st
    = Some (with_refund (b_height (bctx s) + g_lazyRewardBlocks (gparams s)) st).
Proof. exact InvClosed.C11_never_lost_inputs. Qed.
Print Assumptions C11_never_lost_inputs.

(* C11_identity_preserved for the next operation of such a list *)
Theorem C11_identity_preserved_inputs : forall g ops o st,
  (length (gen_validators g) <= 1)%nat -> NoDup (0%N :: InvReach.stake_hashes (ops ++ [o])) ->
  match o with SBegin hd => h_evidence hd = [] | _ => True end ->
  let s := srun (init_chain g) ops in
  st ∈ bonded_stakes (work s) ->
  (forall st', st' ∈ bonded_stakes (work (sstep s o)) -> s_hash st' = s_hash st -> st' = st) /\
  (forall st', st' ∈ frozen_stakes (work (sstep s o)) -> s_hash st' = s_hash st -> st' = with_refund (s_refund st') st).
Proof. exact InvClosed.C11_identity_preserved_inputs. Qed.
Print Assumptions C11_identity_preserved_inputs.
