(* InvSlash.v — property C14: slashing for misbehaviour evidence (stake ledger and open
   proposals) and jailing of validators that miss too many blocks. *)
From Rigo Require Import Base.
From stdpp Require Import gmap sorting.
From Rigo Require Import Spec SpecProps SpecFacts InvFail InvStake.
From Rigo Require Import InvReward.   (* the vote loop and the reward side of begin_block (C13) *)
Local Open Scope Z_scope.

Local Opaque two256 two255 two64 two63.
Arguments Z.pow : simpl never.

(* ================================================================== projections *)
Lemma set_dels_id l : set_dels l (dels l) = l.       Proof. destruct l; reflexivity. Qed.
Lemma set_props_id l : set_props l (props l) = l.    Proof. destruct l; reflexivity. Qed.
Lemma set_dels_set_dels l m m' : set_dels (set_dels l m) m' = set_dels l m'. Proof. reflexivity. Qed.
Lemma set_props_set_props l m m' : set_props (set_props l m) m' = set_props l m'. Proof. reflexivity. Qed.

(* ================================================================== L1: slash_all *)
(* what one stake loses: floor(power * ratio / 100) *)
Definition cut (ratio : Z) (s : stake) : Z := s_power s * ratio / 100.
(* a stake survives iff it loses at least 1 *)
Definition survives (ratio : Z) (s : stake) : bool := 1 <=? cut ratio s.
Definition slashed_stake (ratio : Z) (s : stake) : stake := with_power (s_power s - cut ratio s) s.
Definition slash_kept (ratio : Z) (l : list stake) : list stake :=
  map (slashed_stake ratio) (List.filter (survives ratio) l).

Lemma slashed_stake_fields ratio s :
  s_from (slashed_stake ratio s) = s_from s ∧ s_to (slashed_stake ratio s) = s_to s ∧
  s_hash (slashed_stake ratio s) = s_hash s ∧ s_start (slashed_stake ratio s) = s_start s ∧
  s_refund (slashed_stake ratio s) = s_refund s ∧ s_power (slashed_stake ratio s) = s_power s - cut ratio s.
Proof. repeat split. Qed.

Lemma percent_range x ratio : 0 ≤ ratio ≤ 100 → 0 ≤ x → 0 ≤ x * ratio / 100 ≤ x.
Proof.
  intros Hr Hx. split.
  - apply Z.div_pos; nia.
  - apply Z.div_le_upper_bound; nia.
Qed.

Lemma cut_range ratio s : 0 ≤ ratio ≤ 100 → 0 ≤ s_power s → 0 ≤ cut ratio s ≤ s_power s.
Proof. apply percent_range. Qed.

Lemma filter_all_true {A} (f : A → bool) l : (∀ x, In x l → f x = true) → List.filter f l = l.
Proof.
  induction l as [|x l IH]; simpl; intros H; [reflexivity|].
  rewrite H by auto. f_equal. apply IH; auto.
Qed.

Lemma remove_stake_filter h l :
  NoDup (map s_hash l) → remove_stake h l = List.filter (λ s, negb (s_hash s =? h)%N) l.
Proof.
  induction l as [|s l IH]; simpl; intros Hnd; [reflexivity|].
  apply NoDup_cons in Hnd as [Hni Hnd].
  destruct (s_hash s =? h)%N eqn:E; simpl.
  - apply N.eqb_eq in E. symmetry. apply filter_all_true. intros x Hx.
    apply negb_true_iff, N.eqb_neq. intros Heq. apply Hni.
    apply elem_of_list_In, in_map_iff. exists x. split; [congruence|assumption].
  - f_equal. apply IH, Hnd.
Qed.

Lemma sublist_List_filter {A} (f : A → bool) l : sublist (List.filter f l) l.
Proof. induction l as [|x l IH]; simpl; [constructor|]. destruct (f x); [apply sublist_skip|apply sublist_cons]; assumption. Qed.

Lemma NoDup_map_filter {A B} (g : A → B) (f : A → bool) l : NoDup (map g l) → NoDup (map g (List.filter f l)).
Proof. apply sublist_NoDup', (fmap_sublist g), sublist_List_filter. Qed.

Lemma remove_all_filter rem l :
  NoDup (map s_hash l) →
  foldl (λ l s, remove_stake (s_hash s) l) l rem
  = List.filter (λ s, negb (existsb (λ r, (s_hash s =? s_hash r)%N) rem)) l.
Proof.
  revert l. induction rem as [|r rem IH]; simpl; intros l Hnd.
  - symmetry. apply filter_all_true. reflexivity.
  - rewrite remove_stake_filter by assumption.
    rewrite IH by (apply NoDup_map_filter; assumption).
    clear. induction l as [|s l IHl]; simpl; [reflexivity|].
    destruct (s_hash s =? s_hash r)%N; simpl; [assumption|].
    destruct (existsb _ rem); simpl; [assumption|]. f_equal. assumption.
Qed.

Lemma hash_inj l s1 s2 : NoDup (map s_hash l) → In s1 l → In s2 l → s_hash s1 = s_hash s2 → s1 = s2.
Proof. intros Hnd H1 H2. apply (NoDup_fmap_inj s_hash l s1 s2 Hnd); apply elem_of_list_In; assumption. Qed.

(* the model's own (truncating) quotient, with no assumption on signs *)
Definition cutq (ratio : Z) (s : stake) : Z := (s_power s * ratio) `quot` 100.

Lemma slash_all_quot d ratio :
  NoDup (map s_hash (d_stakes d)) →
  let big := λ s, negb (cutq ratio s <? 1) in
  let kept := map (λ s, with_power (s_power s - cutq ratio s) s) (List.filter big (d_stakes d)) in
  slash_all d ratio =
    ({| d_addr := d_addr d; d_self := sum_power_of (d_addr d) kept; d_total := sum_power kept;
        d_stakes := kept; d_marks := d_marks d |},
     sum_power (List.filter big (d_stakes d)) - sum_power kept).
Proof.
  intros Hnd big kept. unfold slash_all. fold (cutq ratio).
  set (small := λ s : stake, cutq ratio s <? 1).
  set (g := λ s : stake, if small s then s else with_power (s_power s - cutq ratio s) s).
  assert (Hkept : foldl (λ l s, remove_stake (s_hash s) l) (map g (d_stakes d)) (List.filter small (d_stakes d)) = kept).
  { assert (Hg : ∀ s, s_hash (g s) = s_hash s) by (intros s; unfold g; destruct (small s); reflexivity).
    rewrite remove_all_filter.
    2:{ rewrite map_map. erewrite map_ext; [exact Hnd|]. exact Hg. }
    subst kept.
    assert (Hsub : ∀ l, (∀ s, In s l → In s (d_stakes d)) →
      List.filter (λ s, negb (existsb (λ r, (s_hash s =? s_hash r)%N) (List.filter small (d_stakes d)))) (map g l)
      = map (λ s, with_power (s_power s - cutq ratio s) s) (List.filter big l)).
    { induction l as [|s l IH]; simpl; intros Hin; [reflexivity|].
      rewrite Hg.
      assert (Hex : existsb (λ r, (s_hash s =? s_hash r)%N) (List.filter small (d_stakes d)) = small s).
      { destruct (small s) eqn:Es.
        - apply existsb_exists. exists s. split; [|apply N.eqb_refl].
          apply filter_In. split; [apply Hin; left; reflexivity|assumption].
        - apply not_true_is_false. intros Hex. apply existsb_exists in Hex as (r & Hr & Hh).
          apply filter_In in Hr as [Hr Hsm]. apply N.eqb_eq in Hh.
          assert (s = r) by (eapply hash_inj; eauto; apply Hin; left; reflexivity).
          subst r. congruence. }
      rewrite Hex. change (big s) with (negb (small s)). unfold g at 1.
      destruct (small s); simpl; [|f_equal]; apply IH; intros; apply Hin; right; assumption. }
    apply Hsub. auto. }
  subst g small. unfold cutq in Hkept. cbv beta in Hkept. rewrite Hkept. reflexivity.
Qed.

Lemma cutq_cut ratio s : 0 ≤ ratio → 0 ≤ s_power s → cutq ratio s = cut ratio s.
Proof. intros. unfold cutq, cut. apply Z.quot_div_nonneg; nia. Qed.

Lemma sum_power_slash_kept ratio l :
  sum_power (slash_kept ratio l) = sum_power (List.filter (survives ratio) l) - sumZ_with (cut ratio) (List.filter (survives ratio) l).
Proof.
  unfold slash_kept. generalize (List.filter (survives ratio) l). intros k.
  induction k as [|s k IH]; [reflexivity|].
  change (s_power s - cut ratio s + sum_power (map (slashed_stake ratio) k)
          = s_power s + sum_power k - (cut ratio s + sumZ_with (cut ratio) k)).
  rewrite IH. lia.
Qed.

(* L1.  [slash_all] on a delegatee whose stake hashes are pairwise distinct. *)
Theorem slash_all_spec d ratio :
  0 ≤ ratio →
  Forall (λ s, 0 ≤ s_power s) (d_stakes d) →
  NoDup (s_hash <$> d_stakes d) →
  slash_all d ratio =
    ({| d_addr := d_addr d;
        d_self := sum_power_of (d_addr d) (slash_kept ratio (d_stakes d));
        d_total := sum_power (slash_kept ratio (d_stakes d));
        d_stakes := slash_kept ratio (d_stakes d);
        d_marks := d_marks d |},
     sumZ_with (cut ratio) (List.filter (survives ratio) (d_stakes d))).
Proof.
  intros Hr Hpw Hnd. rewrite slash_all_quot by exact Hnd. cbv zeta.
  assert (Hf : List.filter (λ s, negb (cutq ratio s <? 1)) (d_stakes d) = List.filter (survives ratio) (d_stakes d)).
  { apply filter_ext_in. intros s Hs. rewrite Forall_forall in Hpw.
    rewrite cutq_cut by (auto; apply Hpw, elem_of_list_In, Hs). unfold survives. lia. }
  rewrite Hf.
  assert (Hm : map (λ s, with_power (s_power s - cutq ratio s) s) (List.filter (survives ratio) (d_stakes d))
               = slash_kept ratio (d_stakes d)).
  { unfold slash_kept. apply map_ext_in. intros s Hs. apply filter_In in Hs as [Hs _].
    rewrite Forall_forall in Hpw. unfold slashed_stake.
    rewrite cutq_cut by (auto; apply Hpw, elem_of_list_In, Hs). reflexivity. }
  rewrite Hm. f_equal. rewrite sum_power_slash_kept. lia.
Qed.
Print Assumptions slash_all_spec.

(* ------------------------------------------------------------------ consequences of L1 *)
Lemma slash_kept_elem ratio l s' :
  In s' (slash_kept ratio l) ↔ ∃ s, In s l ∧ 1 ≤ cut ratio s ∧ s' = slashed_stake ratio s.
Proof.
  unfold slash_kept. rewrite in_map_iff. split.
  - intros (s & <- & Hs). apply filter_In in Hs as [Hs Hc]. exists s. unfold survives in Hc. split; [assumption|]. split; [lia|reflexivity].
  - intros (s & Hs & Hc & ->). exists s. split; [reflexivity|]. apply filter_In. unfold survives. split; [assumption|lia].
Qed.

Lemma slash_kept_forfeited ratio l s :
  NoDup (s_hash <$> l) → In s l → cut ratio s < 1 → ¬ In (s_hash s) (map s_hash (slash_kept ratio l)).
Proof.
  intros Hnd Hs Hc Hin. apply in_map_iff in Hin as (s' & Hh & Hs').
  apply slash_kept_elem in Hs' as (s0 & Hs0 & Hc0 & ->). simpl in Hh.
  assert (s0 = s) by (eapply hash_inj; eauto). subst s0. lia.
Qed.

Lemma slash_kept_hashes ratio l : map s_hash (slash_kept ratio l) = map s_hash (List.filter (survives ratio) l).
Proof. unfold slash_kept. rewrite map_map. reflexivity. Qed.

Lemma slash_kept_order ratio l : sublist (map s_hash (slash_kept ratio l)) (map s_hash l).
Proof. rewrite slash_kept_hashes. apply (fmap_sublist s_hash), sublist_List_filter. Qed.

Lemma slash_kept_NoDup ratio l : NoDup (s_hash <$> l) → NoDup (s_hash <$> slash_kept ratio l).
Proof. intros H. change (NoDup (map s_hash (slash_kept ratio l))). rewrite slash_kept_hashes. apply NoDup_map_filter, H. Qed.

Lemma slash_kept_powers ratio l (B : Z) :
  0 ≤ ratio ≤ 100 → Forall (λ s, 0 ≤ s_power s < B) l → Forall (λ s, 0 ≤ s_power s < B) (slash_kept ratio l).
Proof.
  intros Hr Hl. rewrite Forall_forall in *. intros s' Hs'. apply elem_of_list_In, slash_kept_elem in Hs' as (s & Hs & Hc & ->).
  apply elem_of_list_In, Hl in Hs. pose proof (cut_range ratio s Hr ltac:(lia)). simpl. lia.
Qed.

Lemma slash_kept_to ratio l a : Forall (λ s, s_to s = a) l → Forall (λ s, s_to s = a) (slash_kept ratio l).
Proof.
  intros Hl. rewrite Forall_forall in *. intros s' Hs'. apply elem_of_list_In, slash_kept_elem in Hs' as (s & Hs & Hc & ->).
  apply elem_of_list_In, Hl in Hs. exact Hs.
Qed.

(* the returned number is the total reduction of the kept stakes, and the new total power is
   the power of the surviving stakes minus that number *)
Corollary slash_all_total d ratio :
  0 ≤ ratio → Forall (λ s, 0 ≤ s_power s) (d_stakes d) → NoDup (s_hash <$> d_stakes d) →
  d_total (slash_all d ratio).1 = sum_power (List.filter (survives ratio) (d_stakes d)) - (slash_all d ratio).2.
Proof. intros Hr Hp Hnd. rewrite slash_all_spec by assumption. simpl. apply sum_power_slash_kept. Qed.

(* the delegatee's bookkeeping (C11) survives a slash *)
Corollary slash_all_delegatee_ok a d ratio :
  0 ≤ ratio → Forall (λ s, 0 ≤ s_power s) (d_stakes d) → NoDup (s_hash <$> d_stakes d) →
  delegatee_ok a d → delegatee_ok a (slash_all d ratio).1.
Proof.
  intros Hr Hp Hnd (Ha & _ & _ & Hto). rewrite slash_all_spec by assumption. simpl.
  unfold delegatee_ok; simpl. rewrite Ha. repeat split; auto. apply slash_kept_to, Hto.
Qed.

(* L1 with duplicate hashes inside one delegatee is false: removal is by hash and takes the
   first stake carrying it.  Here the large stake (power 1000, cut to 900) stands before a
   small one with the same hash; the small one is to be forfeited, but the large one is what
   gets removed and the small one stays, unslashed. *)
Definition dup_big : stake := {| s_from := 1%N; s_to := 1%N; s_hash := 7%N; s_start := 1; s_refund := 0; s_power := 1000 |}.
Definition dup_small : stake := {| s_from := 2%N; s_to := 1%N; s_hash := 7%N; s_start := 2; s_refund := 0; s_power := 1 |}.
Definition dup_d : delegatee := {| d_addr := 1%N; d_self := 1000; d_total := 1001; d_stakes := [dup_big; dup_small]; d_marks := [] |}.

Lemma slash_dup_hash_refuted :
  ∃ d ratio, 0 ≤ ratio ≤ 100 ∧ Forall (λ s, 0 ≤ s_power s) (d_stakes d) ∧
    d_stakes (slash_all d ratio).1 = [dup_small] ∧ slash_kept ratio (d_stakes d) = [with_power 900 dup_big].
Proof.
  exists dup_d, 10. split; [lia|]. split.
  - repeat constructor; simpl; lia.
  - split; vm_compute; reflexivity.
Qed.

Example slash_all_example :
  let d := {| d_addr := 1%N; d_self := 1000; d_total := 1009;
              d_stakes := [dup_big; {| s_from := 2%N; s_to := 1%N; s_hash := 8%N; s_start := 2; s_refund := 0; s_power := 9 |}];
              d_marks := [] |} in
  0 ≤ 10 ∧ Forall (λ s, 0 ≤ s_power s) (d_stakes d) ∧ NoDup (s_hash <$> d_stakes d) ∧
  slash_all d 10 = ({| d_addr := 1%N; d_self := 900; d_total := 900; d_stakes := [with_power 900 dup_big]; d_marks := [] |}, 100).
Proof.
  cbv zeta. split; [lia|]. split; [repeat constructor; simpl; lia|]. split.
  - simpl. apply NoDup_cons. split; [set_solver|]. apply NoDup_singleton.
  - vm_compute. reflexivity.
Qed.

(* ================================================================== L2: stake_punish *)
Definition slash1 (ratio : Z) (d : delegatee) : delegatee := (slash_all d ratio).1.

Definition punish_dels (ratio : Z) (m : gmap addr delegatee) (evi : list addr) : gmap addr delegatee :=
  foldl (λ m a, match m !! a with Some d => <[a := slash1 ratio d]> m | None => m end) m evi.

Lemma stake_punish_eq l ratio evi : stake_punish l ratio evi = set_dels l (punish_dels ratio (dels l) evi).
Proof.
  unfold stake_punish, punish_dels. revert l. induction evi as [|a evi IH]; intros l; simpl.
  - symmetry. apply set_dels_id.
  - rewrite IH. destruct (dels l !! a) as [d|]; reflexivity.
Qed.

Definition times (a : addr) (evi : list addr) : nat := length (List.filter (λ b, (b =? a)%N) evi).

Lemma punish_dels_lookup ratio m evi a :
  punish_dels ratio m evi !! a = Nat.iter (times a evi) (slash1 ratio) <$> m !! a.
Proof.
  unfold punish_dels. revert m. induction evi as [|b evi IH]; intros m; simpl.
  - destruct (m !! a); reflexivity.
  - rewrite IH. unfold times; simpl. destruct (b =? a)%N eqn:E.
    + apply N.eqb_eq in E. subst b. simpl length.
      destruct (m !! a) as [d|] eqn:Em; [rewrite lookup_insert|rewrite Em]; [|reflexivity].
      simpl. rewrite <- Nat.iter_succ_r. reflexivity.
    + apply N.eqb_neq in E. destruct (m !! b) as [d|]; [rewrite lookup_insert_ne by assumption|]; reflexivity.
Qed.

(* L2.  Evidence is applied once per item: a delegatee named n times is slashed n times, all
   other delegatees and all other ledgers are untouched. *)
Theorem stake_punish_spec l ratio evi :
  (∀ a, dels (stake_punish l ratio evi) !! a = Nat.iter (times a evi) (slash1 ratio) <$> dels l !! a) ∧
  (∀ a, a ∉ evi → dels (stake_punish l ratio evi) !! a = dels l !! a) ∧
  accts (stake_punish l ratio evi) = accts l ∧ frozen (stake_punish l ratio evi) = frozen l ∧
  rewards (stake_punish l ratio evi) = rewards l ∧ props (stake_punish l ratio evi) = props l ∧
  fprops (stake_punish l ratio evi) = fprops l ∧ lparams (stake_punish l ratio evi) = lparams l.
Proof.
  rewrite stake_punish_eq. simpl. split; [|split]; [| |repeat split].
  - intros a. apply punish_dels_lookup.
  - intros a Ha. rewrite punish_dels_lookup.
    assert (Ht : times a evi = 0%nat).
    { unfold times. induction evi as [|b evi IH]; simpl; [reflexivity|].
      destruct (b =? a)%N eqn:E.
      - apply N.eqb_eq in E. subst. exfalso. apply Ha. left.
      - apply IH. intros Hin. apply Ha. right. assumption. }
    rewrite Ht. simpl. destruct (dels l !! a); reflexivity.
Qed.
Print Assumptions stake_punish_spec.

(* one evidence item against a bonded validator, spelled out with L1 *)
Corollary stake_punish_one l ratio a d :
  0 ≤ ratio → dels l !! a = Some d → Forall (λ s, 0 ≤ s_power s) (d_stakes d) → NoDup (s_hash <$> d_stakes d) →
  dels (stake_punish l ratio [a]) !! a =
    Some {| d_addr := d_addr d; d_self := sum_power_of (d_addr d) (slash_kept ratio (d_stakes d));
            d_total := sum_power (slash_kept ratio (d_stakes d)); d_stakes := slash_kept ratio (d_stakes d);
            d_marks := d_marks d |}.
Proof.
  intros Hr Hd Hp Hnd. destruct (stake_punish_spec l ratio [a]) as (H & _). rewrite H, Hd.
  unfold times; simpl. rewrite N.eqb_refl. simpl. unfold slash1. rewrite slash_all_spec by assumption. reflexivity.
Qed.

(* ================================================================== L3: gov_punish *)
(* the detour through uint64 / uint256 in GovProposal.DoPunish is the identity on int64 powers
   and percentages *)
Lemma punish_arith pw ratio :
  0 ≤ pw < two63 → 0 ≤ ratio ≤ 100 →
  wrap64 ((((pw mod two64) * (ratio mod two64)) mod two256 / 100) mod two64) = pw * ratio / 100.
Proof.
  intros Hp Hr.
  assert (H63 : two63 = 9223372036854775808) by reflexivity.
  assert (H64 : two64 = 18446744073709551616) by reflexivity.
  assert (H256 : two64 * two64 ≤ two256) by (vm_compute; discriminate).
  rewrite (Z.mod_small pw) by lia. rewrite (Z.mod_small ratio) by lia.
  rewrite (Z.mod_small (pw * ratio)) by nia.
  pose proof (percent_range pw ratio Hr (proj1 Hp)) as Hq.
  rewrite Z.mod_small by lia. apply wrap64_small. unfold in64. lia.
Qed.

(* the proposal after its voter [a] (stored as [v]) has lost [sl] of its weight *)
Definition punished_prop (p : proposal) (a : addr) (v : voter) (sl : Z) : proposal :=
  {| p_hash := p_hash p; p_start := p_start p; p_end := p_end p; p_apply := p_apply p;
     p_total := p_total p - sl; p_majority := ((p_total p - sl) * 2) `quot` 3;
     p_voters := if v_power v - sl <=? 0 then delete a (p_voters p)
                 else <[a := {| v_power := v_power v - sl; v_choice := v_choice v |}]> (p_voters p);
     p_opttype := p_opttype p;
     p_options := if 0 <=? v_choice v
                  then alter (λ o, set_votes (o_votes o - sl) o) (Z.to_nat (v_choice v)) (p_options p)
                  else p_options p;
     p_major := p_major p |}.

Lemma prop_punish_absent p a ratio : p_voters p !! a = None → prop_punish p a ratio = (p, 0).
Proof. intros H. unfold prop_punish. rewrite H. reflexivity. Qed.

(* L3, one proposal: the voter's power shrinks by floor(power*ratio/100) (the voter is removed when
   nothing is left), the option it had chosen loses exactly that amount, the total shrinks by it
   and the majority threshold is recomputed; nothing else changes. *)
Theorem prop_punish_spec p a ratio v :
  p_voters p !! a = Some v → 0 ≤ v_power v < two63 → 0 ≤ ratio ≤ 100 →
  prop_punish p a ratio = (punished_prop p a v (v_power v * ratio / 100), v_power v * ratio / 100).
Proof.
  intros Hv Hp Hr. unfold prop_punish. rewrite Hv. unfold cancel_vote.
  set (sl := v_power v * ratio / 100).
  pose proof (percent_range (v_power v) ratio Hr (proj1 Hp)) as Hsl. fold sl in Hsl.
  unfold punished_prop. fold sl.
  destruct (0 <=? v_choice v) eqn:Ec; cbn [v_power v_choice]; rewrite punish_arith by assumption; fold sl.
  - destruct (v_power v - sl <=? 0) eqn:En.
    + f_equal. f_equal. apply list_alter_ext; [|reflexivity]. intros o _.
      assert (sl = v_power v) by lia. congruence.
    + unfold do_vote. rewrite Ec. cbn [v_power v_choice].
      f_equal. f_equal. rewrite <- list_alter_compose. apply list_alter_ext; [|reflexivity].
      intros o _. unfold compose, set_votes; simpl. f_equal. lia.
  - destruct (v_power v - sl <=? 0) eqn:En; reflexivity.
Qed.
Print Assumptions prop_punish_spec.

(* with a non-negative remaining total the threshold is floor(2*total/3) *)
Lemma majority_floor t : 0 ≤ t → (t * 2) `quot` 3 = t * 2 / 3.
Proof. intros. apply Z.quot_div_nonneg; lia. Qed.

Corollary prop_punish_voters p a ratio v b :
  p_voters p !! a = Some v → 0 ≤ v_power v < two63 → 0 ≤ ratio ≤ 100 → b ≠ a →
  p_voters (prop_punish p a ratio).1 !! b = p_voters p !! b.
Proof.
  intros Hv Hp Hr Hb. rewrite (prop_punish_spec p a ratio v) by assumption. simpl.
  destruct (_ <=? 0); [apply lookup_delete_ne|apply lookup_insert_ne]; congruence.
Qed.

Corollary prop_punish_voter p a ratio v :
  p_voters p !! a = Some v → 0 ≤ v_power v < two63 → 0 ≤ ratio ≤ 100 →
  let sl := v_power v * ratio / 100 in
  p_voters (prop_punish p a ratio).1 !! a =
    if v_power v - sl <=? 0 then None else Some {| v_power := v_power v - sl; v_choice := v_choice v |}.
Proof.
  intros Hv Hp Hr sl. rewrite (prop_punish_spec p a ratio v) by assumption. simpl. fold sl.
  destruct (_ <=? 0); [apply lookup_delete|apply lookup_insert].
Qed.

(* ------------------------------------------------------------------ the fold over proposals *)
Definition punish1 (ratio : Z) (a : addr) (p : proposal) : proposal := (prop_punish p a ratio).1.

Lemma fold_targets_ledgers (f : proposal → proposal) (L : list (hash * proposal)) l :
  foldl (λ l kp, match props l !! kp.1 with
                 | Some p => set_props l (<[kp.1 := f p]> (props l))
                 | None => l end) l L
  = set_props l (foldl (λ m (kp : hash * proposal), match m !! kp.1 with Some p => <[kp.1 := f p]> m | None => m end) (props l) L).
Proof.
  revert l. induction L as [|kp L IH]; intros l; simpl.
  - symmetry. apply set_props_id.
  - rewrite IH. destruct (props l !! kp.1); reflexivity.
Qed.

Lemma fold_targets_lookup (f : proposal → proposal) (L : list (hash * proposal)) (m : gmap hash proposal) k :
  NoDup L.*1 →
  foldl (λ m (kp : hash * proposal), match m !! kp.1 with Some p => <[kp.1 := f p]> m | None => m end) m L !! k
  = if decide (k ∈ L.*1) then f <$> m !! k else m !! k.
Proof.
  revert m. induction L as [|kp L IH]; intros m Hnd; simpl.
  - reflexivity.
  - apply NoDup_cons in Hnd as [Hni Hnd]. rewrite IH by assumption.
    destruct (decide (k = kp.1)) as [->|Hne].
    + rewrite decide_False by assumption. rewrite decide_True by left.
      destruct (m !! kp.1) as [p|] eqn:Em; [rewrite lookup_insert|rewrite Em]; reflexivity.
    + assert (Hm : match m !! kp.1 with Some p => <[kp.1 := f p]> m | None => m end !! k = m !! k).
      { destruct (m !! kp.1); [apply lookup_insert_ne; congruence|reflexivity]. }
      rewrite Hm. destruct (decide (k ∈ L.*1)) as [Hin|Hin].
      * rewrite decide_True by (right; assumption). reflexivity.
      * rewrite decide_False; [reflexivity|]. intros Hc. apply elem_of_cons in Hc as [?|?]; contradiction.
Qed.

(* one evidence item: every open proposal is passed through [prop_punish] (the identity on
   proposals where the address is no voter) *)
Lemma gov_punish_step l ratio a :
  let targets := List.filter (λ kp : hash * proposal, match p_voters kp.2 !! a with Some _ => true | None => false end) (sorted_items (props l)) in
  foldl (λ l kp, match props l !! kp.1 with
                 | Some p => set_props l (<[kp.1 := (prop_punish p a ratio).1]> (props l))
                 | None => l end) l targets
  = set_props l (punish1 ratio a <$> props l).
Proof.
  intros targets. rewrite (fold_targets_ledgers (punish1 ratio a)). f_equal.
  assert (Hperm : sorted_items (props l) ≡ₚ map_to_list (props l)) by apply merge_sort_Permutation.
  assert (Hsub : sublist targets (sorted_items (props l))) by apply sublist_List_filter.
  assert (Hnd : NoDup targets.*1).
  { apply (NoDup_map_filter fst). change (NoDup (sorted_items (props l)).*1).
    rewrite Hperm. apply NoDup_fst_map_to_list. }
  apply map_eq. intros k. rewrite fold_targets_lookup by assumption. rewrite lookup_fmap.
  destruct (decide (k ∈ targets.*1)) as [Hin|Hin]; [reflexivity|].
  destruct (props l !! k) as [p|] eqn:Ep; [|reflexivity]. simpl. f_equal.
  destruct (p_voters p !! a) as [v|] eqn:Ev.
  - exfalso. apply Hin. apply elem_of_list_fmap. exists (k, p). split; [reflexivity|].
    apply elem_of_list_In, filter_In. split.
    + apply elem_of_list_In. rewrite Hperm. apply elem_of_map_to_list. assumption.
    + simpl. rewrite Ev. reflexivity.
  - unfold punish1. rewrite prop_punish_absent by assumption. reflexivity.
Qed.

Definition punish_props (ratio : Z) (m : gmap hash proposal) (evi : list addr) : gmap hash proposal :=
  foldl (λ m a, punish1 ratio a <$> m) m evi.

Lemma gov_punish_eq l ratio evi : gov_punish l ratio evi = set_props l (punish_props ratio (props l) evi).
Proof.
  unfold gov_punish, punish_props. revert l. induction evi as [|a evi IH]; intros l; simpl.
  - symmetry. apply set_props_id.
  - rewrite gov_punish_step. rewrite IH. reflexivity.
Qed.

Lemma punish_props_lookup ratio m evi h :
  punish_props ratio m evi !! h = (λ p, foldl (λ p a, punish1 ratio a p) p evi) <$> m !! h.
Proof.
  unfold punish_props. revert m. induction evi as [|a evi IH]; intros m; simpl.
  - destruct (m !! h); reflexivity.
  - rewrite IH, lookup_fmap. destruct (m !! h); reflexivity.
Qed.

(* L3.  Every open proposal is punished once per evidence item, in order, independently of the
   other proposals; nothing outside [props] changes. *)
Theorem gov_punish_spec l ratio evi :
  (∀ h, props (gov_punish l ratio evi) !! h = (λ p, foldl (λ p a, punish1 ratio a p) p evi) <$> props l !! h) ∧
  accts (gov_punish l ratio evi) = accts l ∧ dels (gov_punish l ratio evi) = dels l ∧
  frozen (gov_punish l ratio evi) = frozen l ∧ rewards (gov_punish l ratio evi) = rewards l ∧
  fprops (gov_punish l ratio evi) = fprops l ∧ lparams (gov_punish l ratio evi) = lparams l.
Proof.
  rewrite gov_punish_eq. simpl. split; [|repeat split]. intros h. apply punish_props_lookup.
Qed.
Print Assumptions gov_punish_spec.

Corollary gov_punish_other l ratio evi h p :
  props l !! h = Some p → (∀ a, a ∈ evi → p_voters p !! a = None) →
  props (gov_punish l ratio evi) !! h = Some p.
Proof.
  intros Hp Hno. destruct (gov_punish_spec l ratio evi) as (H & _). rewrite H, Hp. simpl. f_equal. clear H.
  induction evi as [|a evi IH]; simpl; [reflexivity|].
  unfold punish1 at 2. rewrite prop_punish_absent by (apply Hno; left).
  apply IH. intros b Hb. apply Hno. right. assumption.
Qed.

(* voter powers stay in the int64 range, so the arithmetic lemma applies item after item *)
Definition voters_ok (p : proposal) : Prop := ∀ a v, p_voters p !! a = Some v → 0 ≤ v_power v < two63.

Lemma punish1_voters_ok ratio a p : 0 ≤ ratio ≤ 100 → voters_ok p → voters_ok (punish1 ratio a p).
Proof.
  intros Hr Hok. unfold punish1. destruct (p_voters p !! a) as [v|] eqn:Ev.
  - pose proof (Hok _ _ Ev) as Hv. intros b w Hw.
    destruct (decide (b = a)) as [->|Hne].
    + rewrite (prop_punish_voter p a ratio v) in Hw by assumption. cbv zeta in Hw.
      pose proof (percent_range (v_power v) ratio Hr (proj1 Hv)).
      destruct (_ <=? 0) eqn:E; [discriminate|]. injection Hw as <-. simpl. lia.
    + rewrite (prop_punish_voters p a ratio v) in Hw by assumption. eapply Hok, Hw.
  - rewrite prop_punish_absent by assumption. exact Hok.
Qed.

(* one evidence item, one proposal in which the validator votes: the full picture *)
Corollary gov_punish_one l ratio a h p v :
  props l !! h = Some p → p_voters p !! a = Some v → 0 ≤ v_power v < two63 → 0 ≤ ratio ≤ 100 →
  props (gov_punish l ratio [a]) !! h = Some (punished_prop p a v (v_power v * ratio / 100)).
Proof.
  intros Hp Hv Hpw Hr. destruct (gov_punish_spec l ratio [a]) as (H & _). rewrite H, Hp. simpl.
  unfold punish1. rewrite (prop_punish_spec p a ratio v) by assumption. reflexivity.
Qed.

(* ================================================================== L4: missed blocks and jailing *)
(* ------------------------------------------------------------------ the block marker *)
Notation incr := (StronglySorted Z.lt).

Lemma mark_eq m h :
  mark m h = if (match last m with Some l => h <=? l | None => false end) then m else m ++ [h].
Proof. unfold mark. destruct (last m) as [l|]; [destruct (h <=? l)|]; reflexivity. Qed.

Lemma incr_snoc m h : incr m → Forall (λ x, x < h) m → incr (m ++ [h]).
Proof.
  induction m as [|x m IH]; intros Hs Hl; simpl.
  - repeat constructor.
  - apply StronglySorted_inv in Hs as [Hs Hx]. apply Forall_cons in Hl as [Hxh Hl]. constructor.
    + apply IH; assumption.
    + apply Forall_app. split; [exact Hx|]. constructor; [exact Hxh|constructor].
Qed.

Lemma incr_le_last m l : incr m → last m = Some l → Forall (λ x, x ≤ l) m.
Proof.
  induction m as [|x m IH]; intros Hs Hl; [constructor|].
  apply StronglySorted_inv in Hs as [Hs Hx].
  destruct m as [|y m].
  - injection Hl as <-. constructor; [lia|constructor].
  - change (last (y :: m) = Some l) in Hl. specialize (IH Hs Hl).
    constructor; [|exact IH]. apply Forall_cons in Hx as [Hxy _]. apply Forall_cons in IH as [Hyl _]. lia.
Qed.

Lemma mark_incr m h : incr m → incr (mark m h).
Proof.
  intros Hs. rewrite mark_eq. destruct (last m) as [l|] eqn:El.
  - destruct (h <=? l) eqn:E; [exact Hs|]. apply incr_snoc; [exact Hs|].
    eapply Forall_impl; [apply incr_le_last; eassumption|]. intros x Hx. simpl in Hx. lia.
  - apply last_None in El. subst m. repeat constructor.
Qed.

Section window.
  Variables h0 h1 : Z.
  Definition in_window (x : Z) : bool := (h0 <=? x) && (x <=? h1).
  Definition before_window (x : Z) : bool := x <? h0.

  Lemma filter_none {A} (f : A → bool) l : (∀ x, In x l → f x = false) → List.filter f l = [].
  Proof. induction l as [|x l IH]; simpl; intros H; [reflexivity|]. rewrite H by auto. apply IH; auto. Qed.

  Lemma count_window_spec m : ∀ i cnt pre,
    incr m → h0 ≤ h1 →
    count_window m h0 h1 i cnt pre =
      (cnt + Z.of_nat (length (List.filter in_window m)),
       match length (List.filter before_window m) with O => pre | S k => Some (i + k)%nat end).
  Proof.
    induction m as [|h r IH]; intros i cnt pre Hs Hle; simpl.
    - rewrite Z.add_0_r. reflexivity.
    - apply StronglySorted_inv in Hs as [Hs Hh]. rewrite Forall_forall in Hh.
      fold (in_window h). fold (before_window h).
      destruct (h1 <=? h) eqn:E1.
      + (* the scan stops here; nothing after h is in or before the window *)
        assert (Hb : before_window h = false) by (unfold before_window; lia). rewrite Hb.
        rewrite (filter_none in_window r), (filter_none before_window r).
        * destruct (in_window h); simpl; f_equal; lia.
        * intros x Hx. apply elem_of_list_In, Hh in Hx. unfold before_window. lia.
        * intros x Hx. apply elem_of_list_In, Hh in Hx. unfold in_window. lia.
      + rewrite IH by assumption. f_equal.
        * destruct (in_window h); simpl length; lia.
        * destruct (before_window h) eqn:Eb.
          -- simpl length. destruct (length (List.filter before_window r)); f_equal; lia.
          -- rewrite (filter_none before_window r); [reflexivity|].
             intros x Hx. apply elem_of_list_In, Hh in Hx. unfold before_window in *. lia.
  Qed.

  (* the marks before the window form a prefix of an increasing list *)
  Lemma drop_before m : incr m → drop (length (List.filter before_window m)) m = List.filter (λ x, negb (before_window x)) m.
  Proof.
    induction m as [|h r IH]; intros Hs; simpl; [reflexivity|].
    apply StronglySorted_inv in Hs as [Hs Hh]. rewrite Forall_forall in Hh.
    destruct (before_window h) eqn:Eb; simpl; [apply IH, Hs|].
    rewrite (filter_none before_window r); simpl.
    - f_equal. symmetry. apply filter_all_true. intros x Hx. apply elem_of_list_In, Hh in Hx. unfold before_window in *. lia.
    - intros x Hx. apply elem_of_list_In, Hh in Hx. unfold before_window in *. lia.
  Qed.

  (* CountInWindow(h0, h1, rewind): on strictly increasing marks it returns the number of marks in
     [h0, h1], and afterwards the marks below h0 are gone — provided there were at least two of
     them (the code tests preIdx > 0, so a single mark below the window stays) *)
  Theorem count_in_window_spec m :
    incr m → h0 ≤ h1 →
    count_in_window m h0 h1 =
      (Z.of_nat (length (List.filter in_window m)),
       if (2 <=? length (List.filter before_window m))%nat
       then List.filter (λ x, negb (before_window x)) m else m).
  Proof.
    intros Hs Hle. unfold count_in_window. destruct (h1 <? h0) eqn:E; [lia|].
    rewrite count_window_spec by assumption. rewrite Z.add_0_l. f_equal.
    rewrite <- drop_before by assumption.
    destruct (length (List.filter before_window m)) as [|[|k]]; reflexivity.
  Qed.

  Lemma count_in_window_suffix m : ∃ k, (count_in_window m h0 h1).2 = drop k m.
  Proof.
    unfold count_in_window. destruct (h1 <? h0); [exists 0%nat; reflexivity|].
    destruct (count_window m h0 h1 0 0 None) as [c [[|i]|]]; simpl; eauto; exists 0%nat; reflexivity.
  Qed.
End window.

Lemma incr_drop k m : incr m → incr (drop k m).
Proof.
  revert m. induction k as [|k IH]; intros m Hs; [exact Hs|]. destruct m as [|x m]; [exact Hs|].
  apply StronglySorted_inv in Hs as [Hs _]. simpl. apply IH, Hs.
Qed.

Lemma count_in_window_incr m h0 h1 : incr m → incr (count_in_window m h0 h1).2.
Proof. intros Hs. destruct (count_in_window_suffix h0 h1 m) as [k ->]. apply incr_drop, Hs. Qed.

(* ------------------------------------------------------------------ freezing *)
Lemma freeze_all_lookup_other fr refund ss k :
  (∀ s, In s ss → s_hash s ≠ k) → freeze_all fr refund ss !! k = fr !! k.
Proof.
  unfold freeze_all. revert fr. induction ss as [|s ss IH]; intros fr H; simpl; [reflexivity|].
  rewrite IH by (intros; apply H; right; assumption).
  apply lookup_insert_ne. apply H. left. reflexivity.
Qed.

Lemma freeze_all_lookup fr refund ss s :
  NoDup (s_hash <$> ss) → In s ss → freeze_all fr refund ss !! s_hash s = Some (with_refund refund s).
Proof.
  unfold freeze_all. revert fr. induction ss as [|x ss IH]; intros fr Hnd Hin; simpl; [contradiction|].
  simpl in Hnd. apply NoDup_cons in Hnd as [Hni Hnd]. destruct Hin as [->|Hin].
  - fold (freeze_all (<[s_hash s := with_refund refund s]> fr) refund ss).
    rewrite freeze_all_lookup_other; [apply lookup_insert|].
    intros y Hy Heq. apply Hni. rewrite <- Heq. apply elem_of_list_In, in_map, Hy.
  - apply IH; assumption.
Qed.

(* ------------------------------------------------------------------ one missed block *)
Definition with_marks (d : delegatee) (m : list Z) : delegatee :=
  {| d_addr := d_addr d; d_self := d_self d; d_total := d_total d; d_stakes := d_stakes d; d_marks := m |}.

(* what the not-signed branch does to validator [a] at block height [h] *)
Definition jail_step (g : params) (h : Z) (l : ledgers) (a : addr) : ledgers :=
  match dels l !! a with
  | None => l
  | Some d =>
      let sh := h - 1 in
      let m1 := mark (d_marks d) sh in
      let s0 := if sh - g_signedBlocksWindow g <? 0 then 0 else sh - g_signedBlocksWindow g in
      let '(cnt, m2) := count_in_window m1 s0 sh in
      if g_signedBlocksWindow g - cnt <? g_minSignedBlocks g
      then set_frozen (set_dels l (delete a (dels l))) (freeze_all (frozen l) (h + g_lazyRewardBlocks g) (d_stakes d))
      else set_dels l (<[a := with_marks d m2]> (dels l))
  end.

(* the vote loop writes the marked delegatee before it deletes it (SpecFacts.jail_step is that literal form) *)
Lemma jail_step_literal g h l a : jail_step g h l a = SpecFacts.jail_step g h l a.
Proof.
  unfold jail_step, SpecFacts.jail_step. destruct (dels l !! a) as [d|]; [|reflexivity]. cbv zeta.
  destruct (count_in_window _ _ _) as [cnt m2]. destruct (_ <? g_minSignedBlocks g); [|reflexivity].
  cbn [dels set_dels set_frozen frozen d_stakes SpecFacts.with_marks]. rewrite delete_insert_delete. reflexivity.
Qed.

Lemma vote_step_unsigned g old h l i a pw :
  vote_step g old h (Ok (l, i)) (a, pw, false) = Ok (jail_step g h l a, i).
Proof. rewrite jail_step_literal. reflexivity. Qed.

Lemma vote_step_signed g old h l i a pw l' i' :
  vote_step g old h (Ok (l, i)) (a, pw, true) = Ok (l', i') → l' = set_rewards l (rewards l').
Proof.
  unfold vote_step. intros H. assert (Hid : l = set_rewards l (rewards l)) by (destruct l; reflexivity).
  destruct (dels old !! a) as [d|]; [|injection H as <- _; exact Hid].
  destruct (negb (d_total d =? pw)); [injection H as <- _; exact Hid|].
  destruct (reward_to _ _ _ _) as [[rw iss]| |]; try discriminate. injection H as <- _. reflexivity.
Qed.

(* L4, one vote.  For a validator that did not sign and is still bonded: the missed height h-1 is
   marked, the marks inside the signing window [max(0, h-1-window), h-1] are counted, and exactly
   when window - count < minSigned every stake bonded to it is moved to the unbonding ledger with
   refund height h + lazyRewardBlocks and the delegatee is deleted; otherwise only its marks
   change (marks below the window are dropped).  Nothing else in the ledgers changes. *)
Theorem jail_step_spec g h l a d :
  dels l !! a = Some d → incr (d_marks d) → 0 ≤ g_signedBlocksWindow g → 1 ≤ h →
  let sh := h - 1 in
  let m1 := mark (d_marks d) sh in
  let s0 := Z.max 0 (sh - g_signedBlocksWindow g) in
  let cnt := Z.of_nat (length (List.filter (in_window s0 sh) m1)) in
  let m2 := if (2 <=? length (List.filter (before_window s0) m1))%nat
            then List.filter (λ x, negb (before_window s0 x)) m1 else m1 in
  jail_step g h l a =
    if g_signedBlocksWindow g - cnt <? g_minSignedBlocks g
    then set_frozen (set_dels l (delete a (dels l))) (freeze_all (frozen l) (h + g_lazyRewardBlocks g) (d_stakes d))
    else set_dels l (<[a := with_marks d m2]> (dels l)).
Proof.
  intros Hd Hs Hw Hh sh m1 s0 cnt m2. unfold jail_step. rewrite Hd. cbv zeta. fold sh. fold m1.
  assert (Es0 : (if sh - g_signedBlocksWindow g <? 0 then 0 else sh - g_signedBlocksWindow g) = s0).
  { subst s0. destruct (sh - g_signedBlocksWindow g <? 0) eqn:E; lia. }
  rewrite Es0. rewrite count_in_window_spec; [reflexivity|apply mark_incr, Hs|subst s0 sh; lia].
Qed.
Print Assumptions jail_step_spec.

Lemma jail_step_absent g h l a : dels l !! a = None → jail_step g h l a = l.
Proof. intros H. unfold jail_step. rewrite H. reflexivity. Qed.

(* frame of one missed-block step: only [dels] at [a] and [frozen] can change *)
Lemma jail_step_frame g h l a :
  accts (jail_step g h l a) = accts l ∧ rewards (jail_step g h l a) = rewards l ∧
  props (jail_step g h l a) = props l ∧ fprops (jail_step g h l a) = fprops l ∧
  lparams (jail_step g h l a) = lparams l ∧
  (∀ b, b ≠ a → dels (jail_step g h l a) !! b = dels l !! b).
Proof.
  unfold jail_step. destruct (dels l !! a) as [d|]; [|repeat split]. cbv zeta.
  destruct (count_in_window _ _ _) as [cnt m2].
  destruct (_ <? g_minSignedBlocks g); simpl; repeat split; intros b Hb;
    [apply lookup_delete_ne|apply lookup_insert_ne]; congruence.
Qed.

Lemma jail_step_set_rewards g h l a rw :
  jail_step g h (set_rewards l rw) a = set_rewards (jail_step g h l a) rw.
Proof.
  unfold jail_step. cbn [dels set_rewards]. destruct (dels l !! a) as [d|]; [|reflexivity]. cbv zeta.
  destruct (count_in_window _ _ _) as [cnt m2]. destruct (_ <? g_minSignedBlocks g); reflexivity.
Qed.

(* the jailed case, read off per stake *)
Corollary jail_step_jailed g h l a d cnt m2 s :
  dels l !! a = Some d →
  count_in_window (mark (d_marks d) (h - 1))
     (if h - 1 - g_signedBlocksWindow g <? 0 then 0 else h - 1 - g_signedBlocksWindow g) (h - 1) = (cnt, m2) →
  g_signedBlocksWindow g - cnt < g_minSignedBlocks g →
  NoDup (s_hash <$> d_stakes d) → In s (d_stakes d) →
  dels (jail_step g h l a) !! a = None ∧
  frozen (jail_step g h l a) !! s_hash s = Some (with_refund (h + g_lazyRewardBlocks g) s).
Proof.
  intros Hd Hc Hlt Hnd Hs. unfold jail_step. rewrite Hd. cbv zeta. rewrite Hc.
  destruct (_ <? g_minSignedBlocks g) eqn:E; [|lia]. simpl. split; [apply lookup_delete|].
  apply freeze_all_lookup; assumption.
Qed.

(* ------------------------------------------------------------------ the whole vote loop *)
Definition jail_votes (g : params) (h : Z) (l : ledgers) (votes : list (addr * Z * bool)) : ledgers :=
  foldl (λ l (v : addr * Z * bool), if v.2 then l else jail_step g h l v.1.1) l votes.

Lemma jail_votes_set_rewards g h votes : ∀ l rw,
  jail_votes g h (set_rewards l rw) votes = set_rewards (jail_votes g h l votes) rw.
Proof.
  unfold jail_votes. induction votes as [|[[a pw] sg] votes IH]; intros l rw; simpl; [reflexivity|].
  destruct sg; [apply IH|]. rewrite jail_step_set_rewards. apply IH.
Qed.

(* the vote loop = the jailing pass on everything but [rewards], and (InvReward) the reward pass
   on [rewards]: the two branches touch disjoint parts of the state *)
Lemma vote_fold_jail g old h votes : ∀ l i l3 i3,
  foldl (vote_step g old h) (Ok (l, i)) votes = Ok (l3, i3) →
  l3 = set_rewards (jail_votes g h l votes) (rewards l3).
Proof.
  induction votes as [|[[a pw] sg] votes IH]; intros l i l3 i3 H.
  - simpl in H. injection H as <- _. destruct l; reflexivity.
  - cbn [foldl] in H. destruct sg.
    + destruct (vote_step g old h (Ok (l, i)) (a, pw, true)) as [[l1 i1]|e|p] eqn:E1.
      * apply IH in H. apply vote_step_signed in E1. unfold jail_votes; simpl. fold (jail_votes g h l votes).
        rewrite H at 1. rewrite E1 at 1. rewrite jail_votes_set_rewards. reflexivity.
      * rewrite foldl_res_err in H by reflexivity. discriminate.
      * rewrite foldl_res_panic in H by reflexivity. discriminate.
    + rewrite vote_step_unsigned in H. apply IH in H. exact H.
Qed.

Lemma process_votes_jail s l h votes l3 i3 :
  process_votes s l h votes = Ok (l3, i3) → l3 = set_rewards (jail_votes (gparams s) h l votes) (rewards l3).
Proof.
  rewrite process_votes_eq. destruct (ledgers_at s (hgt_of_power h)) as [old|]; [|discriminate].
  apply vote_fold_jail.
Qed.

Lemma jail_votes_frame g h votes : ∀ l,
  accts (jail_votes g h l votes) = accts l ∧ rewards (jail_votes g h l votes) = rewards l ∧
  props (jail_votes g h l votes) = props l ∧ fprops (jail_votes g h l votes) = fprops l ∧
  lparams (jail_votes g h l votes) = lparams l ∧
  (∀ b, (∀ pw, (b, pw, false) ∉ votes) → dels (jail_votes g h l votes) !! b = dels l !! b).
Proof.
  unfold jail_votes. induction votes as [|[[a pw] sg] votes IH]; intros l; simpl; [repeat split|].
  destruct sg; simpl.
  - destruct (IH l) as (H1 & H2 & H3 & H4 & H5 & H6). repeat split; try assumption.
    intros b Hb. apply H6. intros pw' Hin. apply (Hb pw'). right. exact Hin.
  - destruct (IH (jail_step g h l a)) as (H1 & H2 & H3 & H4 & H5 & H6).
    destruct (jail_step_frame g h l a) as (F1 & F2 & F3 & F4 & F5 & F6).
    repeat split; try congruence.
    intros b Hb. rewrite H6 by (intros pw' Hin; apply (Hb pw'); right; exact Hin).
    apply F6. intros ->. apply (Hb pw). left.
Qed.

(* ================================================================== L5: begin_block as a whole *)
(* L5.  The order is: proposals are punished, the eligible set and the limiter are rebuilt from
   the committed tree, stakes are punished, then the vote loop rewards the signers (InvReward, R1)
   and marks / jails the others.  Accounts, frozen proposals, the parameter ledger, the committed
   versions, the in-memory parameters and the last validator set never change; [props] changes
   only through gov_punish; [dels] and [frozen] only through stake_punish and jailing. *)
Theorem begin_block_frame s hd s' r :
  begin_block s hd = (s', r) →
  let ratio := g_slashRatio (gparams s) in
  let evi := h_evidence hd in
  let h := h_height hd in
  let l2 := stake_punish (gov_punish (work s) ratio evi) ratio evi in
  (h ≠ last_height s + 1 → s' = s ∧ r = Panic P_BEGINBLOCK) ∧
  (h = last_height s + 1 →
     committed s' = committed s ∧ gparams s' = gparams s ∧ newparams s' = newparams s ∧
     lastvals s' = lastvals s ∧ last_height s' = last_height s ∧
     bctx s' = {| b_height := h; b_proposer := h_proposer hd; b_feesum := 0; b_txs := 0 |} ∧
     accts (work s') = accts (work s) ∧ fprops (work s') = fprops (work s) ∧ lparams (work s') = lparams (work s) ∧
     props (work s') = punish_props ratio (props (work s)) evi ∧
     dels l2 = punish_dels ratio (dels (work s)) evi ∧ frozen l2 = frozen (work s) ∧
     match r with
     | Ok _ => dels (work s') = dels (jail_votes (gparams s) h l2 (h_votes hd)) ∧
               frozen (work s') = frozen (jail_votes (gparams s) h l2 (h_votes hd))
     | _ => dels (work s') = dels l2 ∧ frozen (work s') = frozen l2 ∧ rewards (work s') = rewards (work s)
     end).
Proof.
  intros H ratio evi h l2. apply begin_block_cases in H.
  assert (Hl2 : accts l2 = accts (work s) ∧ fprops l2 = fprops (work s) ∧ lparams l2 = lparams (work s) ∧
                props l2 = punish_props ratio (props (work s)) evi ∧
                dels l2 = punish_dels ratio (dels (work s)) evi ∧ frozen l2 = frozen (work s) ∧
                rewards l2 = rewards (work s)).
  { subst l2. rewrite stake_punish_eq, gov_punish_eq. simpl. repeat split. }
  destruct Hl2 as (A1 & A2 & A3 & A4 & A5 & A6 & A7).
  destruct H as [Hne|Hh Hv|l3 iss Hh _ Ep|e Hh _ _|p Hh _ _];
    [split; [auto|contradiction]|(split; [contradiction|]; intros _)..];
    try rewrite Hv; try (cbn; repeat split; assumption).
  apply process_votes_jail in Ep. change (gparams (begun s hd)) with (gparams s) in Ep.
  change (work (begun s hd)) with l2 in Ep.
  destruct (jail_votes_frame (gparams s) (h_height hd) (h_votes hd) l2) as (J1 & J2 & J3 & J4 & J5 & _).
  rewrite Ep. cbn [work with_work committed gparams newparams lastvals last_height bctx begun
                   accts fprops lparams props dels frozen set_rewards].
  repeat split; congruence.
Qed.
Print Assumptions begin_block_frame.

(* ================================================================== example *)
(* two validators (1: power 100, 2: power 1000); validator 1 is also an asset holder and opens a
   proposal in block 3.  In block 6 there is evidence against validator 1 and validator 2 did
   not sign.  Slash ratio 50 %, signing window 2 with at least 2 signed blocks required. *)
Definition sl_params : params :=
  {| g_version := 1; g_maxValidatorCnt := 21; g_minValidatorStake := amountPerPower; g_minDelegatorStake := 0;
     g_rewardPerPower := 3; g_lazyRewardBlocks := 10; g_lazyApplyingBlocks := 10; g_gasPrice := 1;
     g_minTrxGas := 1; g_maxTrxGas := 1000000; g_maxBlockGas := 10000000; g_minVotingPeriodBlocks := 1;
     g_maxVotingPeriodBlocks := 100; g_minSelfStakeRatio := 50; g_maxUpdatableStakeRatio := 30;
     g_maxIndividualStakeRatio := 100; g_slashRatio := 50; g_signedBlocksWindow := 2; g_minSignedBlocks := 2 |}.
Definition sl_gen : genesis :=
  {| gen_params := sl_params; gen_holders := [(1%N, 1000000)]; gen_validators := [(1%N, 100); (2%N, 1000)] |}.
Definition sl_hdr (h : Z) (votes : list (addr * Z * bool)) (evi : list addr) : header :=
  {| h_height := h; h_proposer := Some 1%N; h_votes := votes; h_evidence := evi |}.
Definition sl_prop_tx : tx :=
  {| t_type := TRX_PROPOSAL; t_from := 1%N; t_to := 0%N; t_from_ok := true; t_to_ok := true; t_amount := 0;
     t_price := 1; t_gas := 10; t_nonce := 0; t_payload := PProposal 5 10 30 0 [(1%N, None); (2%N, None)] true;
     t_hash := 55%N; t_sigok := true; t_evm := None |}.
Definition sl_vote_tx : tx :=
  {| t_type := TRX_VOTING; t_from := 1%N; t_to := 0%N; t_from_ok := true; t_to_ok := true; t_amount := 0;
     t_price := 1; t_gas := 10; t_nonce := 1; t_payload := PVoting 55%N 1; t_hash := 56%N; t_sigok := true; t_evm := None |}.
Definition sl_run : list sop :=
  [SBegin (sl_hdr 1 [] []); SEnd; SCommit;
   SBegin (sl_hdr 2 [(1%N, 100, true); (2%N, 1000, true)] []); SEnd; SCommit;
   SBegin (sl_hdr 3 [(1%N, 100, true); (2%N, 1000, true)] []); SDeliver sl_prop_tx; SEnd; SCommit;
   SBegin (sl_hdr 4 [(1%N, 100, true); (2%N, 1000, true)] []); SEnd; SCommit;
   SBegin (sl_hdr 5 [(1%N, 100, true); (2%N, 1000, true)] []); SDeliver sl_vote_tx; SEnd; SCommit].
Definition sl_s : state := srun (init_chain sl_gen) sl_run.
Definition sl_hd6 : header := sl_hdr 6 [(1%N, 100, true); (2%N, 1000, false)] [1%N].
Definition sl_s' : state := (begin_block sl_s sl_hd6).1.
Definition prop_digest (p : proposal) := (p_total p, p_majority p, p_voters p !! 1%N, p_voters p !! 2%N, o_votes <$> p_options p).

(* the run is evaluated once *)
Lemma sl_values :
  last_height sl_s = 5 ∧ g_slashRatio (gparams sl_s) = 50 ∧
  dels (work sl_s) !! 1%N
    = Some {| d_addr := 1%N; d_self := 100; d_total := 100;
              d_stakes := [{| s_from := 1%N; s_to := 1%N; s_hash := 0%N; s_start := 1; s_refund := 0; s_power := 100 |}];
              d_marks := [] |} ∧
  prop_digest <$> props (work sl_s) !! 55%N
    = Some (1100, 733, Some {| v_power := 100; v_choice := 1 |}, Some {| v_power := 1000; v_choice := -1 |}, [0; 100]).
Proof. decide_eqs. Qed.

(* the hypotheses of the theorems above hold on this state ... *)
Example slash_hyps_example :
  h_height sl_hd6 = last_height sl_s + 1 ∧ 0 ≤ g_slashRatio (gparams sl_s) ≤ 100 ∧
  (∃ d, dels (work sl_s) !! 1%N = Some d ∧ Forall (λ s, 0 ≤ s_power s) (d_stakes d) ∧ NoDup (s_hash <$> d_stakes d) ∧
        incr (d_marks d)) ∧
  (∃ p v, props (work sl_s) !! 55%N = Some p ∧ p_voters p !! 1%N = Some v ∧ 0 ≤ v_power v < two63 ∧
          prop_digest p = (1100, 733, Some {| v_power := 100; v_choice := 1 |}, Some {| v_power := 1000; v_choice := -1 |}, [0; 100])).
Proof.
  destruct sl_values as (E1 & E2 & E3 & E4).
  split; [rewrite E1; reflexivity|]. split; [rewrite E2; lia|]. split.
  - eexists. split; [exact E3|]. split; [repeat constructor; simpl; lia|].
    split; [simpl; apply NoDup_singleton|constructor].
  - destruct (props (work sl_s) !! 55%N) as [p|]; [|discriminate E4]. exists p.
    cbn [fmap option_fmap option_map] in E4. injection E4 as H1 H2 H3 H4 H5.
    eexists. split; [reflexivity|]. split; [exact H3|]. split; [simpl; split; [lia|reflexivity]|].
    unfold prop_digest. rewrite H1, H2, H3, H4, H5. reflexivity.
Qed.

(* ... and this is what block 6 does: 300 issued to the signer (on its pre-slash stake of four
   blocks ago); validator 1 loses half of its stake and half of its voting weight in the open
   proposal (the option it voted for loses 50, total 1100 -> 1050, majority 733 -> 700);
   validator 2, which missed the block, is jailed: no delegatee any more, its stake unbonding
   with refund height 6 + 10. *)
Example begin_block_example :
  (begin_block sl_s sl_hd6).2 = Ok 300 ∧
  prop_digest <$> props (work sl_s') !! 55%N
    = Some (1050, 700, Some {| v_power := 50; v_choice := 1 |}, Some {| v_power := 1000; v_choice := -1 |}, [0; 50]) ∧
  dels (work sl_s') !! 1%N
    = Some {| d_addr := 1%N; d_self := 50; d_total := 50;
              d_stakes := [{| s_from := 1%N; s_to := 1%N; s_hash := 0%N; s_start := 1; s_refund := 0; s_power := 50 |}];
              d_marks := [] |} ∧
  dels (work sl_s') !! 2%N = None ∧
  frozen (work sl_s') !! 0%N = Some {| s_from := 2%N; s_to := 2%N; s_hash := 0%N; s_start := 1; s_refund := 16; s_power := 1000 |} ∧
  accts (work sl_s') !! 1%N = accts (work sl_s) !! 1%N ∧ accts (work sl_s') !! 2%N = accts (work sl_s) !! 2%N.
Proof. decide_eqs. Qed.

(* ================================================================== the hypotheses on reachable states *)
(* ------------------------------------------------------------------ from the shared vocabulary *)
Lemma NoDup_fmap_concat_elem {A B} (f : A → B) (ls : list (list A)) l :
  NoDup (f <$> concat ls) → l ∈ ls → NoDup (f <$> l).
Proof.
  induction ls as [|x ls IH]; intros Hnd Hin; [inversion Hin|].
  simpl in Hnd. rewrite fmap_app in Hnd. apply NoDup_app in Hnd as (H1 & _ & H2).
  apply elem_of_cons in Hin as [->|Hin]; [exact H1|apply IH; assumption].
Qed.

(* L1's hypotheses follow from [hashes_unique] and [ranges_ok] *)
Lemma delegatee_hashes_NoDup l a d : hashes_unique l → dels l !! a = Some d → NoDup (s_hash <$> d_stakes d).
Proof.
  intros [Hnd _] Hd. rewrite fmap_app in Hnd. apply NoDup_app in Hnd as (Hnd & _ & _).
  unfold bonded_stakes in Hnd. eapply NoDup_fmap_concat_elem; [exact Hnd|].
  apply elem_of_list_fmap. exists (a, d). split; [reflexivity|]. apply elem_of_map_to_list, Hd.
Qed.

Lemma delegatee_powers_ok l a d : ranges_ok l → dels l !! a = Some d → Forall (λ s, 0 ≤ s_power s < two63) (d_stakes d).
Proof.
  intros (_ & Hp & _) Hd. apply Forall_forall. intros s Hs. apply Hp. apply elem_of_app. left.
  unfold bonded_stakes. apply elem_of_list_In, in_concat. exists (d_stakes d). split; [|apply elem_of_list_In, Hs].
  apply elem_of_list_In, elem_of_list_fmap. exists (a, d). split; [reflexivity|]. apply elem_of_map_to_list, Hd.
Qed.

(* ------------------------------------------------------------------ marks are strictly increasing along every run *)
Definition marks_incr (l : ledgers) : Prop := ∀ a d, dels l !! a = Some d → incr (d_marks d).

Lemma marks_incr_dels l l' : dels l' = dels l → marks_incr l → marks_incr l'.
Proof. intros E H a d. rewrite E. apply H. Qed.

Lemma marks_incr_insert l a d : marks_incr l → incr (d_marks d) → marks_incr (set_dels l (<[a := d]> (dels l))).
Proof.
  intros H Hd b d' Hb. simpl in Hb. destruct (decide (b = a)) as [->|Hne].
  - rewrite lookup_insert in Hb. injection Hb as <-. exact Hd.
  - rewrite lookup_insert_ne in Hb by congruence. eapply H, Hb.
Qed.

Lemma marks_incr_delete l a : marks_incr l → marks_incr (set_dels l (delete a (dels l))).
Proof. intros H b d Hb. simpl in Hb. apply lookup_delete_Some in Hb as [_ Hb]. eapply H, Hb. Qed.

Lemma slash1_marks ratio d : d_marks (slash1 ratio d) = d_marks d.
Proof. reflexivity. Qed.

Lemma stake_punish_marks l ratio evi : marks_incr l → marks_incr (stake_punish l ratio evi).
Proof.
  intros H a d Hd. destruct (stake_punish_spec l ratio evi) as (Hl & _). rewrite Hl in Hd.
  destruct (dels l !! a) as [d0|] eqn:E; [|discriminate]. simpl in Hd. injection Hd as <-.
  induction (times a evi) as [|n IH]; [eapply H, E|]. exact IH.
Qed.

Lemma jail_step_marks g h l a : marks_incr l → marks_incr (jail_step g h l a).
Proof.
  intros H. unfold jail_step. destruct (dels l !! a) as [d|] eqn:Ed; [|exact H]. cbv zeta.
  destruct (count_in_window _ _ _) as [cnt m2] eqn:Ec.
  destruct (_ <? g_minSignedBlocks g).
  - eapply marks_incr_dels; [|apply (marks_incr_delete l a H)]. reflexivity.
  - apply marks_incr_insert; [exact H|]. simpl.
    replace m2 with (count_in_window (mark (d_marks d) (h - 1)) (if h - 1 - g_signedBlocksWindow g <? 0 then 0 else h - 1 - g_signedBlocksWindow g) (h - 1)).2 by (rewrite Ec; reflexivity).
    apply count_in_window_incr, mark_incr. eapply H, Ed.
Qed.

Lemma jail_votes_marks g h votes : ∀ l, marks_incr l → marks_incr (jail_votes g h l votes).
Proof.
  unfold jail_votes. induction votes as [|[[a pw] sg] votes IH]; intros l H; simpl; [exact H|].
  destruct sg; simpl; apply IH; [exact H|apply jail_step_marks, H].
Qed.

Lemma begin_block_marks s hd : marks_incr (work s) → marks_incr (work (begin_block s hd).1).
Proof.
  intros H. destruct (begin_block s hd) as [s' r] eqn:Hb. simpl.
  destruct (begin_block_frame _ _ _ _ Hb) as [Hne Heq].
  destruct (Z.eq_dec (h_height hd) (last_height s + 1)) as [E|E].
  - destruct (Heq E) as (_ & _ & _ & _ & _ & _ & _ & _ & _ & _ & _ & _ & Hr).
    assert (H2 : marks_incr (stake_punish (gov_punish (work s) (g_slashRatio (gparams s)) (h_evidence hd)) (g_slashRatio (gparams s)) (h_evidence hd))).
    { apply stake_punish_marks. eapply marks_incr_dels; [|exact H]. rewrite gov_punish_eq. reflexivity. }
    destruct r as [i|e|p].
    + destruct Hr as [Hd _]. eapply marks_incr_dels; [exact Hd|]. apply jail_votes_marks, H2.
    + destruct Hr as [Hd _]. eapply marks_incr_dels; [exact Hd|exact H2].
    + destruct Hr as [Hd _]. eapply marks_incr_dels; [exact Hd|exact H2].
  - destruct (Hne E) as [-> _]. exact H.
Qed.

(* a delegatee that stays keeps its marks; a new one starts without any *)
Definition marks_kept (l l' : ledgers) : Prop :=
  ∀ a d', dels l' !! a = Some d' →
    match dels l !! a with Some d => d_marks d' = d_marks d | None => d_marks d' = [] end.

Lemma marks_kept_dels l l' : dels l' = dels l → marks_kept l l'.
Proof. intros E a d' H. rewrite E in H. rewrite H. reflexivity. Qed.

Lemma marks_kept_pre l0 l l' : dels l0 = dels l → marks_kept l0 l' → marks_kept l l'.
Proof. intros E H a d' Hd. specialize (H a d' Hd). rewrite E in H. exact H. Qed.

Lemma marks_kept_post l l1 l' : dels l' = dels l1 → marks_kept l l1 → marks_kept l l'.
Proof. intros E H a d' Hd. rewrite E in Hd. exact (H a d' Hd). Qed.

Lemma marks_kept_incr l l' : marks_kept l l' → marks_incr l → marks_incr l'.
Proof.
  intros Hk Hm a d' Hd'. specialize (Hk a d' Hd').
  destruct (dels l !! a) as [d|] eqn:Ed; rewrite Hk; [eapply Hm, Ed|constructor].
Qed.

Lemma find_or_new_dels l a : dels (find_or_new l a).1 = dels l.
Proof. exact (keeps_dels _ _ _ (find_or_new_keeps l a) I). Qed.

Lemma del_stake_marks d h : d_marks (del_stake d h) = d_marks d.
Proof. unfold del_stake. destruct (find_stake h (d_stakes d)); reflexivity. Qed.

(* staking adds a stake to the delegatee it names, unstaking takes stakes from it: the marks stay *)
Lemma stake_execute_kept s l t l' : stake_execute s l t = Ok l' → marks_kept l l'.
Proof.
  intros H a d'.
  apply stake_execute_inv in H as [(_ & d & Hd & -> & _)|[(_ & d & hs & b & s0 & Hd & _ & _ & _ & -> & _)|(_ & _ & -> & _)]].
  - destruct (decide (a = t_to t)) as [->|Hne].
    + rewrite lookup_insert. intros [= <-]. destruct Hd as [->|(-> & _ & ->)]; reflexivity.
    + rewrite lookup_insert_ne by congruence. intros ->. reflexivity.
  - destruct (decide (a = t_to t)) as [->|Hne].
    + rewrite Hd. unfold unstake_result. cbn [fst].
      destruct (d_total _ =? 0); [rewrite lookup_delete; discriminate|]. rewrite lookup_insert. intros [= <-].
      destruct (d_self (del_stake d hs) =? 0); apply del_stake_marks.
    + rewrite unstake_result_lookup_ne by exact Hne. intros ->. reflexivity.
  - intros ->. reflexivity.
Qed.

Lemma deliver_kept s t : marks_kept (work s) (work (deliver s t).1).
Proof.
  pose proof (find_or_new_dels (work s) (t_to t)) as E0.
  assert (Hn : ∀ x l', exec_native (with_lim (pre s t) x) t = Ok l' → marks_kept (work s) l').
  { intros x l' Hx. unfold exec_native in Hx.
    destruct (_ || _); [apply marks_kept_dels; rewrite (keeps_dels _ _ _ (gov_execute_keeps _ _ _ _ Hx) I); exact E0|].
    destruct (_ || _); [apply marks_kept_dels; rewrite (keeps_dels _ _ _ (acct_execute_keeps _ _ _ Hx) I); exact E0|].
    exact (marks_kept_pre _ _ _ E0 (stake_execute_kept _ _ _ _ Hx)). }
  destruct (deliver s t) as [s' r] eqn:Hd. apply deliver_cases in Hd. cbn [fst].
  destruct Hd as [_|? ? _ _|? lim' ? ? _ _ _ _ [? _|l' gas _ Hx|l' ? _ Hx _ _|l' ? ? _ Hx _ _]].
  - apply marks_kept_dels. reflexivity.
  - apply marks_kept_dels, E0.
  - apply marks_kept_dels, E0.
  - apply marks_kept_dels. cbn. rewrite (keeps_dels _ _ _ (evm_execute_keeps _ _ _ _ Hx) I). exact E0.
  - exact (Hn _ _ Hx).
  - exact (marks_kept_post _ _ _ eq_refl (Hn _ _ Hx)).
Qed.

Lemma init_chain_no_marks g a d : dels (work (init_chain g)) !! a = Some d → d_marks d = [].
Proof.
  unfold init_chain. cbn [work]. revert a d.
  set (nomarks := λ l : ledgers, ∀ a d, dels l !! a = Some d → d_marks d = []).
  apply (foldl_inv _ nomarks).
  { intros l v _ H a d. cbn [dels set_dels]. destruct (decide (a = v.1)) as [->|Hne].
    - rewrite lookup_insert. intros [= <-]. reflexivity.
    - rewrite lookup_insert_ne by congruence. apply H. }
  apply (foldl_inv _ nomarks); [intros l v _ H a d; rewrite find_or_new_dels; apply H|].
  apply (foldl_inv _ nomarks); [intros l v _ H; exact H|].
  intros a d H. cbn [dels empty_ledgers] in H. rewrite lookup_empty in H. discriminate.
Qed.

(* L4's hypothesis holds on every state of every run from genesis *)
Theorem marks_incr_run g ops : marks_incr (work (srun (init_chain g) ops)).
Proof.
  apply (srun_inv (λ s, marks_incr (work s))).
  - intros s o Hs. destruct o as [hd|t| |]; cbn [sstep].
    + apply begin_block_marks, Hs.
    + exact (marks_kept_incr _ _ (deliver_kept s t) Hs).
    + eapply marks_incr_dels; [apply end_block_dels|exact Hs].
    + exact Hs.
  - intros a d Hd. rewrite (init_chain_no_marks g a d Hd). constructor.
Qed.
Print Assumptions marks_incr_run.

Print Assumptions slash_dup_hash_refuted.
Print Assumptions slash_all_delegatee_ok.
Print Assumptions count_in_window_spec.
Print Assumptions vote_fold_jail.
Print Assumptions jail_votes_frame.
Print Assumptions gov_punish_one.
Print Assumptions stake_punish_one.
