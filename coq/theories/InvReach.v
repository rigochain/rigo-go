(* The run-level hypotheses of the history theorems, discharged from hypotheses on the inputs
   (genesis, operation list, transactions).

   params_ok_reachable      the active parameters stay well formed along every run, provided the
                            parameter documents of submitted GOVPARAMS proposals keep well-formed
                            parameters well formed when merged ([opts_ok], input-only).  The
                            submission check (GovCtrler.ValidateTrx) enforces NONE of the ranges of
                            [params_ok]: [doc_ok_fields] says exactly what a document must satisfy,
                            [submission_checks_no_range] / [params_ok_needs_opts_ok] are the witnesses.
   run_ok_reachable         [run_ok] (unique stake hashes, delegatee totals, powers in the int64
                            range, parameters in range) at every prefix of every run from a
                            well-formed genesis with fresh staking hashes.  Powers need no supply
                            bound: a stake's power is produced by AmountToPower (range checked at
                            validation) and afterwards only cut by slashing.
   C02_closed               C02_history without its hypothesis about the run.
   C09_closed               run_never_panics without its hypothesis about the run; BeginBlock /
                            EndBlock answering Ok is proved, not presupposed ([closed_run_total]:
                            on a well-bracketed list [hrun] never returns None).  [reach_facts]:
                            delegatee_ok, ranges_ok and supply < 2^63 RIGO in every state of the run,
                            i.e. the run-level hypothesis of C09_holds itself.
   fresh_run_reachable      [fresh_run] from a condition on the list alone (staking transactions
                            carry pairwise distinct non-zero hashes); C02_closed_total,
                            C09_closed_inputs: every hypothesis on the inputs.
   examples                 the hypotheses are satisfiable (InvSupply's three-block chain). *)
From Rigo Require Import Base.
From stdpp Require Import gmap sorting.
From Rigo Require Import Spec SpecProps SpecFacts.
From Rigo Require InvFail InvNonce InvReward InvGov InvPanic.
From Rigo Require Import InvStake InvFee InvSupply.
Local Open Scope Z_scope.

Local Opaque two256 two255 two64 two63.

(* ================================================================== parameters stay well formed *)

Definition doc_ok (q : params) : Prop := ∀ p, params_ok p → params_ok (merge_params p q).

Lemma doc_ok_opt_ok q : doc_ok q ↔ InvPanic.opt_ok q.
Proof. reflexivity. Qed.

Definition tx_opts_ok (t : tx) : Prop :=
  t_type t = TRX_PROPOSAL →
  match t_payload t with
  | PProposal _ _ _ opttype opts _ =>
      opttype = PROPOSAL_GOVPARAMS → ∀ o q, o ∈ opts → o.2 = Some q → doc_ok q
  | _ => True
  end.
Definition opts_ok (ops : list sop) : Prop :=
  Forall (λ o, match o with SDeliver t => tx_opts_ok t | _ => True end) ops.

(* ---- what [doc_ok] means field by field: a field is left unset (0) or inside the range *)
Definition unset_or (P : Z → Prop) (x : Z) : Prop := x = 0 ∨ P x.
Definition doc_fields_ok (q : params) : Prop :=
  unset_or (λ x, 0 ≤ x < 2 ^ 192) (g_gasPrice q) ∧ unset_or (λ x, 0 ≤ x < two64) (g_minTrxGas q) ∧
  unset_or (λ x, 0 ≤ x < 2 ^ 192) (g_rewardPerPower q) ∧ unset_or (λ x, 0 ≤ x ≤ 100) (g_slashRatio q) ∧
  unset_or (λ x, 0 < x) (g_maxValidatorCnt q) ∧
  unset_or (λ x, amountPerPower ≤ x < two63 * amountPerPower) (g_minValidatorStake q) ∧
  unset_or (λ x, 0 ≤ x < two63 * amountPerPower) (g_minDelegatorStake q) ∧
  unset_or (λ x, 0 ≤ x < two63) (g_lazyRewardBlocks q) ∧
  unset_or (λ x, 0 ≤ x) (g_signedBlocksWindow q) ∧ unset_or (λ x, 0 ≤ x) (g_minSignedBlocks q) ∧
  unset_or (λ x, 0 ≤ x ≤ 100) (g_minSelfStakeRatio q).

Lemma pick_unset_or (P : Z → Prop) new old : unset_or P new → P old → P (pick new old).
Proof. unfold pick. intros [->|Hn] Ho; [exact Ho|]. destruct (new =? 0); [exact Ho|exact Hn]. Qed.

Lemma unset_or_pick (P : Z → Prop) new old : P (pick new old) → unset_or P new.
Proof.
  unfold pick. destruct (new =? 0) eqn:E; intros H; [left; apply Z.eqb_eq; exact E|right; exact H].
Qed.

Lemma doc_fields_ok_doc_ok q : doc_fields_ok q → doc_ok q.
Proof.
  intros (F1 & F2 & F3 & F4 & F5 & F6 & F7 & F8 & F9 & F10 & F11) p
         (P1 & P2 & P3 & P4 & P5 & P6 & P7 & P8 & P9 & P10 & P11).
  split; [exact (pick_unset_or _ _ _ F1 P1)|]. split; [exact (pick_unset_or _ _ _ F2 P2)|].
  split; [exact (pick_unset_or _ _ _ F3 P3)|]. split; [exact (pick_unset_or _ _ _ F4 P4)|].
  split; [exact (pick_unset_or _ _ _ F5 P5)|]. split; [exact (pick_unset_or _ _ _ F6 P6)|].
  split; [exact (pick_unset_or _ _ _ F7 P7)|]. split; [exact (pick_unset_or _ _ _ F8 P8)|].
  split; [exact (pick_unset_or _ _ _ F9 P9)|]. split; [exact (pick_unset_or _ _ _ F10 P10)|].
  exact (pick_unset_or _ _ _ F11 P11).
Qed.

(* some well-formed parameter set, to read the fields of a document off a merge *)
Definition params_witness : params := {|
  g_version := 1; g_maxValidatorCnt := 1; g_minValidatorStake := amountPerPower; g_minDelegatorStake := 0;
  g_rewardPerPower := 0; g_lazyRewardBlocks := 0; g_lazyApplyingBlocks := 0; g_gasPrice := 0;
  g_minTrxGas := 0; g_maxTrxGas := 0; g_maxBlockGas := 0; g_minVotingPeriodBlocks := 0;
  g_maxVotingPeriodBlocks := 0; g_minSelfStakeRatio := 0; g_maxUpdatableStakeRatio := 0;
  g_maxIndividualStakeRatio := 0; g_slashRatio := 0; g_signedBlocksWindow := 0; g_minSignedBlocks := 0 |}.

Lemma params_witness_ok : params_ok params_witness.
Proof.
  Local Transparent two64 two63.
  unfold params_ok, params_witness, amountPerPower, two64, two63. cbn. lia.
  Local Opaque two64 two63.
Qed.

Lemma doc_ok_doc_fields_ok q : doc_ok q → doc_fields_ok q.
Proof.
  intros H. destruct (H _ params_witness_ok) as (P1 & P2 & P3 & P4 & P5 & P6 & P7 & P8 & P9 & P10 & P11).
  split; [exact (unset_or_pick _ _ _ P1)|]. split; [exact (unset_or_pick _ _ _ P2)|].
  split; [exact (unset_or_pick _ _ _ P3)|]. split; [exact (unset_or_pick _ _ _ P4)|].
  split; [exact (unset_or_pick _ _ _ P5)|]. split; [exact (unset_or_pick _ _ _ P6)|].
  split; [exact (unset_or_pick _ _ _ P7)|]. split; [exact (unset_or_pick _ _ _ P8)|].
  split; [exact (unset_or_pick _ _ _ P9)|]. split; [exact (unset_or_pick _ _ _ P10)|].
  exact (unset_or_pick _ _ _ P11).
Qed.

Theorem doc_ok_fields q : doc_ok q ↔ doc_fields_ok q.
Proof. split; [apply doc_ok_doc_fields_ok|apply doc_fields_ok_doc_ok]. Qed.

(* ---- the invariant: every stored option document of a parameter proposal is [doc_ok] *)
Definition odoc_ok (o : voption) : Prop := ∀ q, o_params o = Some q → doc_ok q.
Definition pdocs_ok (p : proposal) : Prop :=
  p_opttype p = PROPOSAL_GOVPARAMS → Forall odoc_ok (p_options p) ∧ (∀ o, p_major p = Some o → odoc_ok o).
Definition ldocs_ok (l : ledgers) : Prop :=
  map_Forall (λ _ p, pdocs_ok p) (props l) ∧ map_Forall (λ _ p, pdocs_ok p) (fprops l).
Definition docs_inv (s : state) : Prop :=
  params_ok (gparams s) ∧ (∀ m, newparams s = Some m → params_ok m) ∧ ldocs_ok (work s) ∧ ldocs_ok (base_of s).

Lemma odoc_ok_set_votes v o : odoc_ok o → odoc_ok (set_votes v o).
Proof. intros H. exact H. Qed.

Lemma prop_vote_docs p a c p' : prop_vote p a c = Some p' → pdocs_ok p → pdocs_ok p'.
Proof.
  unfold prop_vote. destruct (p_voters p !! a) as [v|]; [|discriminate]. cbn.
  pose proof (proj2 (InvPanic.cancel_vote_ok odoc_ok (p_options p) v odoc_ok_set_votes)) as H1.
  destruct (cancel_vote (p_options p) v) as [o1 v1]. cbn [fst] in H1.
  pose proof (proj2 (InvPanic.do_vote_ok odoc_ok o1 v1 c odoc_ok_set_votes)) as H2.
  destruct (do_vote o1 v1 c) as [o2 v2]. cbn [fst] in H2.
  intros [= <-] Hp Ht. cbn in Ht. destruct (Hp Ht) as [Ho Hm]. cbn. split; [auto|exact Hm].
Qed.

Lemma prop_punish_docs p a ratio : pdocs_ok p → pdocs_ok (prop_punish p a ratio).1.
Proof.
  intros Hp. unfold prop_punish. destruct (p_voters p !! a) as [v|]; [|exact Hp].
  pose proof (proj2 (InvPanic.cancel_vote_ok odoc_ok (p_options p) v odoc_ok_set_votes)) as H1.
  destruct (cancel_vote (p_options p) v) as [o1 v1]. cbn [fst] in H1.
  set (v2 := {| v_power := _; v_choice := v_choice v1 |}).
  pose proof (proj2 (InvPanic.do_vote_ok odoc_ok o1 v2 (v_choice v) odoc_ok_set_votes)) as H2.
  destruct (v_power v2 <=? 0); [|destruct (0 <=? v_choice v); [destruct (do_vote o1 v2 (v_choice v)) as [o' v']|]];
    cbn [fst]; intros Ht; cbn in Ht; destruct (Hp Ht) as [Ho Hm]; cbn; (split; [auto|exact Hm]).
Qed.

Lemma new_proposal_docs vals t start period apply opttype opts pok :
  tx_opts_ok t → t_type t = TRX_PROPOSAL → t_payload t = PProposal start period apply opttype opts pok →
  pdocs_ok (InvGov.new_proposal vals (t_hash t) start period apply opttype opts).
Proof.
  intros Hok Hty Hpl Ht. cbn in Ht. specialize (Hok Hty). rewrite Hpl in Hok. specialize (Hok Ht).
  cbn. split; [|discriminate].
  apply Forall_forall. intros o Ho. apply elem_of_list_In, in_map_iff in Ho as (x & <- & Hx).
  intros q Hq. cbn in Hq. apply (Hok x q); [apply elem_of_list_In; exact Hx|exact Hq].
Qed.

Lemma update_major_docs p p' : update_major p = Ok p' → pdocs_ok p → pdocs_ok p'.
Proof.
  intros Hu Hp. destruct (InvGov.update_major_spec _ _ Hu) as (o & r & Hs & Hopts & Hmaj & _ & _ & _ & _ & _ & _ & _ & Hty).
  intros Ht. rewrite Hty in Ht. destruct (Hp Ht) as [Ho Hm].
  assert (Hsorted : Forall odoc_ok (o :: r)) by (rewrite <- Hs; apply InvPanic.sort_opts_Forall; exact Ho).
  split; [rewrite Hopts; exact Hsorted|].
  intros o' Ho'. rewrite Hmaj in Ho'. destruct (p_majority p <=? o_votes o).
  - injection Ho' as <-. apply Forall_cons in Hsorted as [H _]. exact H.
  - apply Hm. exact Ho'.
Qed.

Lemma deliver_docs s t :
  tx_opts_ok t → map_Forall (λ _ p, pdocs_ok p) (props (work s)) →
  map_Forall (λ _ p, pdocs_ok p) (props (work (deliver s t).1)).
Proof.
  intros Hok H. destruct (deliver s t) as [s' r] eqn:Hd. cbn [fst].
  destruct (InvGov.deliver_gov _ _ _ _ Hd)
    as [[-> _]|[_ [st pe ap ot os pk Ht Hpl ->|ph choice p p' _ _ Hpp Hvote ->]]]; [exact H| |].
  - apply map_Forall_insert_2; [eapply new_proposal_docs; eassumption|exact H].
  - apply map_Forall_insert_2; [|exact H]. apply (prop_vote_docs _ _ _ _ Hvote), (H _ _ Hpp).
Qed.

(* EndBlock drops open proposals or freezes committed ones with their major option set; parameters
   it announces are the merge of a committed frozen document into the active ones *)
Lemma end_block_docs s : docs_inv s → docs_inv (end_block s).1.
Proof.
  intros (Hg & Hnp & (Wo & Wf) & (Bo & Bf)).
  destruct (InvGov.end_block_params s) as (GP & CM & Hnew). cbv zeta in *.
  destruct (end_block s) as [s' r] eqn:He. cbn [fst] in *.
  destruct (InvGov.end_block_proposals _ _ _ He) as [Ho Hf].
  unfold docs_inv. rewrite (base_of_same _ _ CM GP), GP.
  split; [exact Hg|]. split; [|split; [split|split; assumption]].
  - destruct Hnew as [(E & _)|(k & p & o & newp & Hk & _ & Hty & Hmaj & Hop & E & _)]; rewrite E; [exact Hnp|].
    intros m [= <-]. destruct (Bf _ _ Hk Hty) as [_ Hm]. apply (Hm o Hmaj newp Hop). exact Hg.
  - intros k p Hk. apply (Wo k p), Ho, Hk.
  - intros k q Hk. destruct (Hf k q Hk) as [Hold|(p & Hp & Hu & _)]; [exact (Wf k q Hold)|].
    apply (update_major_docs p q Hu), (Bo k p Hp).
Qed.

Lemma docs_inv_step s o :
  docs_inv s → match o with SDeliver t => tx_opts_ok t | _ => True end → docs_inv (sstep s o).
Proof.
  intros Hs Ho. destruct o as [hd|t| |]; cbn [sstep].
  - destruct Hs as (Hg & Hnp & (Wo & Wf) & Hb).
    destruct (begin_block s hd) as [s' r] eqn:Hbb. cbn [fst].
    destruct (InvGov.begin_block_inv _ _ _ _ Hbb) as (A & B & C & _ & E & _ & [->|(_ & _ & Hp)]).
    { split; [exact Hg|]. split; [exact Hnp|]. split; [split|]; assumption. }
    unfold docs_inv. rewrite (base_of_same _ _ A B), B, C.
    split; [exact Hg|]. split; [exact Hnp|]. split; [|exact Hb]. split.
    + rewrite Hp. apply (InvGov.gov_punish_forall pdocs_ok); [|exact Wo]. intros p a. apply prop_punish_docs.
    + rewrite E. exact Wf.
  - destruct Hs as (Hg & Hnp & (Wo & Wf) & Hb).
    destruct (InvGov.deliver_params_unchanged s t) as (A & N & _ & D & E & _). cbv zeta in *.
    unfold docs_inv. rewrite (base_of_same _ _ E A), A, N.
    split; [exact Hg|]. split; [exact Hnp|]. split; [|exact Hb]. split.
    + apply deliver_docs; assumption.
    + rewrite D. exact Wf.
  - apply end_block_docs. exact Hs.
  - destruct Hs as (Hg & Hnp & Hw & _). unfold docs_inv, base_of. cbn [commit committed work gparams newparams].
    rewrite last_snoc. cbn [default].
    split; [destruct (newparams s) as [m|]; cbn [default]; [apply Hnp; reflexivity|exact Hg]|].
    split; [discriminate|]. split; exact Hw.
Qed.

Lemma init_chain_docs_inv g : params_ok (gen_params g) → docs_inv (init_chain g).
Proof.
  intros Hg. destruct (InvGov.init_chain_props g) as (P1 & P2).
  split; [exact Hg|]. split; [cbn; discriminate|]. split.
  - split; [rewrite P1|rewrite P2]; apply map_Forall_empty.
  - unfold base_of. change (committed (init_chain g)) with (@nil ledgers). cbn.
    split; apply map_Forall_empty.
Qed.

Lemma docs_inv_run ops : ∀ s, docs_inv s → opts_ok ops → docs_inv (srun s ops).
Proof.
  unfold srun. induction ops as [|o ops IH]; intros s Hs Hok; cbn [foldl]; [exact Hs|].
  apply Forall_cons in Hok as [Ho Hok]. apply IH; [|exact Hok]. apply docs_inv_step; assumption.
Qed.

Lemma opts_ok_prefix pre ops : pre `prefix_of` ops → opts_ok ops → opts_ok pre.
Proof. intros [post ->] H. apply Forall_app in H as [H _]. exact H. Qed.

Theorem params_ok_reachable g ops :
  params_ok (gen_params g) → opts_ok ops →
  ∀ pre, pre `prefix_of` ops → params_ok (gparams (srun (init_chain g) pre)).
Proof.
  intros Hg Hok pre Hpre.
  destruct (docs_inv_run pre (init_chain g) (init_chain_docs_inv g Hg) (opts_ok_prefix _ _ Hpre Hok)) as (H & _).
  exact H.
Qed.
Print Assumptions params_ok_reachable.

(* ---- the hypothesis [opts_ok] is not implied by the submission check.
   GovCtrler.ValidateTrx looks at the option list only to see that it is not empty (and at the parse
   flag the decoder computed): two proposal transactions that differ only in their option documents
   are validated alike.  None of the eleven ranges of [doc_fields_ok] is enforced at submission,
   at voting, at freezing or at applying. *)
Definition with_opts (t : tx) (opts' : list (N * option params)) : tx :=
  match t_payload t with
  | PProposal st pe ap ot _ pk =>
      {| t_type := t_type t; t_from := t_from t; t_to := t_to t; t_from_ok := t_from_ok t; t_to_ok := t_to_ok t;
         t_amount := t_amount t; t_price := t_price t; t_gas := t_gas t; t_nonce := t_nonce t;
         t_payload := PProposal st pe ap ot opts' pk; t_hash := t_hash t; t_sigok := t_sigok t; t_evm := t_evm t |}
  | _ => t
  end.

Theorem submission_checks_no_range s t opts' :
  opts' ≠ [] →
  (∀ st pe ap ot opts pk, t_payload t = PProposal st pe ap ot opts pk → opts ≠ []) →
  gov_validate s (with_opts t opts') = gov_validate s t ∧
  common_validation0 (gparams s) (with_opts t opts') = common_validation0 (gparams s) t ∧
  (∀ sender, common_validation1 sender (with_opts t opts') = common_validation1 sender t).
Proof.
  intros Hne Hne'. unfold with_opts.
  destruct (t_payload t) as [| | |st pe ap ot opts pk| | |] eqn:Ep; try (repeat split; reflexivity).
  specialize (Hne' _ _ _ _ _ _ eq_refl).
  split; [|split; [reflexivity|intros sender; reflexivity]].
  unfold gov_validate. cbn [t_type t_to t_from t_payload t_hash]. rewrite Ep.
  destruct opts as [|o1 opts]; [contradiction|]. destruct opts' as [|o1' opts']; [contradiction|]. reflexivity.
Qed.

(* and it is needed: on InvPanic's example chain a proposal whose document sets maxValidatorCnt to
   -1 is submitted, voted, frozen and applied -- every operation answers Ok -- and the active
   parameters are no longer [params_ok] *)
Theorem params_ok_needs_opts_ok : ∃ g ops,
  params_ok (gen_params g) ∧ InvPanic.all_ok (init_chain g) ops = true ∧ ¬ opts_ok ops ∧
  ¬ params_ok (gparams (srun (init_chain g) ops)).
Proof.
  exists InvPanic.gen4, (InvPanic.run_a (Some InvPanic.opt_bad) ++ InvPanic.run_b ++ InvPanic.run_c).
  split; [exact InvPanic.pr1_ok|]. split; [vm_compute; reflexivity|]. split.
  - intros H. unfold opts_ok in H. apply Forall_app in H as [H _]. unfold InvPanic.run_a in H.
    do 7 (apply Forall_cons in H as [_ H]). apply Forall_cons in H as [H _].
    specialize (H eq_refl). cbn in H.
    specialize (H eq_refl (1%N, Some InvPanic.opt_bad) InvPanic.opt_bad (elem_of_list_here _ _) eq_refl).
    specialize (H _ params_witness_ok). destruct H as (_ & _ & _ & _ & H5 & _).
    vm_compute in H5. discriminate.
  - intros (_ & _ & _ & _ & H5 & _).
    assert (E : g_maxValidatorCnt (gparams (srun (init_chain InvPanic.gen4)
                  (InvPanic.run_a (Some InvPanic.opt_bad) ++ InvPanic.run_b ++ InvPanic.run_c))) = -1)
      by (vm_compute; reflexivity).
    rewrite E in H5. discriminate H5.
Qed.

(* ================================================================== run_ok at every prefix *)

(* ---- powers stay in the int64 range: no supply bound is needed for that *)
Lemma power_of_range a : 0 ≤ power_of a < two63.
Proof.
  unfold power_of, amount_to_power. cbv zeta.
  set (v := wrap64 _). pose proof (wrap64_range ((a / amountPerPower) mod two64)) as Hr. fold v in Hr.
  unfold in64 in Hr. pose proof two63_pos as H63.
  destruct (v <? 0) eqn:E; simpl; [lia|]. apply Z.ltb_ge in E. lia.
Qed.

(* ---- where the stakes of a ledger come from, after an evolution and after a new stake *)
Lemma evolves_bonded (Q : stake → stake → Prop) R l l' st :
  evolves Q R l l' → st ∈ bonded_stakes l' → ∃ s0, s0 ∈ bonded_stakes l ∧ Q s0 st.
Proof.
  intros [A _] Hin. apply InvStake.elem_of_bonded in Hin as (a & d' & Hd' & Hst).
  destruct (A _ _ Hd') as (d & Hd & _ & Hq). destruct (Hq _ Hst) as (s0 & Hs0 & Hqs).
  exists s0. split; [apply InvStake.elem_of_bonded; eauto|exact Hqs].
Qed.

Lemma evolves_frozen (Q : stake → stake → Prop) R l l' k x :
  evolves Q R l l' → frozen l' !! k = Some x →
  frozen l !! k = Some x ∨ ∃ s0 s1, s0 ∈ bonded_stakes l ∧ Q s0 s1 ∧ x = with_refund R s1 ∧ k = s_hash s0.
Proof.
  intros [_ B] Hk. destruct (B _ _ Hk) as [Hold|(a & d & s0 & s1 & Hd & Hs0 & Hq & Hx & Hk0 & _)]; [left; exact Hold|].
  right. exists s0, s1. split; [apply InvStake.elem_of_bonded; eauto|]. split; [exact Hq|]. split; assumption.
Qed.

Lemma add_stake_bonded l l' a d st x :
  dels l !! a = Some d ∨ d_stakes d = [] → dels l' = <[a := add_stake d st]> (dels l) →
  x ∈ bonded_stakes l' → x ∈ bonded_stakes l ∨ x = st.
Proof.
  intros Hd HD Hin. apply InvStake.elem_of_bonded in Hin as (a' & d' & Hd' & Hx). rewrite HD in Hd'.
  apply lookup_insert_Some in Hd' as [[_ <-]|[_ Hd']]; [|left; apply InvStake.elem_of_bonded; eauto].
  cbn [add_stake d_stakes] in Hx. apply elem_of_app in Hx as [Hx|Hx].
  - destruct Hd as [Hd|Hd]; [|rewrite Hd in Hx; inversion Hx]. left. apply InvStake.elem_of_bonded. eauto.
  - apply elem_of_list_singleton in Hx. right. exact Hx.
Qed.

(* [powers_ok] and [hashes_in] are instances: a property of every stake, bonded or unbonding *)
Definition all_stakes (P : stake → Prop) (l : ledgers) : Prop :=
  ∀ st, st ∈ bonded_stakes l ++ frozen_stakes l → P st.

Lemma all_stakes_evolves (P : stake → Prop) (Q : stake → stake → Prop) R l l' :
  (∀ x y, Q x y → P x → P y) → (∀ x, P x → P (with_refund R x)) →
  evolves Q R l l' → all_stakes P l → all_stakes P l'.
Proof.
  intros HQ HR Hev Hl st Hin. apply elem_of_app in Hin as [Hin|Hin].
  - destruct (evolves_bonded _ _ _ _ _ Hev Hin) as (s0 & Hs0 & Hq).
    apply (HQ _ _ Hq), Hl, elem_of_app. left. exact Hs0.
  - apply InvStake.elem_of_frozen in Hin as (k & Hk).
    destruct (evolves_frozen _ _ _ _ _ _ Hev Hk) as [Hold|(s0 & s1 & Hs0 & Hq & -> & _)].
    + apply Hl, elem_of_app. right. apply InvStake.elem_of_frozen. eauto.
    + apply HR, (HQ _ _ Hq), Hl, elem_of_app. left. exact Hs0.
Qed.

Lemma all_stakes_add (P : stake → Prop) l l' a d st :
  all_stakes P l → dels l !! a = Some d ∨ d_stakes d = [] → P st →
  dels l' = <[a := add_stake d st]> (dels l) → frozen l' = frozen l → all_stakes P l'.
Proof.
  intros Hl Hd Hst HD HF x Hin. apply elem_of_app in Hin as [Hin|Hin].
  - destruct (add_stake_bonded _ _ _ _ _ _ Hd HD Hin) as [Hold| ->]; [|exact Hst].
    apply Hl, elem_of_app. left. exact Hold.
  - apply Hl, elem_of_app. right. unfold frozen_stakes in *. rewrite <- HF. exact Hin.
Qed.

Lemma deliver_bonded s t st :
  st ∈ bonded_stakes (work (deliver s t).1) →
  st ∈ bonded_stakes (work s) ∨
  t_type t = TRX_STAKING ∧ t_sigok t = true ∧ st = stake_of_tx t (b_height (bctx s)) (power_of (t_amount t)).
Proof.
  intros Hst. destruct (deliver s t) as [s' r] eqn:E. cbn [fst] in Hst.
  apply deliver_moves in E as [Hev|(Hty & Hsig & d & Hd & HD & _)].
  - destruct (evolves_bonded _ _ _ _ _ Hev Hst) as (s0 & Hs0 & <-). left. exact Hs0.
  - assert (Hd' : dels (work s) !! t_to t = Some d ∨ d_stakes d = [])
      by (destruct Hd as [Hd|(_ & _ & ->)]; [left; exact Hd|right; reflexivity]).
    destruct (add_stake_bonded _ _ _ _ _ _ Hd' HD Hst) as [Hold|Hnew]; [left; exact Hold|right; auto].
Qed.

Lemma deliver_frozen s t k x :
  frozen (work (deliver s t).1) !! k = Some x →
  frozen (work s) !! k = Some x ∨
  ∃ s0, s0 ∈ bonded_stakes (work s) ∧ x = with_refund (release_height s) s0 ∧ k = s_hash s0.
Proof.
  intros Hk. destruct (deliver s t) as [s' r] eqn:E. cbn [fst] in Hk.
  apply deliver_moves in E as [Hev|(_ & _ & _ & _ & _ & HF)]; [|left; rewrite <- HF; exact Hk].
  destruct (evolves_frozen _ _ _ _ _ _ Hev Hk) as [Hold|(s0 & s1 & Hs0 & <- & Hx & Hk0)]; [left; exact Hold|].
  right. exists s0. split; [exact Hs0|]. split; assumption.
Qed.

Lemma all_stakes_deliver (P : stake → Prop) s t :
  (∀ R x, P x → P (with_refund R x)) →
  (t_type t = TRX_STAKING → P (stake_of_tx t (b_height (bctx s)) (power_of (t_amount t)))) →
  all_stakes P (work s) → all_stakes P (work (deliver s t).1).
Proof.
  intros HR Hnew Hl st Hin. apply elem_of_app in Hin as [Hin|Hin].
  - destruct (deliver_bonded s t st Hin) as [Hold|(Hty & _ & ->)]; [|exact (Hnew Hty)]. apply Hl, elem_of_app. left. exact Hold.
  - apply InvStake.elem_of_frozen in Hin as (k & Hk).
    destruct (deliver_frozen s t k st Hk) as [Hold|(s0 & Hs0 & -> & _)].
    + apply Hl, elem_of_app. right. apply InvStake.elem_of_frozen. eauto.
    + apply HR, Hl, elem_of_app. left. exact Hs0.
Qed.

Lemma all_stakes_init (P : stake → Prop) g :
  Forall (λ v, P (genesis_stake v)) (gen_validators g) → all_stakes P (work (init_chain g)).
Proof.
  intros Hv. destruct (init_chain_pre_sf g) as (l2 & [HD HF] & ->).
  assert (H2 : all_stakes P l2).
  { intros st Hin. apply elem_of_app in Hin as [Hin|Hin].
    - apply InvStake.elem_of_bonded in Hin as (a & d & Hd & _). rewrite HD in Hd. cbn in Hd.
      rewrite lookup_empty in Hd. discriminate.
    - apply InvStake.elem_of_frozen in Hin as (k & Hk). rewrite HF in Hk. cbn in Hk.
      rewrite lookup_empty in Hk. discriminate. }
  clear HD HF. revert l2 H2. induction Hv as [|v vs Hv0 Hvs IH]; intros l2 H2; cbn [foldl]; [exact H2|].
  apply IH. apply (all_stakes_add P l2 _ v.1 (new_delegatee v.1) (genesis_stake v) H2); [right| | |]; trivial.
Qed.

Lemma powers_ok_evolves (Q : stake → stake → Prop) R l l' :
  (∀ x y, Q x y → 0 ≤ s_power x < two63 → 0 ≤ s_power y < two63) →
  evolves Q R l l' → powers_ok l → powers_ok l'.
Proof. intros HQ. apply (all_stakes_evolves (λ st, 0 ≤ s_power st < two63)); [exact HQ|]. intros x Hx. exact Hx. Qed.

Lemma eq_keeps_range (x y : stake) : x = y → 0 ≤ s_power x < two63 → 0 ≤ s_power y < two63.
Proof. intros -> H. exact H. Qed.
Lemma cut_keeps_range (x y : stake) : stake_cut x y → 0 ≤ s_power x < two63 → 0 ≤ s_power y < two63.
Proof. intros [_ H] Hx. specialize (H (proj1 Hx)). lia. Qed.

Lemma deliver_powers_ok s t : powers_ok (work s) → powers_ok (work (deliver s t).1).
Proof.
  apply (all_stakes_deliver (λ st, 0 ≤ s_power st < two63)); [intros R x Hx; exact Hx|].
  intros _. apply power_of_range.
Qed.

Lemma sstep_powers_ok s o :
  0 ≤ g_slashRatio (gparams s) ≤ 100 → powers_ok (work s) → powers_ok (work (sstep s o)).
Proof.
  intros Hr Hp. destruct o as [hd|t| |]; cbn [sstep].
  - eapply powers_ok_evolves; [exact cut_keeps_range|apply (begin_block_evolves_cut s hd Hr)|exact Hp].
  - apply deliver_powers_ok. exact Hp.
  - eapply powers_ok_evolves; [exact eq_keeps_range|apply (end_block_evolves s 0)|exact Hp].
  - exact Hp.
Qed.

Lemma params_ok_slash p : params_ok p → 0 ≤ g_slashRatio p ≤ 100.
Proof. intros (_ & _ & _ & H & _). exact H. Qed.

Lemma powers_ok_run ops : ∀ s,
  docs_inv s → powers_ok (work s) → opts_ok ops → powers_ok (work (srun s ops)).
Proof.
  unfold srun. induction ops as [|o ops IH]; intros s Hs Hp Hok; cbn [foldl]; [exact Hp|].
  apply Forall_cons in Hok as [Ho Hok]. pose proof Hs as (Hg & _).
  apply IH; [apply docs_inv_step; assumption| |exact Hok].
  apply sstep_powers_ok; [apply params_ok_slash; exact Hg|exact Hp].
Qed.

(* ---- genesis *)
Lemma init_chain_powers_ok g :
  Forall (λ v : addr * Z, 0 ≤ v.2 < two63) (gen_validators g) → powers_ok (work (init_chain g)).
Proof. apply (all_stakes_init (λ st, 0 ≤ s_power st < two63)). Qed.

Lemma init_chain_accts g : ∀ a x, accts (work (init_chain g)) !! a = Some x →
  x = acct0 ∨ ∃ h, h ∈ gen_holders g ∧ a_bal x = h.2 ∧ a_nonce x = 0.
Proof.
  unfold init_chain. cbn [work].
  set (P := λ l : ledgers, ∀ a x, accts l !! a = Some x → x = acct0 ∨ ∃ h, h ∈ gen_holders g ∧ a_bal x = h.2 ∧ a_nonce x = 0).
  apply (foldl_inv _ P); [intros l v _ Hl; exact Hl|].
  apply (foldl_inv _ P).
  { intros l v _ Hl a x. unfold find_or_new. destruct (accts l !! v.1) eqn:E; cbn [fst]; [apply Hl|].
    cbn [set_acct accts]. intros Hx. apply lookup_insert_Some in Hx as [[_ <-]|[_ Hx]]; [left; reflexivity|].
    apply (Hl a x Hx). }
  apply (foldl_inv _ P).
  { intros l h Hh Hl a x. cbn [set_acct accts]. intros Hx.
    apply lookup_insert_Some in Hx as [[_ <-]|[_ Hx]]; [|apply (Hl a x Hx)].
    right. exists h. split; [exact Hh|split; reflexivity]. }
  intros a x Hx. cbn in Hx. rewrite lookup_empty in Hx. discriminate.
Qed.

Lemma init_chain_bal_range g :
  Forall (λ h : addr * Z, 0 ≤ h.2 < two256) (gen_holders g) → bal_range (work (init_chain g)).
Proof.
  intros Hh a x Hx. destruct (init_chain_accts g a x Hx) as [->|(h & Hin & -> & _)].
  - cbn. pose proof two256_pos. lia.
  - rewrite Forall_forall in Hh. apply (Hh h Hin).
Qed.

(* a well-formed genesis document: parameters in range, at most one validator (all genesis stakes
   carry hash 0: with two validators [hashes_unique] fails in the genesis state itself, the known
   finding C02_collision_refuted / C11_collision_refuted), validator powers in the int64 range,
   holder balances in the uint256 range *)
Definition genesis_ok (g : genesis) : Prop :=
  params_ok (gen_params g) ∧ (length (gen_validators g) ≤ 1)%nat ∧
  Forall (λ v : addr * Z, 0 ≤ v.2 < two63) (gen_validators g) ∧
  Forall (λ h : addr * Z, 0 ≤ h.2 < two256) (gen_holders g).

Lemma fresh_run_prefix pre post : ∀ s, fresh_run s (pre ++ post) → fresh_run s pre.
Proof.
  induction pre as [|o pre IH]; intros s H; cbn [fresh_run app] in *; [exact I|].
  destruct H as [H1 H2]. split; [exact H1|]. apply IH. exact H2.
Qed.

Lemma dels_ok_totals_ok l : dels_ok l → totals_ok l.
Proof. intros H a d Hd. destruct (H a d Hd) as (_ & Ht & _). exact Ht. Qed.

(* [run_ok] holds after every prefix of every run from a well-formed genesis in which executed
   staking transactions carry fresh hashes and parameter documents are [doc_ok].  Neither the
   supply bound, nor [txs_ok], nor BeginBlock / EndBlock succeeding is needed. *)
Theorem run_ok_reachable g ops :
  genesis_ok g → fresh_run (init_chain g) ops → opts_ok ops →
  ∀ pre, pre `prefix_of` ops → run_ok (srun (init_chain g) pre).
Proof.
  intros (Hg & Hlen & Hpw & _) Hfresh Hok pre Hpre.
  pose proof (opts_ok_prefix _ _ Hpre Hok) as Hokp. destruct Hpre as [post ->].
  split; [|split; [|split]].
  - apply hashes_unique_reachable; [exact Hlen|]. eapply fresh_run_prefix. exact Hfresh.
  - apply dels_ok_totals_ok. apply dels_ok_reachable.
  - apply powers_ok_run; [apply init_chain_docs_inv; exact Hg|apply init_chain_powers_ok; exact Hpw|exact Hokp].
  - apply (params_ok_reachable g pre Hg Hokp pre). reflexivity.
Qed.
Print Assumptions run_ok_reachable.

(* with the history and supply hypotheses of C02_history, which are not used *)
Corollary run_ok_reachable_hist g ops s p gh :
  hrun (init_chain g, PIdle, ghost0) ops = Some (s, p, gh) →
  genesis_ok g → fresh_run (init_chain g) ops → txs_ok ops → opts_ok ops →
  supply (work (init_chain g)) + gh_withdrawn gh < supply_bound →
  ∀ pre, pre `prefix_of` ops → run_ok (srun (init_chain g) pre).
Proof. intros _ Hg Hf _ Ho _. apply run_ok_reachable; assumption. Qed.

(* ================================================================== C02 without run hypotheses *)
Theorem C02_closed g ops s p gh :
  hrun (init_chain g, PIdle, ghost0) ops = Some (s, p, gh) →
  genesis_ok g → fresh_run (init_chain g) ops → txs_ok ops → opts_ok ops →
  supply (work (init_chain g)) + gh_withdrawn gh < supply_bound →
  s = srun (init_chain g) ops ∧
  C02_equation g s p gh ∧
  bal_range (work s) ∧
  (∀ a, 0 ≤ bal_of (work s) a < supply_bound) ∧
  0 ≤ gh_withdrawn gh ∧ 0 ≤ gh_slashed gh ∧ 0 ≤ gh_burned gh.
Proof.
  intros Hrun Hg Hfresh Htx Hok Hbound.
  apply (C02_history g ops s p gh Hrun); [|exact Htx| |exact Hbound].
  - apply run_ok_reachable; assumption.
  - apply init_chain_bal_range. apply Hg.
Qed.
Print Assumptions C02_closed.

(* ================================================================== C09 without run hypotheses *)

(* rewards withdrawn by the successful deliveries of a run: the [gh_withdrawn] component of the
   ghost state, as a total function of the run (it does not presuppose that BeginBlock / EndBlock
   answer Ok) *)
Definition minted1 (s : state) (o : sop) : Z :=
  match o with
  | SDeliver t => match (deliver s t).2 with Ok _ => withdrawn_of t | _ => 0 end
  | _ => 0
  end.
Fixpoint minted (s : state) (ops : list sop) : Z :=
  match ops with [] => 0 | o :: r => minted1 s o + minted (sstep s o) r end.

Lemma hstep_minted s p gh o s' p' gh' :
  hstep (s, p, gh) o = Some (s', p', gh') → gh_withdrawn gh' = gh_withdrawn gh + minted1 s o.
Proof.
  unfold hstep, minted1. destruct p, o as [hd|t| |]; try discriminate.
  - destruct (h_height hd =? last_height s + 1); [|discriminate].
    destruct (begin_block s hd) as [s1 [x|e|pp]]; [|discriminate..]. intros [= _ _ <-]. cbn. lia.
  - destruct (deliver s t) as [s1 [x|e|pp]]; intros [= _ _ <-]; cbn; lia.
  - destruct (end_block s) as [s1 [x|e|pp]]; [|discriminate..]. intros [= _ _ <-]. cbn. lia.
  - intros [= _ _ <-]. lia.
Qed.

Lemma hrun_minted ops : ∀ s p gh s' p' gh',
  hrun (s, p, gh) ops = Some (s', p', gh') → gh_withdrawn gh' = gh_withdrawn gh + minted s ops.
Proof.
  induction ops as [|o ops IH]; intros s p gh s' p' gh'; cbn [hrun minted].
  - intros [= _ _ <-]. lia.
  - destruct (hstep (s, p, gh) o) as [[[s1 p1] gh1]|] eqn:E; [|discriminate].
    intros H. pose proof (hstep_sstep _ _ _ _ _ _ _ E) as ->.
    rewrite (IH _ _ _ _ _ _ H), (hstep_minted _ _ _ _ _ _ _ E). lia.
Qed.

Lemma minted1_nonneg s o : match o with SDeliver t => payload_wf t | _ => True end → 0 ≤ minted1 s o.
Proof.
  unfold minted1. destruct o as [hd|t| |]; try lia. intros Hp.
  destruct ((deliver s t).2); try lia. apply withdrawn_of_nonneg. exact Hp.
Qed.

Lemma minted_nonneg ops : txs_ok ops → ∀ s, 0 ≤ minted s ops.
Proof.
  induction ops as [|o ops IH]; intros Htx s; cbn [minted]; [lia|].
  apply Forall_cons in Htx as [Ho Htx]. specialize (IH Htx (sstep s o)).
  assert (0 ≤ minted1 s o); [|lia]. apply minted1_nonneg. destruct o; try exact I. apply Ho.
Qed.

(* an input-only upper bound: everything the withdrawal transactions of the list ask for *)
Definition requested (ops : list sop) : Z :=
  sumZ_with (λ o, match o with SDeliver t => withdrawn_of t | _ => 0 end) ops.

Lemma requested_cons o r :
  requested (o :: r) = match o with SDeliver t => withdrawn_of t | _ => 0 end + requested r.
Proof. reflexivity. Qed.

Lemma minted_le_requested ops : txs_ok ops → ∀ s, minted s ops ≤ requested ops.
Proof.
  induction ops as [|o ops IH]; intros Htx s; cbn [minted]; [unfold requested; cbn; lia|].
  apply Forall_cons in Htx as [Ho Htx]. specialize (IH Htx (sstep s o)).
  rewrite requested_cons.
  assert (minted1 s o ≤ match o with SDeliver t => withdrawn_of t | _ => 0 end); [|lia].
  unfold minted1. destruct o as [hd|t| |]; try lia.
  destruct Ho as (_ & Hp & _). pose proof (withdrawn_of_nonneg _ Hp). destruct ((deliver s t).2); lia.
Qed.

(* ---- the facts InvPanic takes from C02 / C11, from the theorems above *)
Lemma powers_ok_bonded l st : powers_ok l → st ∈ bonded_stakes l → 0 ≤ s_power st < two63.
Proof. intros Hp Hst. apply Hp, elem_of_app. left. exact Hst. Qed.

Lemma supply_parts_nonneg l :
  bal_range l → powers_ok l → 0 ≤ total_balance l ∧ 0 ≤ bonded_power l ∧ 0 ≤ frozen_power l.
Proof.
  intros Hb Hp. destruct (InvPanic.total_balance_ge l) as [HT _]; [intros a x Hx; apply Hb in Hx; lia|].
  destruct (powers_ok_parts l Hp) as (HB & HF & _). split; [exact HT|]. split; assumption.
Qed.

(* the two phase vocabularies *)
Definition phase_rel (ph : InvPanic.phase) (p : phase) : Prop :=
  match ph, p with
  | InvPanic.Idle, PIdle | InvPanic.InBlock, POpen | InvPanic.Ended, PEnded => True
  | _, _ => False
  end.

Lemma hstep_total ph n s p gh o r :
  InvPanic.phase_inv ph n s → InvPanic.bracketed ph n (o :: r) → phase_rel ph p →
  InvPanic.step_answers s o →
  ∃ p' gh', hstep (s, p, gh) o = Some (sstep s o, p', gh') ∧ phase_rel (InvPanic.next_phase ph n o).1 p'.
Proof.
  intros (_ & Hn & Hlast & _) Hbr Hrel Ha.
  destruct ph, o as [hd|t| |]; cbn [InvPanic.bracketed] in Hbr; try contradiction;
    destruct p; cbn [phase_rel] in Hrel; try contradiction;
    unfold hstep; cbn [sstep InvPanic.step_answers InvPanic.next_phase fst] in *.
  - destruct Hbr as (Hh & _).
    assert (Eh : (h_height hd =? last_height s + 1) = true) by (apply Z.eqb_eq; lia). rewrite Eh.
    destruct (begin_block s hd) as [s1 res]. cbn [fst snd] in *. destruct Ha as [x ->].
    eexists _, _. split; [reflexivity|exact I].
  - destruct (deliver s t) as [s1 [x|e|pp]]; cbn [fst]; eexists _, _; (split; [reflexivity|exact I]).
  - destruct (end_block s) as [s1 res]. cbn [fst snd] in *. destruct Ha as [x ->].
    eexists _, _. split; [reflexivity|exact I].
  - eexists _, _. split; [reflexivity|exact I].
Qed.

(* what holds in every state of such a run: C11 bookkeeping, balances and powers in range, and
   the supply below 2^63 RIGO -- the facts InvPanic's run theorem takes from outside *)
Definition reach_ok (s : state) : Prop :=
  dels_ok (work s) ∧ bal_range (work s) ∧ powers_ok (work s) ∧ supply (work s) < two63 * amountPerPower.

Lemma reach_ok_here S0 s p gh W :
  hist_inv S0 (s, p, gh) → run_ok s → dels_ok (work s) → gh_withdrawn gh ≤ W → S0 + W < supply_bound →
  reach_ok s.
Proof.
  intros Hh (_ & _ & Hpw & _) Hdl HW Hb.
  destruct (hist_inv_bal S0 s p gh W Hh Hpw HW) as (_ & Hpend & Hsup & _).
  split; [exact Hdl|]. split; [apply Hh|]. split; [exact Hpw|]. unfold supply_bound in Hb. lia.
Qed.

Lemma reach_ok_ext_ok s : reach_ok s → InvPanic.ext_ok s.
Proof. intros (H1 & H2 & H3 & H4). apply InvPanic.ext_ok_from_C02_C11; assumption. Qed.

Lemma along_split (Q : state → Prop) ops : ∀ s, along Q s ops → ∀ pre post, ops = pre ++ post → Q (srun s pre).
Proof.
  induction ops as [|o r IH]; intros s H pre post E.
  - destruct pre; [|discriminate]. apply H.
  - destruct pre as [|o' pre]; [apply H|]. injection E as <- E. destruct H as [_ H].
    apply (IH _ H pre post E).
Qed.

Lemma closed_run ops : ∀ S0 ph n s p gh,
  InvPanic.phase_inv ph n s → InvPanic.bracketed ph n ops → phase_rel ph p →
  hist_inv S0 (s, p, gh) → along run_ok s ops → along (λ s, dels_ok (work s)) s ops →
  txs_ok ops → S0 + gh_withdrawn gh + minted s ops < supply_bound →
  InvPanic.run_answers s ops ∧ (∃ s' p' gh', hrun (s, p, gh) ops = Some (s', p', gh')) ∧ along reach_ok s ops.
Proof.
  induction ops as [|o r IH]; intros S0 ph n s p gh Hinv Hbr Hrel Hh Hok Hdl Htx Hbound.
  { split; [exact I|]. split; [eexists _, _, _; reflexivity|]. split; [|exact I].
    cbn [minted] in Hbound. apply (reach_ok_here S0 s p gh (gh_withdrawn gh) Hh); [apply Hok|apply Hdl|lia|lia]. }
  cbn [along] in Hok, Hdl. destruct Hok as [Hok Hokr]. destruct Hdl as [Hdl Hdlr].
  apply Forall_cons in Htx as [Ho Htx]. cbn [minted] in Hbound.
  pose proof (minted_nonneg r Htx (sstep s o)) as Hm0.
  assert (Hm1 : 0 ≤ minted1 s o) by (apply minted1_nonneg; destruct o; try exact I; apply Ho).
  assert (Hreach : reach_ok s).
  { apply (reach_ok_here S0 s p gh (gh_withdrawn gh) Hh); [exact Hok|exact Hdl|lia|lia]. }
  pose proof (reach_ok_ext_ok s Hreach) as Hext.
  destruct (InvPanic.step_inv ph n s o r Hinv Hbr Hext) as (Ha & Hinv' & Hbr').
  destruct (hstep_total ph n s p gh o r Hinv Hbr Hrel Ha) as (p' & gh' & Hst & Hrel').
  pose proof (hstep_minted _ _ _ _ _ _ _ Hst) as Hgw.
  assert (Hh' : hist_inv S0 (sstep s o, p', gh')).
  { apply (hist_step S0 s p gh o _ _ _ Hst Hok Ho Hh). lia. }
  destruct (IH S0 _ _ (sstep s o) p' gh' Hinv' Hbr' Hrel' Hh' Hokr Hdlr Htx ltac:(lia))
    as (Hans & (s' & p'' & gh'' & Hrun) & Hal).
  split; [split; assumption|]. split; [|split; assumption].
  exists s', p'', gh''. cbn [hrun]. rewrite Hst. exact Hrun.
Qed.

Lemma bracketed_opts_ok ops : ∀ ph n, InvPanic.bracketed ph n ops → opts_ok ops.
Proof.
  induction ops as [|o r IH]; intros ph n Hbr; [constructor|].
  destruct ph, o as [hd|t| |]; cbn [InvPanic.bracketed] in Hbr; try contradiction.
  - destruct Hbr as (_ & _ & Hbr). constructor; [exact I|eapply IH; exact Hbr].
  - destruct Hbr as ((_ & _ & _ & Hpp) & Hbr). constructor; [|eapply IH; exact Hbr].
    intros _. unfold InvPanic.proposal_params_ok in Hpp. destruct (t_payload t); try exact I.
    intros _ o q Ho Hq. rewrite Forall_forall in Hpp. apply (Hpp o Ho q Hq).
  - constructor; [exact I|eapply IH; exact Hbr].
  - constructor; [exact I|eapply IH; exact Hbr].
Qed.

(* On a well-bracketed list the history function [hrun] never returns None,
   every BeginBlock and EndBlock answers Ok and no DeliverTx panics.  [bracketed] carries the
   hypotheses on the transactions (Go-typed fields, payload kind, parse flag, [doc_ok] documents),
   [txs_ok] adds: withdrawal requests are uint256 and no EVM execution succeeds. *)
Theorem closed_run_total g ops :
  genesis_ok g → InvPanic.bracketed InvPanic.Idle 0 ops → fresh_run (init_chain g) ops → txs_ok ops →
  supply (work (init_chain g)) + minted (init_chain g) ops < supply_bound →
  InvPanic.run_answers (init_chain g) ops ∧
  (∃ s p gh, hrun (init_chain g, PIdle, ghost0) ops = Some (s, p, gh) ∧ gh_withdrawn gh = minted (init_chain g) ops) ∧
  (∀ pre post, ops = pre ++ post → reach_ok (srun (init_chain g) pre)).
Proof.
  intros Hg Hbr Hfresh Htx Hbound.
  pose proof (bracketed_opts_ok _ _ _ Hbr) as Hopts.
  pose proof (run_ok_reachable g ops Hg Hfresh Hopts) as Hrok.
  pose proof Hg as (Hgp & _ & _ & Hbal).
  destruct (closed_run ops (supply (work (init_chain g))) InvPanic.Idle 0 (init_chain g) PIdle ghost0)
    as (Hans & (s & p & gh & Hrun) & Hal).
  - apply InvPanic.init_chain_inv. exact Hgp.
  - exact Hbr.
  - exact I.
  - apply hist_inv_genesis. apply init_chain_bal_range. exact Hbal.
  - apply along_prefixes. exact Hrok.
  - apply along_prefixes. intros pre _. apply dels_ok_reachable.
  - exact Htx.
  - cbn [ghost0 gh_withdrawn]. lia.
  - split; [exact Hans|]. split; [|apply along_split; exact Hal]. exists s, p, gh. split; [exact Hrun|].
    rewrite (hrun_minted _ _ _ _ _ _ _ Hrun). cbn. lia.
Qed.
Print Assumptions closed_run_total.

Theorem C09_closed g ops :
  genesis_ok g → InvPanic.bracketed InvPanic.Idle 0 ops → fresh_run (init_chain g) ops → txs_ok ops →
  supply (work (init_chain g)) + minted (init_chain g) ops < supply_bound →
  InvPanic.run_answers (init_chain g) ops.
Proof. intros Hg Hbr Hf Htx Hb. apply (closed_run_total g ops Hg Hbr Hf Htx Hb). Qed.
Print Assumptions C09_closed.

(* the bound stated on inputs only: genesis supply plus everything the list's withdrawals request *)
Corollary C09_closed_requested g ops :
  genesis_ok g → InvPanic.bracketed InvPanic.Idle 0 ops → fresh_run (init_chain g) ops → txs_ok ops →
  supply (work (init_chain g)) + requested ops < supply_bound →
  InvPanic.run_answers (init_chain g) ops.
Proof.
  intros Hg Hbr Hf Htx Hb. apply C09_closed; try assumption.
  pose proof (minted_le_requested ops Htx (init_chain g)). lia.
Qed.

(* the bound stated on the ghost of a given history, as in C02_closed *)
Corollary C09_closed_hist g ops s p gh :
  hrun (init_chain g, PIdle, ghost0) ops = Some (s, p, gh) →
  genesis_ok g → InvPanic.bracketed InvPanic.Idle 0 ops → fresh_run (init_chain g) ops → txs_ok ops →
  supply (work (init_chain g)) + gh_withdrawn gh < supply_bound →
  InvPanic.run_answers (init_chain g) ops.
Proof.
  intros Hrun Hg Hbr Hf Htx Hb. apply C09_closed; try assumption.
  pose proof (hrun_minted _ _ _ _ _ _ _ Hrun) as E. cbn [ghost0 gh_withdrawn] in E. lia.
Qed.

(* ---- the facts of every reachable state in the shared vocabulary (delegatee_ok, ranges_ok,
   supply): exactly the run-level hypothesis of InvPanic.run_never_panics_C02_C11 / C09_holds *)
Definition nonce_rng (l : ledgers) : Prop := ∀ a, 0 ≤ nonce_of l a < two64.
Definition cum_rng (l : ledgers) : Prop := ∀ a r, rewards l !! a = Some r → 0 ≤ r_cumulated r < two256.

Lemma nonce_of_nc l a : nonce_of l a = (InvNonce.nc_of l a).1.
Proof. reflexivity. Qed.

Lemma deliver_nonce_rng s t : t_evm t = None → nonce_rng (work s) → nonce_rng (work (deliver s t).1).
Proof.
  intros Hevm H. destruct (deliver s t) as [s' r] eqn:E. cbn [fst]. destruct r as [g|e|p].
  - pose proof (native_of_ok _ _ _ _ E Hevm) as Hn.
    assert (Hp : InvFail.evm_path s t = false) by (rewrite InvNonce.evm_path_spec; exact Hn).
    pose proof (InvNonce.deliver_native_ok_nc _ _ _ _ Hp E) as Hnc.
    intros a. rewrite nonce_of_nc, (Hnc a). destruct (decide (a = t_from t)); cbn [fst].
    + apply Z.mod_pos_bound. apply two64_pos.
    + rewrite <- nonce_of_nc. apply H.
  - intros a. rewrite (InvNonce.nc_eq_nonce _ _ a (InvNonce.deliver_not_ok_nc _ _ _ _ E ltac:(discriminate))). apply H.
  - intros a. rewrite (InvNonce.nc_eq_nonce _ _ a (InvNonce.deliver_not_ok_nc _ _ _ _ E ltac:(discriminate))). apply H.
Qed.

Lemma sstep_nonce_rng s o :
  match o with SDeliver t => t_evm t = None | _ => True end → nonce_rng (work s) → nonce_rng (work (sstep s o)).
Proof.
  intros Ho H. destruct o as [hd|t| |]; cbn [sstep].
  - intros a. rewrite InvNonce.begin_block_nonce. apply H.
  - apply deliver_nonce_rng; assumption.
  - intros a. rewrite InvNonce.end_block_nonce. apply H.
  - exact H.
Qed.

Lemma stake_execute_cum s l t l' : stake_execute s l t = Ok l' → cum_rng l → cum_rng l'.
Proof.
  intros H Hc. destruct ((t_type t =? TRX_STAKING) || (t_type t =? TRX_UNSTAKING)) eqn:Ety.
  - unfold cum_rng. rewrite (InvReward.stake_execute_rewards _ _ _ _ Ety H). exact Hc.
  - apply orb_false_iff in Ety as [E1 E2]. unfold stake_execute in H. rewrite E1, E2 in H.
    destruct (t_payload t) as [| |req| | | |]; try discriminate.
    destruct (rewards l !! t_from t) as [r|] eqn:Er; [|discriminate].
    destruct (r_height r >? b_height (bctx s)); [discriminate|].
    match type of H with match ?x with _ => _ end = _ => destruct x as [l2|] eqn:Ew end; [|discriminate].
    injection H as <-. apply acct_reward_keeps in Ew. unfold cum_rng. rewrite (keeps_rewards _ _ _ Ew I).
    cbn [rewards set_rewards]. intros a r0 Hr0.
    apply lookup_insert_Some in Hr0 as [[_ <-]|[_ Hr0]]; [cbn [r_cumulated]; apply sub256_range|apply (Hc a r0 Hr0)].
Qed.

Lemma deliver_cum_rng s t : cum_rng (work s) → cum_rng (work (deliver s t).1).
Proof.
  apply (InvFail.deliver_preserves cum_rng).
  - intros l a x H. exact H.
  - intros s0 l t0 l' H E. unfold cum_rng. rewrite (keeps_rewards _ _ _ (gov_execute_keeps _ _ _ _ E) I). exact H.
  - intros l t0 l' H E. unfold cum_rng. rewrite (keeps_rewards _ _ _ (acct_execute_keeps _ _ _ E) I). exact H.
  - intros s0 l t0 l' H E. eapply stake_execute_cum; eassumption.
  - intros l t0 l' g H E. unfold cum_rng. rewrite (keeps_rewards _ _ _ (evm_execute_keeps _ _ _ _ E) I). exact H.
Qed.

Definition mcum (m : gmap addr reward) : Prop := ∀ a r, m !! a = Some r → 0 ≤ r_cumulated r < two256.

Lemma reward_to_cum g h m d m' i' : reward_to g h m d = Ok (m', i') → mcum m → mcum m'.
Proof.
  rewrite reward_to_eq. intros H Hm.
  apply (foldl_res_inv (λ x, mcum x.1) _ _ (res_stuck_reward g h)) with (a := (m, 0)) in H; [exact H| |exact Hm].
  intros [m1 i1] st [m2 i2] _ H1. cbn [fst reward_step]. cbv zeta.
  destruct (reward_issue _ _ h) as [r1|] eqn:Ei; [|discriminate]. intros [= <- _] a r Hr.
  apply lookup_insert_Some in Hr as [[_ <-]|[_ Hr]]; [|apply (H1 a r Hr)].
  unfold reward_issue in Ei. destruct (h <? _); [discriminate|]. injection Ei as <-.
  cbn [r_cumulated]. apply add256_range.
Qed.

Lemma process_votes_cum s l h votes l' issued :
  process_votes s l h votes = Ok (l', issued) → cum_rng l → cum_rng l'.
Proof.
  rewrite process_votes_eq. destruct (ledgers_at s (hgt_of_power h)) as [old|]; [|discriminate]. intros H Hl.
  apply (foldl_res_inv (λ x, cum_rng x.1) _ _ (res_stuck_vote _ _ _)) with (a := (l, 0)) in H; [exact H| |exact Hl].
  intros [l1 i1] [[a pw] signed] [l2 i2] _ H1. cbn [fst vote_step]. destruct signed.
  - destruct (dels old !! a) as [d|]; [|intros [= <- _]; exact H1].
    destruct (negb _); [intros [= <- _]; exact H1|].
    destruct (reward_to _ _ _ _) as [[rw iss]| |] eqn:Er; try discriminate. intros [= <- _].
    exact (reward_to_cum _ _ _ _ _ _ Er H1).
  - intros [= <- _]. unfold jail_step. destruct (dels l1 !! a); [|exact H1]. cbv zeta.
    destruct (count_in_window _ _ _). destruct (_ <? g_minSignedBlocks _); exact H1.
Qed.

Lemma begin_block_cum_rng s hd : cum_rng (work s) → cum_rng (work (begin_block s hd).1).
Proof.
  intros H. destruct (begin_block s hd) as [s' r] eqn:E. cbn [fst].
  assert (H2 : cum_rng (work (begun s hd))).
  { unfold cum_rng. rewrite (keeps_rewards _ _ _ (begun_keeps s hd) I). exact H. }
  apply begin_block_cases in E.
  destruct E as [_|_ _|l issued _ _ Ep|e _ _ _|p _ _ _]; [exact H|exact H2| |exact H2..].
  exact (process_votes_cum _ _ _ _ _ _ Ep H2).
Qed.

Lemma sstep_cum_rng s o : cum_rng (work s) → cum_rng (work (sstep s o)).
Proof.
  intros H. destruct o as [hd|t| |]; cbn [sstep].
  - apply begin_block_cum_rng. exact H.
  - apply deliver_cum_rng. exact H.
  - unfold cum_rng. rewrite InvReward.end_block_rewards. exact H.
  - exact H.
Qed.

Lemma rng_run ops : ∀ s, txs_ok ops → nonce_rng (work s) → cum_rng (work s) →
  nonce_rng (work (srun s ops)) ∧ cum_rng (work (srun s ops)).
Proof.
  unfold srun. induction ops as [|o ops IH]; intros s Htx Hn Hc; cbn [foldl]; [split; assumption|].
  apply Forall_cons in Htx as [Ho Htx]. apply IH; [exact Htx| |apply sstep_cum_rng; exact Hc].
  apply sstep_nonce_rng; [|exact Hn]. destruct o; try exact I. apply Ho.
Qed.

Lemma init_chain_rng g : nonce_rng (work (init_chain g)) ∧ cum_rng (work (init_chain g)).
Proof.
  split.
  - intros a. unfold nonce_of, acct_of. pose proof two64_pos.
    destruct (accts (work (init_chain g)) !! a) as [x|] eqn:E; simpl; [|lia].
    destruct (init_chain_accts g a x E) as [->|(h & _ & _ & Hx)]; [simpl; lia|rewrite Hx; lia].
  - intros a r Hr. rewrite InvReward.init_chain_rewards, lookup_empty in Hr. discriminate.
Qed.

Lemma ranges_ok_intro l : bal_range l → nonce_rng l → powers_ok l → cum_rng l → ranges_ok l.
Proof.
  intros Hb Hn Hp Hc. split; [|split; [exact Hp|exact Hc]].
  intros a x Hx. split; [apply (Hb a x Hx)|].
  specialize (Hn a). unfold nonce_of, acct_of in Hn. rewrite Hx in Hn. exact Hn.
Qed.

Lemma reach_ok_ranges g pre :
  txs_ok pre → reach_ok (srun (init_chain g) pre) → ranges_ok (work (srun (init_chain g) pre)).
Proof.
  intros Htx (_ & Hbal & Hpw & _). destruct (init_chain_rng g) as [Hn0 Hc0].
  destruct (rng_run pre (init_chain g) Htx Hn0 Hc0) as [Hn Hc]. apply ranges_ok_intro; assumption.
Qed.

Theorem reach_facts g ops :
  genesis_ok g → InvPanic.bracketed InvPanic.Idle 0 ops → fresh_run (init_chain g) ops → txs_ok ops →
  supply (work (init_chain g)) + minted (init_chain g) ops < supply_bound →
  ∀ pre post, ops = pre ++ post →
    let l := work (srun (init_chain g) pre) in
    (∀ a d, dels l !! a = Some d → delegatee_ok a d) ∧ ranges_ok l ∧ supply l < two63 * amountPerPower.
Proof.
  intros Hg Hbr Hf Htx Hb pre post E. cbv zeta.
  destruct (closed_run_total g ops Hg Hbr Hf Htx Hb) as (_ & _ & Hreach). specialize (Hreach pre post E).
  assert (Htxp : txs_ok pre) by (rewrite E in Htx; apply Forall_app in Htx as [H _]; exact H).
  split; [apply Hreach|]. split; [apply reach_ok_ranges; assumption|apply Hreach].
Qed.
Print Assumptions reach_facts.

(* ================================================================== fresh_run from the transaction hashes *)
(* [fresh_run] still mentions the states of the run.  It follows from a condition on the list alone:
   the hashes of the staking-type transactions are pairwise distinct and none is 0 (the hash every
   genesis stake carries).  Transaction hashes are SHA-256 of the signed bytes, which cover sender and
   nonce, so this is collision freeness of the hash on the submitted transactions. *)
Fixpoint stake_hashes (ops : list sop) : list hash :=
  match ops with
  | [] => []
  | SDeliver t :: r => if t_type t =? TRX_STAKING then t_hash t :: stake_hashes r else stake_hashes r
  | _ :: r => stake_hashes r
  end.
Definition hashes_fresh (ops : list sop) : Prop := NoDup (0%N :: stake_hashes ops).

Lemma stake_hashes_app l k : stake_hashes (l ++ k) = stake_hashes l ++ stake_hashes k.
Proof.
  induction l as [|o l IH]; [reflexivity|]. cbn [app stake_hashes].
  destruct o as [hd|t| |]; try exact IH. destruct (t_type t =? TRX_STAKING); [cbn [app]; f_equal|]; exact IH.
Qed.

Lemma hashes_fresh_app_l pre post : hashes_fresh (pre ++ post) → hashes_fresh pre.
Proof.
  unfold hashes_fresh. rewrite stake_hashes_app, app_comm_cons. intros H. apply NoDup_app in H as (H & _). exact H.
Qed.

Definition hashes_in (H : list hash) (l : ledgers) : Prop :=
  ∀ st, st ∈ bonded_stakes l ++ frozen_stakes l → s_hash st ∈ H.

Lemma hashes_in_weaken h H l : hashes_in H l → hashes_in (h :: H) l.
Proof. intros Hl st Hst. right. apply Hl. exact Hst. Qed.

Lemma hashes_in_evolves (Q : stake → stake → Prop) R l l' H :
  Qok Q → evolves Q R l l' → hashes_in H l → hashes_in H l'.
Proof.
  intros HQ. apply (all_stakes_evolves (λ st, s_hash st ∈ H)); [|intros x Hx; exact Hx].
  intros x y Hq. rewrite (Q_hash _ HQ _ _ Hq). trivial.
Qed.

Lemma sstep_hashes_in s o H :
  hashes_in H (work s) →
  hashes_in (match o with
             | SDeliver t => if t_type t =? TRX_STAKING then t_hash t :: H else H
             | _ => H end) (work (sstep s o)).
Proof.
  intros Hl. destruct o as [hd|t| |]; cbn [sstep].
  - eapply hashes_in_evolves; [apply Qok_sim|apply begin_block_evolves|exact Hl].
  - apply (all_stakes_deliver (λ st, s_hash st ∈ _)); [intros R x Hx; exact Hx| |].
    + intros ->. left.
    + destruct (t_type t =? TRX_STAKING); [apply hashes_in_weaken|]; exact Hl.
  - eapply hashes_in_evolves; [apply Qok_eq|apply (end_block_evolves s 0)|exact Hl].
  - exact Hl.
Qed.

(* the bookkeeping of one step: the hash of a staking transaction is new, and joins the hashes seen *)
Lemma stake_hashes_step o r H :
  (∀ h, h ∈ H → h ∉ stake_hashes (o :: r)) → NoDup (stake_hashes (o :: r)) →
  match o with SDeliver t => t_type t = TRX_STAKING → t_hash t ∉ H | _ => True end ∧
  (∀ h, h ∈ match o with
             | SDeliver t => if t_type t =? TRX_STAKING then t_hash t :: H else H
             | _ => H end → h ∉ stake_hashes r) ∧
  NoDup (stake_hashes r).
Proof.
  intros Hdis Hnd. destruct o as [hd|t| |]; cbn [stake_hashes] in Hdis, Hnd; try (split; [exact I|split; assumption]).
  destruct (t_type t =? TRX_STAKING) eqn:Ety.
  - apply NoDup_cons in Hnd as [Hnotin Hnd]. split; [|split; [|exact Hnd]].
    + intros _ Hin. apply (Hdis _ Hin). left.
    + intros h Hh. apply elem_of_cons in Hh as [->|Hh]; [exact Hnotin|].
      intros Hin. apply (Hdis h Hh). right. exact Hin.
  - split; [|split; assumption]. intros Hty. apply Z.eqb_neq in Ety. contradiction.
Qed.

Lemma fresh_run_from_hashes ops : ∀ s H,
  hashes_in H (work s) → (∀ h, h ∈ H → h ∉ stake_hashes ops) → NoDup (stake_hashes ops) →
  fresh_run s ops.
Proof.
  induction ops as [|o r IH]; intros s H Hl Hdis Hnd; cbn [fresh_run]; [exact I|].
  destruct (stake_hashes_step o r H Hdis Hnd) as (Hfresh & Hdis' & Hnd').
  split; [|eapply IH; [apply sstep_hashes_in; exact Hl|exact Hdis'|exact Hnd']].
  destruct o as [hd|t| |]; try exact I.
  intros Hty _ st Hst Heq. apply (Hfresh Hty). rewrite <- Heq. apply Hl. exact Hst.
Qed.

Lemma init_chain_hashes_in g : hashes_in [0%N] (work (init_chain g)).
Proof. apply (all_stakes_init (λ st, s_hash st ∈ [0%N])), Forall_forall. intros v _. left. Qed.

Theorem fresh_run_reachable g ops : hashes_fresh ops → fresh_run (init_chain g) ops.
Proof.
  intros Hnd. apply NoDup_cons in Hnd as [H0 Hnd].
  apply (fresh_run_from_hashes ops (init_chain g) [0%N] (init_chain_hashes_in g)); [|exact Hnd].
  intros h Hh. apply elem_of_list_singleton in Hh as ->. exact H0.
Qed.
Print Assumptions fresh_run_reachable.

(* [closed_run_total] with every hypothesis on the inputs: what is minted is at most what is requested *)
Theorem closed_run_inputs g ops :
  genesis_ok g → InvPanic.bracketed InvPanic.Idle 0 ops → hashes_fresh ops → txs_ok ops →
  supply (work (init_chain g)) + requested ops < supply_bound →
  InvPanic.run_answers (init_chain g) ops ∧
  (∃ s p gh, hrun (init_chain g, PIdle, ghost0) ops = Some (s, p, gh) ∧ gh_withdrawn gh = minted (init_chain g) ops) ∧
  (∀ pre post, ops = pre ++ post → reach_ok (srun (init_chain g) pre)).
Proof.
  intros Hg Hbr Hh Htx Hb. pose proof (minted_le_requested ops Htx (init_chain g)) as Hle.
  apply closed_run_total; [exact Hg|exact Hbr|apply fresh_run_reachable; exact Hh|exact Htx|lia].
Qed.

(* C02 and C09 with every hypothesis on the inputs (for C02 the minted bound is on the history's ghost) *)
Corollary C02_closed_inputs g ops s p gh :
  hrun (init_chain g, PIdle, ghost0) ops = Some (s, p, gh) →
  genesis_ok g → hashes_fresh ops → txs_ok ops → opts_ok ops →
  supply (work (init_chain g)) + gh_withdrawn gh < supply_bound →
  s = srun (init_chain g) ops ∧
  C02_equation g s p gh ∧
  bal_range (work s) ∧
  (∀ a, 0 ≤ bal_of (work s) a < supply_bound) ∧
  0 ≤ gh_withdrawn gh ∧ 0 ≤ gh_slashed gh ∧ 0 ≤ gh_burned gh.
Proof.
  intros Hrun Hg Hh Htx Ho Hb. apply (C02_closed g ops s p gh Hrun Hg); try assumption.
  apply fresh_run_reachable. exact Hh.
Qed.

Corollary C09_closed_inputs g ops :
  genesis_ok g → InvPanic.bracketed InvPanic.Idle 0 ops → hashes_fresh ops → txs_ok ops →
  supply (work (init_chain g)) + requested ops < supply_bound →
  InvPanic.run_answers (init_chain g) ops.
Proof.
  intros Hg Hbr Hh Htx Hb. apply C09_closed_requested; try assumption.
  apply fresh_run_reachable. exact Hh.
Qed.
Print Assumptions C09_closed_inputs.

(* C02 over histories with no presupposition at all: the well-bracketed list IS a history (hrun
   answers), and its end state satisfies the C02 equation *)
Theorem C02_closed_total g ops :
  genesis_ok g → InvPanic.bracketed InvPanic.Idle 0 ops → hashes_fresh ops → txs_ok ops →
  supply (work (init_chain g)) + requested ops < supply_bound →
  ∃ s p gh,
    hrun (init_chain g, PIdle, ghost0) ops = Some (s, p, gh) ∧
    s = srun (init_chain g) ops ∧
    C02_equation g s p gh ∧
    bal_range (work s) ∧
    (∀ a, 0 ≤ bal_of (work s) a < supply_bound) ∧
    0 ≤ gh_withdrawn gh ≤ requested ops ∧ 0 ≤ gh_slashed gh ∧ 0 ≤ gh_burned gh.
Proof.
  intros Hg Hbr Hh Htx Hb.
  destruct (closed_run_inputs g ops Hg Hbr Hh Htx Hb) as (_ & (s & p & gh & Hrun & Hgw) & _).
  pose proof (minted_le_requested ops Htx (init_chain g)) as Hle.
  exists s, p, gh. split; [exact Hrun|].
  destruct (C02_closed_inputs g ops s p gh Hrun Hg Hh Htx (bracketed_opts_ok _ _ _ Hbr) ltac:(lia))
    as (H1 & H2 & H3 & H4 & H5 & H6 & H7).
  repeat (split; [assumption|]). split; [lia|]. split; assumption.
Qed.
Print Assumptions C02_closed_total.

(* ================================================================== the hypotheses are satisfiable *)
(* InvSupply's example chain: one validator (11, power 100) and four holders; three blocks with a
   successful transfer, a delegation, a failed transfer, an unstaking in a proposer-less block, a
   signed vote that issues rewards, a reward withdrawal and the refund of the matured stake *)

Lemma hx_genesis_ok : genesis_ok hx_genesis.
Proof.
  split; [zclosed|]. split; [vm_compute; lia|]. split.
  - repeat apply Forall_cons_2; try apply Forall_nil_2; zclosed.
  - repeat apply Forall_cons_2; try apply Forall_nil_2; zclosed.
Qed.

Lemma hx_opts_ok : opts_ok hx_ops.
Proof.
  unfold opts_ok, hx_ops. repeat apply Forall_cons_2; try exact I; try apply Forall_nil_2;
    intros Hty; vm_compute in Hty; discriminate.
Qed.

Lemma hx_hashes_fresh : hashes_fresh hx_ops.
Proof.
  unfold hashes_fresh. replace (stake_hashes hx_ops) with [102%N] by (vm_compute; reflexivity).
  apply NoDup_cons. split; [|apply NoDup_singleton]. intros H. apply elem_of_list_singleton in H. discriminate.
Qed.

Lemma hx_fresh : fresh_run (init_chain hx_genesis) hx_ops.
Proof. apply fresh_run_reachable. exact hx_hashes_fresh. Qed.

(* the run itself is evaluated in InvSupply.C02_history_example *)
Lemma hx_run :
  hrun (init_chain hx_genesis, PIdle, ghost0) hx_ops =
  Some (srun (init_chain hx_genesis) hx_ops, PIdle, {| gh_withdrawn := 5000; gh_slashed := 0; gh_burned := 40000 |}).
Proof.
  destruct C02_history_example as (s & Hrun & _). pose proof (hrun_srun _ _ _ _ _ _ _ Hrun) as ->. exact Hrun.
Qed.

Lemma hx_minted : minted (init_chain hx_genesis) hx_ops = 5000.
Proof. pose proof (hrun_minted _ _ _ _ _ _ _ hx_run) as E. cbn [gh_withdrawn ghost0] in E. lia. Qed.

Lemma hx_requested : requested hx_ops = 5000.
Proof. vm_compute. reflexivity. Qed.

Lemma hx_bound : supply (work (init_chain hx_genesis)) + 5000 < supply_bound.
Proof. destruct C02_history_example as (s & _ & _ & _ & _ & H & _). exact H. Qed.

Lemma hx_bound_requested : supply (work (init_chain hx_genesis)) + requested hx_ops < supply_bound.
Proof. rewrite hx_requested. exact hx_bound. Qed.

Example C02_closed_example :
  ∃ s gh,
    gh = {| gh_withdrawn := 5000; gh_slashed := 0; gh_burned := 40000 |} ∧
    hrun (init_chain hx_genesis, PIdle, ghost0) hx_ops = Some (s, PIdle, gh) ∧
    genesis_ok hx_genesis ∧ fresh_run (init_chain hx_genesis) hx_ops ∧ txs_ok hx_ops ∧ opts_ok hx_ops ∧
    supply (work (init_chain hx_genesis)) + gh_withdrawn gh < supply_bound ∧
    (* the first transfer of block 1 succeeded *)
    (∃ gas, (deliver (srun (init_chain hx_genesis) (take 1 hx_ops))
                     (demo_tx TRX_TRANSFER 1%N 2%N (5 * amountPerPower) 4000 0 PNone 100%N)).2 = Ok gas) ∧
    (* conclusion of C02_closed *)
    C02_equation hx_genesis s PIdle gh ∧ (∀ a, 0 ≤ bal_of (work s) a < supply_bound).
Proof.
  destruct (C02_closed hx_genesis hx_ops _ PIdle _ hx_run hx_genesis_ok hx_fresh hx_txs_ok hx_opts_ok hx_bound)
    as (_ & Heq & _ & Hbal & _).
  exists (srun (init_chain hx_genesis) hx_ops), {| gh_withdrawn := 5000; gh_slashed := 0; gh_burned := 40000 |}.
  split; [reflexivity|]. split; [exact hx_run|]. split; [exact hx_genesis_ok|]. split; [exact hx_fresh|].
  split; [exact hx_txs_ok|]. split; [exact hx_opts_ok|]. split; [exact hx_bound|].
  split; [eexists; vm_compute; reflexivity|]. split; [exact Heq|exact Hbal].
Qed.

Lemma hx_bracketed : InvPanic.bracketed InvPanic.Idle 0 hx_ops.
Proof.
  unfold hx_ops. cbn [InvPanic.bracketed].
  repeat match goal with
  | |- _ ∧ _ => split
  | |- InvPanic.tx_ok (demo_tx TRX_UNSTAKING _ _ _ _ _ _ _) =>
      split; [zclosed|split; [intros _; eexists _, _; reflexivity|split; exact I]]
  | |- InvPanic.tx_ok _ => apply InvPanic.tx_ok_plain; [zclosed|discriminate|discriminate]
  | |- _ = _ => reflexivity
  | |- _ → _ => let H := fresh in intros H; first [lia|exfalso; apply H; reflexivity]
  | |- True => exact I
  end.
Qed.

Example C09_closed_example :
  genesis_ok hx_genesis ∧ InvPanic.bracketed InvPanic.Idle 0 hx_ops ∧ fresh_run (init_chain hx_genesis) hx_ops ∧
  txs_ok hx_ops ∧ supply (work (init_chain hx_genesis)) + minted (init_chain hx_genesis) hx_ops < supply_bound ∧
  minted (init_chain hx_genesis) hx_ops = 5000 ∧ requested hx_ops = 5000 ∧
  InvPanic.run_answers (init_chain hx_genesis) hx_ops.
Proof.
  assert (Hb : supply (work (init_chain hx_genesis)) + minted (init_chain hx_genesis) hx_ops < supply_bound)
    by (rewrite hx_minted; exact hx_bound).
  split; [exact hx_genesis_ok|]. split; [exact hx_bracketed|]. split; [exact hx_fresh|]. split; [exact hx_txs_ok|].
  split; [exact Hb|]. split; [exact hx_minted|]. split; [exact hx_requested|].
  exact (C09_closed _ _ hx_genesis_ok hx_bracketed hx_fresh hx_txs_ok Hb).
Qed.

Example closed_inputs_example :
  genesis_ok hx_genesis ∧ InvPanic.bracketed InvPanic.Idle 0 hx_ops ∧ hashes_fresh hx_ops ∧ txs_ok hx_ops ∧
  supply (work (init_chain hx_genesis)) + requested hx_ops < supply_bound ∧
  InvPanic.run_answers (init_chain hx_genesis) hx_ops ∧
  ∃ s p gh, hrun (init_chain hx_genesis, PIdle, ghost0) hx_ops = Some (s, p, gh) ∧ C02_equation hx_genesis s p gh.
Proof.
  split; [exact hx_genesis_ok|]. split; [exact hx_bracketed|]. split; [exact hx_hashes_fresh|].
  split; [exact hx_txs_ok|]. split; [exact hx_bound_requested|].
  split; [exact (C09_closed_inputs _ _ hx_genesis_ok hx_bracketed hx_hashes_fresh hx_txs_ok hx_bound_requested)|].
  destruct (C02_closed_total _ _ hx_genesis_ok hx_bracketed hx_hashes_fresh hx_txs_ok hx_bound_requested)
    as (s & p & gh & Hrun & _ & Heq & _).
  exists s, p, gh. split; assumption.
Qed.
