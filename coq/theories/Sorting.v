(* Sorting.v — uniqueness of the sorted permutation under a strict total order.

   Go's sort.Sort is not stable and its algorithm (pdqsort) is not modelled.  What sort.Sort
   guarantees (for a Less that is a strict weak order) is only that the result is a permutation
   of the input on which sort.IsSorted holds, i.e. no element is Less than its predecessor
   ([go_sorted] below).  This file proves that this is enough: if Less is a strict total order on
   the elements of the list, there is exactly one such result, and the insertion sort [isort]
   computes it.  ValSet.v sorts with [isort]; Spec.v sorts with std++'s merge_sort, and
   InvValSet.sort_power_dg shows through [sort_unique] that both return it. *)
From Coq Require Import List Bool Sorted Permutation Lia.
From Coq Require Import RelationClasses.
Import ListNotations.

Lemma StronglySorted_NoDup {A} (R : A -> A -> Prop) l :
  (forall a, ~ R a a) -> StronglySorted R l -> NoDup l.
Proof.
  intros Hirr. induction 1 as [|a l Hs IH Hf]; constructor; [|exact IH].
  intros Hin. rewrite Forall_forall in Hf. exact (Hirr a (Hf a Hin)).
Qed.

Section StrictOrder.
  Variable A : Type.
  Variable lt : A -> A -> bool.
  Hypothesis lt_irrefl : forall a, lt a a = false.
  Hypothesis lt_trans : forall a b c, lt a b = true -> lt b c = true -> lt a c = true.

  Definition ltP (a b : A) : Prop := lt a b = true.
  (* "b is not Less than a": the relation sort.IsSorted checks between neighbours *)
  Definition geP (a b : A) : Prop := lt b a = false.

  Lemma lt_asym a b : lt a b = true -> lt b a = false.
  Proof.
    intros Hab. destruct (lt b a) eqn:Hba; [|reflexivity].
    pose proof (lt_irrefl a) as Hi.
    rewrite (lt_trans _ _ _ Hab Hba) in Hi. discriminate Hi.
  Qed.

  Theorem sorted_perm_unique (l1 l2 : list A) :
    StronglySorted ltP l1 -> StronglySorted ltP l2 -> Permutation l1 l2 -> l1 = l2.
  Proof.
    revert l2. induction l1 as [|a l1 IH]; intros l2 Hs1 Hs2 Hp.
    - apply Permutation_nil in Hp. symmetry; exact Hp.
    - destruct l2 as [|b l2].
      + symmetry in Hp. apply Permutation_nil in Hp. discriminate Hp.
      + apply StronglySorted_inv in Hs1. destruct Hs1 as [Hs1 Hf1].
        apply StronglySorted_inv in Hs2. destruct Hs2 as [Hs2 Hf2].
        assert (Hab : a = b).
        { assert (Ha : In a (b :: l2)) by (eapply Permutation_in; [exact Hp | left; reflexivity]).
          assert (Hb : In b (a :: l1))
            by (eapply Permutation_in; [symmetry; exact Hp | left; reflexivity]).
          destruct Ha as [Ha | Ha]; [symmetry; exact Ha|].
          destruct Hb as [Hb | Hb]; [exact Hb|].
          rewrite Forall_forall in Hf1, Hf2.
          pose proof (Hf1 _ Hb) as H1. pose proof (Hf2 _ Ha) as H2.
          unfold ltP in H1, H2. pose proof (lt_asym _ _ H1) as H3.
          rewrite H2 in H3. discriminate H3. }
        subst b. f_equal. apply IH; try assumption.
        eapply Permutation_cons_inv; exact Hp.
  Qed.

  Instance ltP_trans : Transitive ltP.
  Proof. intros a b c. unfold ltP. apply lt_trans. Qed.

  Theorem sorted_perm_unique_local (l1 l2 : list A) :
    Sorted ltP l1 -> Sorted ltP l2 -> Permutation l1 l2 -> l1 = l2.
  Proof.
    intros H1 H2. apply sorted_perm_unique; apply Sorted_StronglySorted; auto; exact ltP_trans.
  Qed.

  Theorem sorted_perm_unique_LocallySorted (l1 l2 : list A) :
    LocallySorted ltP l1 -> LocallySorted ltP l2 -> Permutation l1 l2 -> l1 = l2.
  Proof.
    intros H1 H2. apply sorted_perm_unique_local; apply Sorted_LocallySorted_iff; assumption.
  Qed.

  Definition go_sorted (l : list A) : Prop := Sorted geP l.

  (* on the elements of a list, not on A: the orders of ValSet.v are total only among delegatees
     with pairwise distinct addresses *)
  Definition total_on (l : list A) : Prop :=
    forall a b, In a l -> In b l -> a <> b -> lt a b = true \/ lt b a = true.

  Lemma total_on_perm l l' : Permutation l l' -> total_on l -> total_on l'.
  Proof.
    intros Hp Ht a b Ha Hb. apply Ht; eapply Permutation_in; try (symmetry; exact Hp); assumption.
  Qed.

  Lemma total_on_tail a l : total_on (a :: l) -> total_on l.
  Proof. intros Ht x y Hx Hy. apply Ht; right; assumption. Qed.

  Lemma go_sorted_strong (l : list A) :
    NoDup l -> total_on l -> go_sorted l -> StronglySorted ltP l.
  Proof.
    unfold go_sorted. induction l as [|a l IH]; intros Hnd Ht Hs.
    - constructor.
    - apply Sorted_inv in Hs. destruct Hs as [Hs Hhd].
      pose proof (NoDup_cons_iff a l) as Hnc. apply Hnc in Hnd. destruct Hnd as [Hna Hnd].
      pose proof (IH Hnd (total_on_tail _ _ Ht) Hs) as Hss.
      constructor; [exact Hss|].
      destruct l as [|b l]; [constructor|].
      apply HdRel_inv in Hhd. unfold geP in Hhd.
      assert (Hab : lt a b = true).
      { destruct (Ht a b) as [H|H].
        - left; reflexivity.
        - right; left; reflexivity.
        - intros ->. apply Hna. left; reflexivity.
        - exact H.
        - rewrite H in Hhd. discriminate Hhd. }
      constructor; [exact Hab|].
      apply StronglySorted_inv in Hss. destruct Hss as [_ Hfb].
      rewrite Forall_forall in Hfb |- *. intros x Hx.
      unfold ltP in *. eapply lt_trans; [exact Hab | apply Hfb; exact Hx].
  Qed.

  Lemma strong_go_sorted (l : list A) : StronglySorted ltP l -> go_sorted l.
  Proof.
    intros Hs. apply StronglySorted_Sorted in Hs. unfold go_sorted.
    induction Hs as [|a l Hs IH Hhd]; constructor; [exact IH|].
    destruct Hhd as [|b l Hab]; constructor. unfold geP. apply lt_asym. exact Hab.
  Qed.

  Theorem go_sorted_perm_unique (l1 l2 : list A) :
    NoDup l1 -> total_on l1 ->
    go_sorted l1 -> go_sorted l2 -> Permutation l1 l2 -> l1 = l2.
  Proof.
    intros Hnd Ht H1 H2 Hp. apply sorted_perm_unique; [| |exact Hp].
    - apply go_sorted_strong; assumption.
    - apply go_sorted_strong; [|eapply total_on_perm; eassumption|assumption].
      eapply Permutation_NoDup; eassumption.
  Qed.

  Fixpoint insert (x : A) (l : list A) : list A :=
    match l with
    | [] => [x]
    | y :: r => if lt y x then y :: insert x r else x :: y :: r
    end.

  Fixpoint isort (l : list A) : list A :=
    match l with
    | [] => []
    | x :: r => insert x (isort r)
    end.

  Lemma insert_perm x l : Permutation (insert x l) (x :: l).
  Proof.
    induction l as [|y r IH]; simpl.
    - apply Permutation_refl.
    - destruct (lt y x).
      + eapply perm_trans; [apply perm_skip; exact IH | apply perm_swap].
      + apply Permutation_refl.
  Qed.

  Theorem isort_perm l : Permutation (isort l) l.
  Proof.
    induction l as [|x r IH]; simpl.
    - constructor.
    - eapply perm_trans; [apply insert_perm | apply perm_skip; exact IH].
  Qed.

  Lemma insert_go_sorted x l : go_sorted l -> go_sorted (insert x l).
  Proof.
    unfold go_sorted. induction l as [|y r IH]; intros Hs; simpl.
    - repeat constructor.
    - apply Sorted_inv in Hs. destruct Hs as [Hs Hhd].
      destruct (lt y x) eqn:Hyx.
      + constructor; [apply IH; exact Hs|].
        destruct r as [|z r]; simpl.
        * constructor. unfold geP. apply lt_asym. exact Hyx.
        * apply HdRel_inv in Hhd.
          destruct (lt z x); constructor; [exact Hhd|].
          unfold geP. apply lt_asym. exact Hyx.
      + constructor; [constructor; assumption|]. constructor. exact Hyx.
  Qed.

  Theorem isort_go_sorted l : go_sorted (isort l).
  Proof.
    induction l as [|x r IH]; simpl.
    - constructor.
    - apply insert_go_sorted. exact IH.
  Qed.

  Theorem isort_sorted l : NoDup l -> total_on l -> StronglySorted ltP (isort l).
  Proof.
    intros Hnd Ht. apply go_sorted_strong.
    - eapply Permutation_NoDup; [symmetry; apply isort_perm | exact Hnd].
    - eapply total_on_perm; [symmetry; apply isort_perm | exact Ht].
    - apply isort_go_sorted.
  Qed.

  Theorem sort_unique (l l' : list A) :
    NoDup l -> total_on l -> Permutation l' l -> go_sorted l' -> l' = isort l.
  Proof.
    intros Hnd Ht Hp Hs. symmetry. apply go_sorted_perm_unique.
    - eapply Permutation_NoDup; [symmetry; apply isort_perm | exact Hnd].
    - eapply total_on_perm; [symmetry; apply isort_perm | exact Ht].
    - apply isort_go_sorted.
    - exact Hs.
    - eapply perm_trans; [apply isort_perm | symmetry; exact Hp].
  Qed.

  Lemma strong_total_on l : StronglySorted ltP l -> total_on l.
  Proof.
    induction 1 as [|a l Hs IH Hf]; intros x y Hx Hy Hxy; [destruct Hx|].
    rewrite Forall_forall in Hf. destruct Hx as [<-|Hx], Hy as [<-|Hy].
    - contradiction Hxy; reflexivity.
    - left. apply Hf. exact Hy.
    - right. apply Hf. exact Hx.
    - apply IH; assumption.
  Qed.

  Corollary isort_id l : StronglySorted ltP l -> isort l = l.
  Proof.
    intros Hs. symmetry. apply sort_unique.
    - apply (StronglySorted_NoDup ltP); [|exact Hs]. intros a H. unfold ltP in H. rewrite lt_irrefl in H. discriminate H.
    - apply strong_total_on. exact Hs.
    - apply Permutation_refl.
    - apply strong_go_sorted. exact Hs.
  Qed.

  Section Total.
    Hypothesis lt_total : forall a b, a <> b -> lt a b = true \/ lt b a = true.

    Lemma total_on_all l : total_on l.
    Proof. intros a b _ _. apply lt_total. Qed.

    Theorem isort_sorted_total l : NoDup l -> StronglySorted ltP (isort l).
    Proof. intros Hnd. apply isort_sorted; [exact Hnd | apply total_on_all]. Qed.

    Theorem sort_unique_total (l l' : list A) :
      NoDup l -> Permutation l' l -> go_sorted l' -> l' = isort l.
    Proof. intros Hnd. apply sort_unique; [exact Hnd | apply total_on_all]. Qed.
  End Total.
End StrictOrder.

Print Assumptions sorted_perm_unique.
Print Assumptions sorted_perm_unique_local.
Print Assumptions go_sorted_perm_unique.
Print Assumptions isort_perm.
Print Assumptions isort_sorted.
Print Assumptions sort_unique.
Print Assumptions sort_unique_total.
