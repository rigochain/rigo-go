(* InvPanic.v — property C09, model part: no input makes the application panic.
   In Spec.v every explicit panic(...), unchecked type assertion, slice expression and division of
   the Go code that is reachable from ABCI input is a [Panic site] result.  This file shows which
   facts about the state the Go code relies on for none of them to fire, and that these facts are
   kept by well-bracketed runs from genesis.
   Main results:
     deliver_never_panics        (N1) DeliverTx under [state_ok s], [tx_wf t], [payload_kind_ok t]
     begin_block_never_panics    (N2) BeginBlock under [reward_heights_ok s], [heights_ok s], consecutive
                                      heights, no votes before the first commit
     end_block_never_panics      (N2) EndBlock under [0 ≤ maxValidatorCnt], [keys_ok s],
                                      [gov_ok _ (base_of s)], [frozen_owned _ (base_of s)]
     run_never_panics            (N3) well-bracketed runs from [init_chain g]: BeginBlock and EndBlock
                                      succeed, DeliverTx never panics; [run_no_step_panics] the same
                                      as "no step returns Panic"; [run_invariant]: the hypotheses of
                                      N1/N2 are invariants of such runs
     run_never_panics_C02_C11    (N3) the external hypothesis in the shared vocabulary
                                      (delegatee_ok, ranges_ok, supply < 2^63 RIGO at every prefix)
   Witnesses that the hypotheses are needed (all by computation on concrete chains):
     deliver_panics_reachable                 supply of 2^63 RIGO: AmountToPower panics in DeliverTx
     deliver_never_panics_refuted_total       bonded + balance ≥ 2^63 RIGO: "power overflow" panic
     deliver_never_panics_refuted_kind        TRX_UNSTAKING without unstaking payload
     deliver_never_panics_refuted_minstake    minValidatorStake < 1 RIGO: limiter divides by zero
     begin_block_never_panics_refuted_votes   votes in block 1
     end_block_never_panics_refuted_bracket   EndBlock twice
     run_never_panics_refuted_consistent      unparsable option flagged as parsable
     run_never_panics_refuted_params          option with maxValidatorCnt = -1 *)
From Rigo Require Import Base.
From stdpp Require Import gmap sorting.
From Rigo Require Import Spec SpecProps SpecFacts InvFail.
From Rigo Require InvGov InvStake.
Local Open Scope Z_scope.

(* ------------------------------------------------------------------ arithmetic *)
Lemma apP_pos : 0 < amountPerPower.  Proof. reflexivity. Qed.
Lemma two64_apP_lt_two255 : two64 * amountPerPower < two255.  Proof. reflexivity. Qed.

Local Opaque two256 two255 two64 two63.

(* AmountToPower does not panic below 2^63 RIGO (ctrlers/types/gov_params.go:611) *)
Lemma amount_to_power_small a :
  0 ≤ a < two63 * amountPerPower → amount_to_power a = Some (a / amountPerPower).
Proof.
  intros H. pose proof apP_pos as Hp. pose proof two64_double as H64. pose proof two63_pos as H63.
  assert (Hq : 0 ≤ a / amountPerPower < two63).
  { split; [apply Z.div_pos; lia|]. apply Z.div_lt_upper_bound; [exact Hp|lia]. }
  unfold amount_to_power. rewrite (Z.mod_small (a / amountPerPower) two64) by lia.
  rewrite wrap64_small by (unfold in64; lia).
  destruct (a / amountPerPower <? 0) eqn:E; [apply Z.ltb_lt in E; lia|reflexivity].
Qed.

(* ------------------------------------------------------------------ hypotheses on transactions *)
(* Both wire decoders (ctrlers/types/trx.go:170 and :268) build the payload object from the type
   field, so a TRX_UNSTAKING transaction always carries a TrxPayloadUnstaking.  This is the only
   type for which the code uses an unchecked type assertion before any checked one
   (ctrlers/stake/ctrler.go:510, ValidateTrx).  For TRX_SETDOC the checked assertion of
   AcctCtrler.ValidateTrx precedes the unchecked one in execution, see [acct_execute_no_panic]. *)
Definition payload_kind_ok (t : tx) : Prop :=
  t_type t = TRX_UNSTAKING → ∃ h len_ok, t_payload t = PUnstake h len_ok.

(* ------------------------------------------------------------------ what DeliverTx relies on *)
(* balances and bonded powers stay below 2^63 RIGO.  It follows from
   [supply l < two63 * amountPerPower] (C02), stake bookkeeping (C11) and non-negative powers. *)
Definition supply_small (l : ledgers) : Prop :=
  (∀ a x, accts l !! a = Some x → a_bal x < two63 * amountPerPower) ∧
  (∀ a d b x, dels l !! a = Some d → accts l !! b = Some x →
              d_total d * amountPerPower + a_bal x < two63 * amountPerPower).
Definition totals_nonneg (l : ledgers) : Prop := ∀ a d, dels l !! a = Some d → 0 ≤ d_total d.

Definition lim_ok (sl : limiter) : Prop :=
  ∀ objs, lim_objs sl = Some objs → 0 < lim_base sl ∧ 0 < lim_maxcnt sl.

Definition reward_heights_ok (s : state) : Prop :=
  ∀ a r, rewards (work s) !! a = Some r → r_height r ≤ b_height (bctx s).

(* Each conjunct, and the Go line that relies on it:
   params_ok          AmountToPower(MinValidatorStake / MinDelegatorStake), ctrlers/stake/ctrler.go:447,459
                      (panic at ctrlers/types/gov_params.go:612); gasPrice < 2^192 makes the fee check of
                      commonValidation mean "amount ≤ balance"; 0 < maxValidatorCnt, see lim_ok
   supply_small       AmountToPower(tx.Amount) ctrler.go:427 (panic gov_params.go:612);
                      "check overflow" panic ctrler.go:474-475 (totalPower + txPower ≤ 0)
   totals_nonneg      SelfStakeRatio divides by TotalPower + added, delegatee.go:234; ctrler.go:474
   lim_ok             limiter.go:155 (powerObjs[maxValidatorCnt-1]) and limiter.go:163 (/ baseTotalPower)
   reward_heights_ok  Reward.Withdraw panics when rwd.height > h, reward.go:63 *)
Definition state_ok (s : state) : Prop :=
  params_ok (gparams s) ∧ supply_small (work s) ∧ totals_nonneg (work s) ∧ lim_ok (lim s) ∧
  reward_heights_ok s.

(* ------------------------------------------------------------------ StakeLimiter.CheckLimit *)
Lemma check_limit_no_panic sl da dt diff p : lim_ok sl → check_limit sl da dt diff ≠ Panic p.
Proof.
  intros Hl. unfold check_limit.
  destruct (lim_objs sl) as [objs|] eqn:Eo; [|discriminate].
  destruct (Hl objs Eo) as [Hb Hm]. cbv zeta.
  destruct (negb (if diff <=? 0 then true else _)); [discriminate|].
  destruct (negb (_ =? dt)); [discriminate|].
  match goal with |- (if ?c then _ else _) ≠ _ => destruct c eqn:E1 end.
  { exfalso. apply andb_true_iff in E1 as [E1 _]. apply andb_true_iff in E1 as [_ E1].
    apply Z.leb_le in E1. lia. }
  destruct (lim_base sl =? 0) eqn:E2; [apply Z.eqb_eq in E2; lia|].
  match goal with |- (if ?c then _ else _) ≠ _ => destruct c end; [discriminate|].
  match goal with |- (if ?c then _ else _) ≠ _ => destruct c end; discriminate.
Qed.

(* ------------------------------------------------------------------ StakeCtrler.ValidateTrx *)
Lemma params_ok_minval g : params_ok g →
  amount_to_power (g_minValidatorStake g) = Some (g_minValidatorStake g / amountPerPower).
Proof.
  intros (_ & _ & _ & _ & _ & Hv & _). apply amount_to_power_small. pose proof apP_pos. lia.
Qed.
Lemma params_ok_mindel g : params_ok g →
  amount_to_power (g_minDelegatorStake g) = Some (g_minDelegatorStake g / amountPerPower).
Proof. intros (_ & _ & _ & _ & _ & _ & Hd & _). apply amount_to_power_small. exact Hd. Qed.

Lemma stake_validate_no_panic s1 t p :
  params_ok (gparams s1) →
  0 ≤ t_amount t < two63 * amountPerPower →
  (∀ d, dels (work s1) !! t_to t = Some d →
        0 ≤ d_total d ∧ d_total d + t_amount t / amountPerPower < two63) →
  lim_ok (lim s1) → payload_kind_ok t →
  stake_validate s1 t ≠ Panic p.
Proof.
  intros Hg Ha Hd Hl Hk. pose proof two63_pos as H63. unfold stake_validate.
  ty_case t TRX_STAKING E2.
  { rewrite (amount_to_power_small _ Ha), (params_ok_minval _ Hg), (params_ok_mindel _ Hg).
    set (txp := t_amount t / amountPerPower).
    destruct (txp <=? 0) eqn:Eq; [discriminate|]. apply Z.leb_gt in Eq.
    destruct (negb (t_amount t mod amountPerPower =? 0)); [discriminate|].
    destruct (dels (work s1) !! t_to t) as [d|] eqn:Ed.
    - destruct (Hd d eq_refl) as [Hd0 Hd1]. fold txp in Hd1.
      assert (Hw : (wrap64 (d_total d + txp) <=? 0) = false).
      { rewrite wrap64_small by (unfold in64; lia). apply Z.leb_gt. lia. }
      destruct (t_from t =? t_to t)%N.
      + destruct (txp + d_self d <? _); [discriminate|]. rewrite Hw.
        destruct (3 <=? _); [apply check_limit_no_panic; exact Hl|discriminate].
      + destruct ((0 <? _) && (txp <? _)); [discriminate|].
        destruct (d_total d + txp =? 0) eqn:E0; [apply Z.eqb_eq in E0; lia|].
        destruct (_ <? g_minSelfStakeRatio _); [discriminate|]. rewrite Hw.
        destruct (3 <=? _); [apply check_limit_no_panic; exact Hl|discriminate].
    - assert (Ht : txp < two63).
      { apply Z.div_lt_upper_bound; [exact apP_pos|lia]. }
      assert (Hw : (wrap64 (0 + txp) <=? 0) = false).
      { rewrite wrap64_small by (unfold in64; lia). apply Z.leb_gt. lia. }
      destruct (t_from t =? t_to t)%N; [|discriminate].
      destruct (txp + 0 <? _); [discriminate|]. rewrite Hw.
      destruct (3 <=? _); [apply check_limit_no_panic; exact Hl|discriminate]. }
  ty_case t TRX_UNSTAKING E3.
  { destruct (dels (work s1) !! t_to t) as [d|]; [|discriminate].
    destruct (Hk E3) as (h & lo & ->).
    destruct (negb lo); [discriminate|].
    destruct (find_stake h (d_stakes d)) as [s0|]; [|discriminate].
    destruct (negb (s_from s0 =? t_from t)%N); [discriminate|].
    destruct (3 <=? _); [apply check_limit_no_panic; exact Hl|discriminate]. }
  destruct (negb (t_amount t =? 0)); [discriminate|].
  destruct (t_payload t); try discriminate.
  destruct (rewards (work s1) !! t_from t) as [r|]; [|discriminate].
  destruct (r_cumulated r <? req); discriminate.
Qed.

(* validation of the other controllers has no panic site *)
Lemma validated_no_panic s1 recv t p :
  params_ok (gparams s1) →
  0 ≤ t_amount t < two63 * amountPerPower →
  (∀ d, dels (work s1) !! t_to t = Some d →
        0 ≤ d_total d ∧ d_total d + t_amount t / amountPerPower < two63) →
  lim_ok (lim s1) → payload_kind_ok t →
  validated s1 recv t ≠ Panic p.
Proof.
  intros Hg Ha Hd Hl Hk. unfold validated.
  destruct ((t_type t =? TRX_PROPOSAL) || (t_type t =? TRX_VOTING)).
  { destruct (gov_validate s1 t); discriminate. }
  destruct ((t_type t =? TRX_TRANSFER) || (t_type t =? TRX_SETDOC)).
  { destruct (acct_validate t); discriminate. }
  destruct ((t_type t =? TRX_STAKING) || (t_type t =? TRX_UNSTAKING) || (t_type t =? TRX_WITHDRAW)).
  { apply stake_validate_no_panic; assumption. }
  destruct (t_type t =? TRX_CONTRACT); [|discriminate].
  destruct (evm_validate recv t); discriminate.
Qed.

(* ------------------------------------------------------------------ execution *)
Lemma gov_execute_no_panic s l t p : gov_execute s l t ≠ Panic p.
Proof.
  unfold gov_execute. destruct (t_type t =? TRX_PROPOSAL).
  - destruct (t_payload t); discriminate.
  - destruct (t_payload t) as [| | | |ph choice| |]; try discriminate.
    destruct (props l !! ph) as [q|]; [|discriminate].
    destruct (prop_vote q (t_from t) choice); discriminate.
Qed.

(* the unchecked assertion in exeSetDoc is preceded by the checked one of ValidateTrx *)
Lemma acct_execute_no_panic l t p :
  (t_type t = TRX_SETDOC → acct_validate t = None) →
  t_type t = TRX_TRANSFER ∨ t_type t = TRX_SETDOC →
  acct_execute l t ≠ Panic p.
Proof.
  intros Hv Hty. unfold acct_execute.
  destruct (accts l !! t_from t) as [sender|]; [|discriminate].
  destruct (accts l !! t_to t) as [receiver|]; [|discriminate].
  ty_case t TRX_TRANSFER E1.
  - destruct (sub_balance sender (t_amount t)); [|discriminate].
    destruct (add_balance _ (t_amount t)); discriminate.
  - assert (E7 : t_type t = TRX_SETDOC) by tauto. specialize (Hv E7).
    unfold acct_validate in Hv. rewrite E7 in Hv. cbn [Z.eqb TRX_SETDOC Pos.eqb] in Hv.
    destruct (t_payload t); try discriminate.
Qed.

Definition RHm (h : Z) (m : gmap addr reward) : Prop := ∀ a r, m !! a = Some r → r_height r ≤ h.

Lemma stake_execute_no_panic s l t p : RHm (b_height (bctx s)) (rewards l) → stake_execute s l t ≠ Panic p.
Proof.
  intros Hr. unfold stake_execute.
  destruct (t_type t =? TRX_STAKING).
  { destruct (match dels l !! t_to t with Some d => Some d | None => _ end); [|discriminate].
    destruct (accts l !! t_from t) as [x|]; [|discriminate].
    destruct (sub_balance x (t_amount t)); discriminate. }
  destruct (t_type t =? TRX_UNSTAKING).
  { destruct (dels l !! t_to t) as [d|]; [|discriminate].
    destruct (t_payload t) as [|hs lo| | | | |]; try discriminate.
    destruct (find_stake hs (d_stakes d)) as [s0|]; [|discriminate].
    destruct (negb (s_from s0 =? t_from t)%N); [discriminate|].
    destruct (if d_self (del_stake d hs) =? 0 then _ else _) as [d2 fr2].
    destruct (d_total d2 =? 0); discriminate. }
  destruct (t_payload t) as [| |req| | | |]; try discriminate.
  destruct (rewards l !! t_from t) as [r|] eqn:Er; [|discriminate].
  destruct (r_height r >? b_height (bctx s)) eqn:Eh.
  { exfalso. apply Z.gtb_lt in Eh. specialize (Hr _ r Er). lia. }
  destruct (acct_reward _ (t_from t) req); discriminate.
Qed.

Lemma validated_acct_validate s1 recv t lim' :
  validated s1 recv t = Ok lim' → t_type t = TRX_SETDOC → acct_validate t = None.
Proof.
  unfold validated. intros H E7. rewrite E7 in H.
  cbn [Z.eqb orb TRX_SETDOC TRX_PROPOSAL TRX_VOTING TRX_TRANSFER Pos.eqb] in H.
  destruct (acct_validate t); [discriminate|reflexivity].
Qed.

Lemma exec_native_no_panic s2 recv s1 t lim' p :
  validated s1 recv t = Ok lim' → RHm (b_height (bctx s2)) (rewards (work s2)) → exec_native s2 t ≠ Panic p.
Proof.
  intros Hv Hr. unfold exec_native.
  destruct ((t_type t =? TRX_PROPOSAL) || (t_type t =? TRX_VOTING)); [apply gov_execute_no_panic|].
  destruct ((t_type t =? TRX_TRANSFER) || (t_type t =? TRX_SETDOC)) eqn:Ea.
  - apply acct_execute_no_panic.
    + eapply validated_acct_validate; eassumption.
    + apply orb_true_iff in Ea as [Ea|Ea]; apply Z.eqb_eq in Ea; tauto.
  - apply stake_execute_no_panic. exact Hr.
Qed.

(* ------------------------------------------------------------------ N1 *)
Theorem deliver_never_panics s t :
  state_ok s → tx_wf t → payload_kind_ok t → ∀ s' p, deliver s t ≠ (s', Panic p).
Proof.
  intros (Hg & [Hbal Htot] & Hnn & Hl & Hrh) Hwf Hk s' p H. apply deliver_cases in H.
  (* a panic comes out of the type-specific validation or out of native execution *)
  inversion H as [|sender r Hs Hrej|sender lim' s'' r Hs Hv0 Hv1 Hv Hf]; subst.
  - inversion Hrej as [| | |p' Hv0 Hv1 Hv]; subst.
    assert (Hamt : 0 ≤ t_amount t < two63 * amountPerPower ∧ t_amount t ≤ a_bal sender).
    { destruct Hwf as (Ha & _ & Hgas & _). destruct Hg as (Hp & _).
      pose proof (validated_fee _ _ Hv0 (proj1 Hgas) Hp) as Hf.
      pose proof (validated_bal _ _ _ Hv0 Hv1 (proj1 Ha) (proj1 Hgas) Hp) as Hb.
      specialize (Hbal _ _ Hs). lia. }
    destruct Hamt as [Hamt Hle].
    eapply validated_no_panic; [| | | | |exact Hv]; try assumption.
    intros d Hd. cbn [pre work with_work] in Hd. rewrite (keeps_dels _ _ _ (find_or_new_keeps _ _) I) in Hd.
    split; [eapply Hnn; exact Hd|].
    specialize (Htot _ _ _ _ Hd Hs). pose proof apP_pos as Hp.
    assert (Hq : t_amount t / amountPerPower * amountPerPower ≤ t_amount t).
    { rewrite Z.mul_comm. apply Z.mul_div_le. exact Hp. }
    nia.
  - inversion Hf as [r Hst| | |]; subst. inversion Hst as [| |p' _ Hx|]; subst.
    eapply exec_native_no_panic; [exact Hv| |exact Hx].
    cbn [pre work with_work with_lim bctx]. rewrite (keeps_rewards _ _ _ (find_or_new_keeps _ _) I). exact Hrh.
Qed.
Print Assumptions deliver_never_panics.

(* ================================================================== N2: block processing *)
(* ------------------------------------------------------------------ heights *)
(* what BeginBlock relies on besides the reward heights: block heights are consecutive and
   every committed block left one version of the ledgers *)
Definition heights_ok (s : state) : Prop :=
  0 ≤ last_height s ∧ b_height (bctx s) ≤ last_height s + 1 ∧
  last_height s ≤ Z.of_nat (length (committed s)).

(* ------------------------------------------------------------------ BeginBlock: rewards *)
Lemma reward_to_ok g h rw d : 0 ≤ h → RHm h rw →
  ∃ rw' iss, reward_to g h rw d = Ok (rw', iss) ∧ RHm h rw'.
Proof.
  intros Hh Hrw. rewrite reward_to_eq.
  destruct (foldl_res_ok (reward_step g h) (λ x, RHm h x.1) (d_stakes d)) with (a := (rw, 0))
    as ([rw' iss] & E & H); [|exact Hrw|exists rw', iss; split; assumption].
  intros [m issued] s0 _ Hm. cbn [fst] in Hm. unfold reward_step.
  set (amt := mul256 _ _). unfold reward_issue.
  assert (Hle : r_height (default reward0 (m !! s_from s0)) ≤ h).
  { destruct (m !! s_from s0) as [r|] eqn:Er; cbn; [eapply Hm; exact Er|exact Hh]. }
  destruct (h <? _) eqn:E; [apply Z.ltb_lt in E; lia|].
  eexists. split; [reflexivity|]. cbn [fst]. intros a r Hr.
  destruct (decide (a = s_from s0)) as [->|Hne].
  - rewrite lookup_insert in Hr. injection Hr as <-. cbn. lia.
  - rewrite lookup_insert_ne in Hr by congruence. eapply Hm. exact Hr.
Qed.

(* ------------------------------------------------------------------ BeginBlock: votes *)
Lemma vote_step_ok g old h l issued v : 0 ≤ h → RHm h (rewards l) →
  ∃ l' issued', vote_step g old h (Ok (l, issued)) v = Ok (l', issued') ∧ RHm h (rewards l') ∧
    accts l' = accts l ∧ props l' = props l ∧ fprops l' = fprops l ∧ lparams l' = lparams l ∧
    ((dels l' = dels l ∧ frozen l' = frozen l) ∨
     (rewards l' = rewards l ∧ ∃ a d m2, v = (a, v.1.2, false) ∧ dels l !! a = Some d ∧
        let d1 := {| d_addr := d_addr d; d_self := d_self d; d_total := d_total d; d_stakes := d_stakes d; d_marks := m2 |} in
        (dels l' = <[a := d1]> (dels l) ∧ frozen l' = frozen l ∨
         dels l' = delete a (dels l) ∧
         frozen l' = freeze_all (frozen l) (h + g_lazyRewardBlocks g) (d_stakes d)))).
Proof.
  intros Hh Hl. destruct v as [[a pw] signed]. unfold vote_step. destruct signed.
  - destruct (dels old !! a) as [d|].
    2:{ exists l, issued. repeat split; try assumption. left. split; reflexivity. }
    destruct (negb (d_total d =? pw)).
    { exists l, issued. repeat split; try assumption. left. split; reflexivity. }
    destruct (reward_to_ok g h (rewards l) d Hh Hl) as (rw' & iss & -> & Hrw').
    eexists _, _. split; [reflexivity|]. split; [exact Hrw'|]. repeat split. left. split; reflexivity.
  - unfold jail_step. destruct (dels l !! a) as [d|] eqn:Ed.
    2:{ exists l, issued. repeat split; try assumption. left. split; reflexivity. }
    cbv zeta. destruct (count_in_window _ _ _) as [cnt m2].
    destruct (_ <? g_minSignedBlocks g).
    + eexists _, _. split; [reflexivity|]. split; [exact Hl|].
      repeat split. right. split; [reflexivity|]. exists a, d, m2. split; [reflexivity|]. split; [exact Ed|].
      right. cbn. rewrite delete_insert_delete. split; reflexivity.
    + eexists _, _. split; [reflexivity|]. split; [exact Hl|].
      repeat split. right. split; [reflexivity|]. exists a, d, m2. split; [reflexivity|]. split; [exact Ed|].
      left. split; reflexivity.
Qed.

Lemma ledgers_at_some s n :
  n ≤ Z.of_nat (length (committed s)) → is_Some (ledgers_at s n).
Proof.
  intros Hn. unfold ledgers_at.
  destruct (Z.of_nat (length (committed s)) <? n) eqn:E1; [apply Z.ltb_lt in E1; lia|].
  destruct (n <=? 0) eqn:E2; [eexists; reflexivity|]. apply Z.leb_gt in E2.
  apply lookup_lt_is_Some. lia.
Qed.

Lemma hgt_of_power_le h n : 1 ≤ n → h ≤ n + 1 → hgt_of_power h ≤ n.
Proof. intros H1 Hh. unfold hgt_of_power. destruct (h - 4 <=? 0) eqn:E; [lia|]. lia. Qed.

Lemma process_votes_inv (P : ledgers → Prop) s l h votes :
  1 ≤ Z.of_nat (length (committed s)) → h ≤ Z.of_nat (length (committed s)) + 1 →
  (∀ old l issued v, P l → ∃ l' issued', vote_step (gparams s) old h (Ok (l, issued)) v = Ok (l', issued') ∧ P l') →
  P l → ∃ l' issued, process_votes s l h votes = Ok (l', issued) ∧ P l'.
Proof.
  intros Hlen Hh Hstep Hl. rewrite process_votes_eq.
  destruct (ledgers_at_some s (hgt_of_power h)) as [old ->]; [apply hgt_of_power_le; assumption|].
  destruct (foldl_res_ok (vote_step (gparams s) old h) (λ x, P x.1) votes) with (a := (l, 0))
    as ([l' iss] & E & Hl'); [|exact Hl|exists l', iss; split; assumption].
  intros [l1 i1] v _ H1. destruct (Hstep old l1 i1 v H1) as (l2 & i2 & E & H2). exists (l2, i2). split; assumption.
Qed.

Lemma committed_nonempty s : committed s ≠ [] → 1 ≤ Z.of_nat (length (committed s)).
Proof. destruct (committed s); [contradiction|cbn; lia]. Qed.

(* N2, BeginBlock.  Intended statement: under [state_ok s] ...; only the reward heights are
   used, so the theorem is stated with that conjunct alone ([state_ok s] implies it).
   The two hypotheses on the header are Tendermint's discipline: heights are consecutive
   (node/app.go:296 panics otherwise) and the first block carries no LastCommitInfo votes
   (with votes, block 1 asks for ImmutableLedgerAt(1) before any version exists and
   StakeCtrler.BeginBlock returns an error, on which node/app.go:316 panics). *)
Theorem begin_block_never_panics s hd :
  reward_heights_ok s → heights_ok s →
  h_height hd = last_height s + 1 →
  (h_votes hd ≠ [] → committed s ≠ []) →
  ∀ s' p, begin_block s hd ≠ (s', Panic p).
Proof.
  intros Hrh (H0 & Hb & Hc) Hh Hvotes s' p H. apply begin_block_cases in H.
  (* refused for its height, or the vote loop panics *)
  inversion H as [Hne| | | |p' _ Hv Hp]; subst; [contradiction|].
  destruct (process_votes_inv (λ l, RHm (h_height hd) (rewards l)) (begun s hd) (work (begun s hd)) (h_height hd) (h_votes hd))
    as (l' & iss & E & _).
  - apply committed_nonempty, Hvotes, Hv.
  - cbn [begun committed]. lia.
  - intros old l issued v Hl. destruct (vote_step_ok (gparams s) old (h_height hd) l issued v) as (l' & i' & E & Hl' & _);
      [lia|exact Hl|]. exists l', i'. split; assumption.
  - intros a r Hr. rewrite (keeps_rewards _ _ _ (begun_keeps s hd) I) in Hr. apply Hrh in Hr. lia.
  - rewrite E in Hp. discriminate.
Qed.
Print Assumptions begin_block_never_panics.

(* ------------------------------------------------------------------ proposals *)
(* [Q] is what is known about the parameter documents of the options; N2 needs only that they
   parse ([Q := λ _, True]), N3 also that applying them keeps the parameters well-formed *)
Definition option_ok (Q : params → Prop) (o : voption) : Prop := ∃ np, o_params o = Some np ∧ Q np.
Definition prop_ok (Q : params → Prop) (p : proposal) : Prop :=
  p_options p ≠ [] ∧
  (p_opttype p = PROPOSAL_GOVPARAMS → Forall (option_ok Q) (p_options p)) ∧
  (p_opttype p = PROPOSAL_GOVPARAMS → ∀ o, p_major p = Some o → option_ok Q o).
Definition gov_ok (Q : params → Prop) (l : ledgers) : Prop :=
  (∀ k p, props l !! k = Some p → prop_ok Q p) ∧ (∀ k p, fprops l !! k = Some p → prop_ok Q p).

Lemma sort_opts_Forall (P : voption → Prop) l : Forall P l → Forall P (sort_opts l).
Proof. rewrite (proj1 (proj2 (InvGov.sort_opts_spec l))). auto. Qed.
Lemma sort_opts_nonempty l : l ≠ [] → sort_opts l ≠ [].
Proof.
  intros H E. apply H, Permutation_nil. rewrite <- E. exact (proj1 (proj2 (InvGov.sort_opts_spec l))).
Qed.

(* updateMajorOption: options[0] exists (ctrlers/gov/proposal: the slice index panics otherwise) *)
Lemma update_major_ok Q p : prop_ok Q p → ∃ p', update_major p = Ok p' ∧ prop_ok Q p'.
Proof.
  intros (Hne & Hopts & Hmaj). unfold update_major.
  pose proof (sort_opts_nonempty _ Hne) as Hs.
  destruct (sort_opts (p_options p)) as [|o os] eqn:Eo; [contradiction|].
  eexists. split; [reflexivity|]. split; [cbn; discriminate|]. split; cbn.
  - intros Ht. rewrite <- Eo. apply sort_opts_Forall. apply Hopts. exact Ht.
  - intros Ht o' Ho'. destruct (p_majority p <=? o_votes o).
    + injection Ho' as <-. specialize (Hopts Ht). apply (sort_opts_Forall _ _) in Hopts.
      rewrite Eo in Hopts. inversion Hopts; assumption.
    + apply Hmaj; assumption.
Qed.

(* ------------------------------------------------------------------ EndBlock: freezeProposals *)
(* what freezeProposals does to the two proposal ledgers (the rest it keeps: [freeze_proposals_keeps]) *)
Definition freeze_post (Q : params → Prop) (l l' : ledgers) : Prop :=
  (∀ k p, props l' !! k = Some p → props l !! k = Some p) ∧
  (∀ k, is_Some (fprops l !! k) → is_Some (fprops l' !! k)) ∧
  (∀ k p, fprops l' !! k = Some p → fprops l !! k = Some p ∨ prop_ok Q p).

Lemma freeze_post_refl Q l : freeze_post Q l l.
Proof. repeat split; auto. Qed.
Lemma freeze_post_trans Q l1 l2 l3 : freeze_post Q l1 l2 → freeze_post Q l2 l3 → freeze_post Q l1 l3.
Proof.
  intros (E1 & F1 & G1) (E2 & F2 & G2). repeat split; auto.
  intros k p H. destruct (G2 k p H) as [H'|H']; [auto|right; exact H'].
Qed.

Lemma freeze_fold Q h items : NoDup items.*1 → ∀ l,
  (∀ kp, kp ∈ items → is_Some (props l !! kp.1) ∧ prop_ok Q kp.2) →
  ∃ l', foldl (freeze_step h) (Ok l) items = Ok l' ∧ freeze_post Q l l'.
Proof.
  induction items as [|kp items IH]; intros Hnd l Hin; cbn [foldl].
  { exists l. split; [reflexivity|apply freeze_post_refl]. }
  apply NoDup_cons in Hnd as [Hnk Hnd]. cbn [fmap list_fmap] in Hnk.
  destruct (Hin kp (elem_of_list_here _ _)) as [[q Hq] Hok].
  assert (Hstep : ∃ l1, freeze_step h (Ok l) kp = Ok l1 ∧ freeze_post Q l l1 ∧
                        ∀ k, k ≠ kp.1 → props l1 !! k = props l !! k).
  { unfold freeze_step. destruct (p_end kp.2 <? h).
    2:{ exists l. split; [reflexivity|]. split; [apply freeze_post_refl|reflexivity]. }
    rewrite Hq. cbv zeta. destruct (update_major_ok Q kp.2 Hok) as (p' & -> & Hp').
    destruct (p_major p').
    - eexists. split; [reflexivity|]. split.
      + repeat split; cbn.
        * intros k p Hk. apply lookup_delete_Some in Hk. tauto.
        * intros k Hk. apply lookup_insert_is_Some'. right. exact Hk.
        * intros k p Hk. destruct (decide (k = kp.1)) as [->|Hne].
          -- rewrite lookup_insert in Hk. injection Hk as <-. right. exact Hp'.
          -- rewrite lookup_insert_ne in Hk by congruence. left. exact Hk.
      + intros k Hne. cbn. apply lookup_delete_ne. congruence.
    - eexists. split; [reflexivity|]. split.
      + repeat split; cbn; auto. intros k p Hk. apply lookup_delete_Some in Hk. tauto.
      + intros k Hne. cbn. apply lookup_delete_ne. congruence. }
  destruct Hstep as (l1 & -> & Hpost1 & Hother).
  destruct (IH Hnd l1) as (l' & E & Hpost').
  { intros kp' Hkp'. destruct (Hin kp' (elem_of_list_further _ _ _ Hkp')) as [Hs Hp]. split; [|exact Hp].
    rewrite Hother; [exact Hs|]. intros Heq. apply Hnk. rewrite <- Heq.
    apply elem_of_list_fmap. exists kp'. split; [reflexivity|exact Hkp']. }
  exists l'. split; [exact E|]. eapply freeze_post_trans; eassumption.
Qed.

(* ------------------------------------------------------------------ EndBlock: applyProposals *)
Definition apply_post (l l' : ledgers) : Prop := ∀ k p, fprops l' !! k = Some p → fprops l !! k = Some p.

Lemma apply_fold (Q R : params → Prop) g h items : NoDup items.*1 →
  (∀ newp, Q newp → R (merge_params g newp)) → ∀ l np,
  (∀ kp, kp ∈ items → is_Some (fprops l !! kp.1) ∧ prop_ok Q kp.2) →
  (∀ m, np = Some m → R m) →
  ∃ l' np', foldl (apply_step g h) (Ok (l, np)) items = Ok (l', np') ∧ apply_post l l' ∧
            (∀ m, np' = Some m → R m).
Proof.
  intros Hnd HQR. induction items as [|kp items IH]; intros l np Hin Hnp; cbn [foldl].
  { exists l, np. split; [reflexivity|]. split; [intros k p H; exact H|exact Hnp]. }
  apply NoDup_cons in Hnd as [Hnk Hnd]. cbn [fmap list_fmap] in Hnk.
  destruct (Hin kp (elem_of_list_here _ _)) as [[q Hq] (_ & _ & Hmaj)].
  assert (Hstep : ∃ l1 np1, apply_step g h (Ok (l, np)) kp = Ok (l1, np1) ∧ apply_post l l1 ∧
                        (∀ m, np1 = Some m → R m) ∧ ∀ k, k ≠ kp.1 → fprops l1 !! k = fprops l !! k).
  { unfold apply_step. destruct (p_apply kp.2 <=? h).
    2:{ exists l, np. split; [reflexivity|]. split; [intros k p H; exact H|]. split; [exact Hnp|reflexivity]. }
    rewrite Hq. cbv zeta.
    assert (Hdel : apply_post l (set_fprops l (delete kp.1 (fprops l)))).
    { intros k p Hk. cbn in Hk. apply lookup_delete_Some in Hk. tauto. }
    assert (Hne : ∀ k, k ≠ kp.1 → delete kp.1 (fprops l) !! k = fprops l !! k).
    { intros k Hk. apply lookup_delete_ne. congruence. }
    destruct (p_major kp.2) as [o|] eqn:Em.
    2:{ eexists _, _. split; [reflexivity|]. split; [exact Hdel|]. split; [exact Hnp|exact Hne]. }
    destruct (Z.eqb_spec (p_opttype kp.2) PROPOSAL_GOVPARAMS) as [Et|Et].
    2:{ eexists _, _. split; [reflexivity|]. split; [exact Hdel|]. split; [exact Hnp|exact Hne]. }
    destruct (Hmaj Et o eq_refl) as (newp & -> & HQ).
    eexists _, _. split; [reflexivity|]. split; [exact Hdel|]. split; [|exact Hne].
    intros m Hm. injection Hm as <-. apply HQR. exact HQ. }
  destruct Hstep as (l1 & np1 & -> & Hpost1 & Hnp1 & Hother).
  destruct (IH Hnd l1 np1) as (l' & np' & E & Hpost' & Hnp'); [|exact Hnp1|].
  { intros kp' Hkp'. destruct (Hin kp' (elem_of_list_further _ _ _ Hkp')) as [Hs Hp]. split; [|exact Hp].
    rewrite Hother; [exact Hs|]. intros Heq. apply Hnk. rewrite <- Heq.
    apply elem_of_list_fmap. exists kp'. split; [reflexivity|exact Hkp']. }
  exists l', np'. split; [exact E|]. split; [|exact Hnp']. intros k p H. apply Hpost1, Hpost', H.
Qed.

(* ------------------------------------------------------------------ EndBlock: unfreezingStakes *)
Definition accts_mono (A A' : gmap addr account) : Prop := ∀ a, is_Some (A !! a) → is_Some (A' !! a).
Lemma accts_mono_refl A : accts_mono A A.  Proof. intros a H. exact H. Qed.
Lemma accts_mono_trans A B C : accts_mono A B → accts_mono B C → accts_mono A C.
Proof. intros H1 H2 a H. auto. Qed.
Lemma accts_mono_insert A a x : accts_mono A (<[a := x]> A).
Proof. intros b H. apply lookup_insert_is_Some'. right. exact H. Qed.

Lemma power_to_amount_pos p : (sign256 (power_to_amount p) <? 0) = false.
Proof.
  apply sign256_nonneg. unfold power_to_amount, mul256, wrap256.
  pose proof (Z.mod_pos_bound p two64 two64_pos) as Hm. pose proof apP_pos as Ha.
  pose proof two64_apP_lt_two255 as Hb. pose proof two256_double as Hd. pose proof two255_pos.
  rewrite Z.mod_small; nia.
Qed.

Definition unfreeze_post (l l' : ledgers) : Prop :=
  accts_mono (accts l) (accts l') ∧ (∀ k st, frozen l' !! k = Some st → frozen l !! k = Some st).

Lemma unfreeze_fold h items l :
  (∀ kp, kp ∈ items → is_Some (accts l !! s_from kp.2)) →
  ∃ l', foldl (unfreeze_step h) (Ok l) items = Ok l' ∧ unfreeze_post l l'.
Proof.
  intros Hin. apply (foldl_res_ok (unfreeze_step h) (unfreeze_post l)).
  2:{ split; [apply accts_mono_refl|auto]. }
  intros l1 kp Hkp [A F]. unfold unfreeze_step.
  destruct (s_refund kp.2 <=? h).
  2:{ exists l1. split; [reflexivity|]. split; assumption. }
  destruct (A _ (Hin kp Hkp)) as [x Hx]. unfold acct_reward. rewrite Hx. cbn [mbind option_bind].
  unfold add_balance. rewrite power_to_amount_pos. cbn [mbind option_bind].
  eexists. split; [reflexivity|]. split.
  - cbn. eapply accts_mono_trans; [exact A|apply accts_mono_insert].
  - intros k st Hk. cbn in Hk. apply lookup_delete_Some in Hk. apply F. tauto.
Qed.

(* ------------------------------------------------------------------ N2, EndBlock *)
(* the committed proposals are still in the working tree, and so are the frozen ones: only
   freezeProposals / applyProposals remove them, once per block *)
Definition keys_ok (s : state) : Prop :=
  (∀ k, is_Some (props (base_of s) !! k) → is_Some (props (work s) !! k)) ∧
  (∀ k, is_Some (fprops (base_of s) !! k) → is_Some (fprops (work s) !! k)).
(* the owner of every unbonding stake has an account (AcctCtrler.Reward on a missing account
   returns an error, which unfreezingStakes hands to EndBlock; node/app.go:530 panics on it) *)
Definition frozen_owned (A : gmap addr account) (l : ledgers) : Prop :=
  ∀ h st, frozen l !! h = Some st → is_Some (A !! s_from st).

Definition end_post (Q : params → Prop) (s s' : state) : Prop :=
  committed s' = committed s ∧ gparams s' = gparams s ∧ alldels s' = alldels s ∧ lim s' = lim s ∧
  bctx s' = bctx s ∧ last_height s' = last_height s ∧
  accts_mono (accts (work s)) (accts (work s')) ∧ dels (work s') = dels (work s) ∧
  rewards (work s') = rewards (work s) ∧
  (∀ k st, frozen (work s') !! k = Some st → frozen (work s) !! k = Some st) ∧
  (∀ k p, props (work s') !! k = Some p → props (work s) !! k = Some p) ∧
  (∀ k p, fprops (work s') !! k = Some p → fprops (work s) !! k = Some p ∨ prop_ok Q p).

Lemma end_block_ok (Q R : params → Prop) s :
  0 ≤ g_maxValidatorCnt (gparams s) → keys_ok s → gov_ok Q (base_of s) →
  frozen_owned (accts (work s)) (base_of s) →
  (∀ newp, Q newp → R (merge_params (gparams s) newp)) → (∀ m, newparams s = Some m → R m) →
  ∃ s' ups, end_block s = (s', Ok ups) ∧ end_post Q s s' ∧ (∀ m, newparams s' = Some m → R m).
Proof.
  intros Hmax [Hkp Hkf] [Hgp Hgf] Hfo HQR HR. unfold end_block.
  (* each stage succeeds; what it keeps is its footprint, the rest its [_post] *)
  destruct (freeze_fold Q (b_height (bctx s)) _ (NoDup_keys_sorted_items (props (base_of s))) (work s))
    as (l1 & E1 & P1 & F1 & G1).
  { intros [k p] Hin. apply elem_of_sorted_items in Hin. cbn. split; [apply Hkp; eexists; exact Hin|].
    eapply Hgp. exact Hin. }
  rewrite <- freeze_proposals_eq in E1. rewrite E1. apply freeze_proposals_keeps in E1 as K1.
  destruct (apply_fold Q R (gparams s) (b_height (bctx s)) _ (NoDup_keys_sorted_items (fprops (base_of s))) HQR
              l1 (newparams s)) as (l2 & np & E2 & F2 & Hnp); [|exact HR|].
  { intros [k p] Hin. apply elem_of_sorted_items in Hin. cbn. split; [apply F1, Hkf; eexists; exact Hin|].
    eapply Hgf. exact Hin. }
  rewrite <- apply_proposals_eq in E2. rewrite E2. apply apply_proposals_keeps in E2 as K2.
  set (l3o := match b_proposer (bctx s) with Some pa => _ | None => Some l2 end).
  assert (H3 : ∃ l3, l3o = Some l3 ∧ accts_mono (accts l2) (accts l3) ∧ keeps but_accts l2 l3).
  { subst l3o. destruct (b_proposer (bctx s)) as [pa|].
    2:{ exists l2. split; [reflexivity|]. split; [apply accts_mono_refl|apply keeps_refl]. }
    destruct (0 <? sign256 (b_feesum (bctx s))) eqn:Es.
    2:{ exists l2. split; [reflexivity|]. split; [apply accts_mono_refl|apply keeps_refl]. }
    unfold add_balance. apply Z.ltb_lt in Es.
    destruct (sign256 (b_feesum (bctx s)) <? 0) eqn:Es'; [apply Z.ltb_lt in Es'; lia|].
    eexists. split; [reflexivity|]. split; [apply accts_mono_insert|apply keeps_set_acct]. }
  destruct H3 as (l3 & -> & A3 & K3).
  destruct (unfreeze_fold (b_height (bctx s)) (sorted_items (frozen (base_of s))) l3) as (l4 & E4 & A4 & F4).
  { intros [k st] Hin. apply elem_of_sorted_items in Hin. cbn. apply A3.
    rewrite (keeps_accts _ _ _ K2 I), (keeps_accts _ _ _ K1 I). eapply Hfo. exact Hin. }
  rewrite <- unfreeze_eq in E4. rewrite E4. apply unfreeze_keeps in E4 as K4.
  destruct (g_maxValidatorCnt (gparams s) <? 0) eqn:Em; [apply Z.ltb_lt in Em; lia|].
  eexists _, _. split; [reflexivity|]. split; [|exact Hnp].
  unfold end_post. cbn. repeat split.
  - eapply accts_mono_trans; [|exact A4]. rewrite <- (keeps_accts _ _ _ K1 I), <- (keeps_accts _ _ _ K2 I). exact A3.
  - rewrite (keeps_dels _ _ _ K4 I), (keeps_dels _ _ _ K3 I), (keeps_dels _ _ _ K2 I). exact (keeps_dels _ _ _ K1 I).
  - rewrite (keeps_rewards _ _ _ K4 I), (keeps_rewards _ _ _ K3 I), (keeps_rewards _ _ _ K2 I).
    exact (keeps_rewards _ _ _ K1 I).
  - intros k st Hk. apply F4 in Hk.
    rewrite (keeps_frozen _ _ _ K3 I), (keeps_frozen _ _ _ K2 I), (keeps_frozen _ _ _ K1 I) in Hk. exact Hk.
  - intros k p Hk. apply P1.
    rewrite (keeps_props _ _ _ K4 I), (keeps_props _ _ _ K3 I), (keeps_props _ _ _ K2 I) in Hk. exact Hk.
  - intros k p Hk. rewrite (keeps_fprops _ _ _ K4 I), (keeps_fprops _ _ _ K3 I) in Hk. apply G1, F2, Hk.
Qed.

(* Intended statement: under [state_ok s] plus ...; of [state_ok] only [0 ≤ g_maxValidatorCnt]
   is used (selectValidators slices allDelegatees[:maxValidatorCnt]) *)
Theorem end_block_never_panics s :
  0 ≤ g_maxValidatorCnt (gparams s) → keys_ok s → gov_ok (λ _, True) (base_of s) →
  frozen_owned (accts (work s)) (base_of s) →
  ∀ s' p, end_block s ≠ (s', Panic p).
Proof.
  intros Hmax Hk Hg Hf s' p H.
  destruct (end_block_ok (λ _, True) (λ _, True) s Hmax Hk Hg Hf) as (s1 & ups & E & _); [auto|auto|].
  rewrite E in H. discriminate.
Qed.
Print Assumptions end_block_never_panics.

(* ================================================================== N3: runs *)
Definition opt_ok (np : params) : Prop := ∀ cur, params_ok cur → params_ok (merge_params cur np).

(* hypotheses on transactions: the parse flag of a proposal payload is what the harness says it is
   (every option parsed), and the parameter documents keep the parameters in range *)
Definition payload_consistent (t : tx) : Prop :=
  match t_payload t with
  | PProposal _ _ _ _ opts parse_ok => parse_ok = true → Forall (λ o : N * option params, is_Some o.2) opts
  | _ => True end.
Definition proposal_params_ok (t : tx) : Prop :=
  match t_payload t with
  | PProposal _ _ _ _ opts _ => Forall (λ o : N * option params, ∀ np, o.2 = Some np → opt_ok np) opts
  | _ => True end.

Definition dels_owned (A : gmap addr account) (m : gmap addr delegatee) : Prop :=
  ∀ a d st, m !! a = Some d → st ∈ d_stakes d → is_Some (A !! s_from st).
Definition owned (A : gmap addr account) (l : ledgers) : Prop := dels_owned A (dels l) ∧ frozen_owned A l.

(* the part of the invariant that lives in the working ledgers *)
Definition W (h : Z) (l : ledgers) : Prop := gov_ok opt_ok l ∧ owned (accts l) l ∧ RHm h (rewards l).
Definition grows (l l' : ledgers) : Prop :=
  accts_mono (accts l) (accts l') ∧ (∀ k, is_Some (props l !! k) → is_Some (props l' !! k)) ∧
  (∀ k, is_Some (fprops l !! k) → is_Some (fprops l' !! k)).

Lemma grows_refl l : grows l l.
Proof. split; [apply accts_mono_refl|]. split; auto. Qed.
Lemma grows_trans l1 l2 l3 : grows l1 l2 → grows l2 l3 → grows l1 l3.
Proof.
  intros (A1 & B1 & C1) (A2 & B2 & C2). split; [eapply accts_mono_trans; eassumption|]. split; auto.
Qed.

Lemma frozen_owned_mono A A' l : accts_mono A A' → frozen_owned A l → frozen_owned A' l.
Proof. intros Hm H h st Hk. apply Hm. eapply H. exact Hk. Qed.

Lemma owned_mono A A' l : accts_mono A A' → owned A l → owned A' l.
Proof.
  intros Hm [Hd Hf]. split; [|exact (frozen_owned_mono _ _ _ Hm Hf)].
  intros a d st H1 H2. apply Hm. eapply Hd; eassumption.
Qed.

Lemma W_accts h l l' :
  props l' = props l → fprops l' = fprops l → dels l' = dels l → frozen l' = frozen l →
  rewards l' = rewards l → accts_mono (accts l) (accts l') → W h l → W h l' ∧ grows l l'.
Proof.
  intros Ep Ef Ed Efr Er Hm ([Hg1 Hg2] & Ho & Hr). split; [split; [|split]|].
  - split; [rewrite Ep; exact Hg1|rewrite Ef; exact Hg2].
  - apply (owned_mono _ _ _ Hm) in Ho. destruct Ho as [H1 H2]. split; [rewrite Ed; exact H1|unfold frozen_owned; rewrite Efr; exact H2].
  - rewrite Er. exact Hr.
  - split; [exact Hm|]. rewrite Ep, Ef. split; auto.
Qed.

Lemma W_set_acct h l a x : W h l → W h (set_acct l a x) ∧ grows l (set_acct l a x).
Proof. apply W_accts; try reflexivity. apply accts_mono_insert. Qed.

Lemma W_find_or_new h l a : W h l → W h (find_or_new l a).1 ∧ grows l (find_or_new l a).1.
Proof.
  intros H. unfold find_or_new. destruct (accts l !! a); cbn [fst].
  - split; [exact H|apply grows_refl].
  - apply W_set_acct. exact H.
Qed.

Lemma W_step h l l1 l2 : (W h l1 ∧ grows l l1) → (W h l1 → W h l2 ∧ grows l1 l2) → W h l2 ∧ grows l l2.
Proof. intros [H1 G1] H. destruct (H H1) as [H2 G2]. split; [exact H2|eapply grows_trans; eassumption]. Qed.

(* ------------------------------------------------------------------ the EVM path *)
Lemma evm_execute_W h l t l' gas : evm_execute l t = Ok (l', gas) → W h l → W h l' ∧ grows l l'.
Proof.
  unfold evm_execute. intros H Hw. destruct (t_evm t) as [e|]; [|discriminate].
  destruct (negb (e_ok e)); [discriminate|]. injection H as <- _.
  match goal with |- context [foldl ?f l (e_accts e)] =>
    assert (H1 : W h (foldl f l (e_accts e)) ∧ grows l (foldl f l (e_accts e))) end.
  { apply (foldl_inv _ (λ x, W h x ∧ grows l x)); [|split; [exact Hw|apply grows_refl]].
    intros x [[a bal] nonce] _ Hx. eapply W_step; [exact Hx|]. apply W_set_acct. }
  destruct (e_created e) as [c|]; [|exact H1].
  eapply W_step; [exact H1|]. apply W_set_acct.
Qed.

(* ------------------------------------------------------------------ accounts *)
Lemma acct_execute_W h l t l' : acct_execute l t = Ok l' → W h l → W h l' ∧ grows l l'.
Proof.
  unfold acct_execute. intros H Hw.
  destruct (accts l !! t_from t) as [sender|]; [|discriminate].
  destruct (accts l !! t_to t) as [receiver|]; [|discriminate].
  destruct (t_type t =? TRX_TRANSFER).
  - destruct (sub_balance sender (t_amount t)) as [sender'|]; [|discriminate].
    destruct (add_balance _ (t_amount t)) as [recv'|]; [|discriminate]. injection H as <-.
    eapply W_step; [apply W_set_acct; exact Hw|]. apply W_set_acct.
  - destruct (t_payload t); try discriminate. injection H as <-. apply W_set_acct. exact Hw.
Qed.

(* ------------------------------------------------------------------ governance *)
Lemma option_ok_set_votes Q v o : option_ok Q o → option_ok Q (set_votes v o).
Proof. intros (np & H1 & H2). exists np. split; [exact H1|exact H2]. Qed.

Lemma alter_votes_nonempty (f : voption → voption) i os : os ≠ [] → alter f i os ≠ [].
Proof. intros H E. apply H. apply length_zero_iff_nil. rewrite <- (alter_length f os i), E. reflexivity. Qed.

Lemma cancel_vote_ok (P : voption → Prop) os v : (∀ n o, P o → P (set_votes n o)) →
  (os ≠ [] → (cancel_vote os v).1 ≠ []) ∧ (Forall P os → Forall P (cancel_vote os v).1).
Proof.
  intros HP. unfold cancel_vote. destruct (0 <=? v_choice v); cbn [fst]; [|split; auto]. split.
  - apply alter_votes_nonempty.
  - intros H. apply Forall_alter; [exact H|]. intros x _. apply HP.
Qed.
Lemma do_vote_ok (P : voption → Prop) os v c : (∀ n o, P o → P (set_votes n o)) →
  (os ≠ [] → (do_vote os v c).1 ≠ []) ∧ (Forall P os → Forall P (do_vote os v c).1).
Proof.
  intros HP. unfold do_vote. destruct (0 <=? c); cbn [fst]; [|split; auto]. split.
  - apply alter_votes_nonempty.
  - intros H. apply Forall_alter; [exact H|]. intros x _. apply HP.
Qed.

Lemma prop_vote_ok Q p a c p' : prop_vote p a c = Some p' → prop_ok Q p → prop_ok Q p'.
Proof.
  unfold prop_vote. intros H (Hne & Hopts & Hmaj).
  destruct (p_voters p !! a) as [v|]; [|discriminate]. cbn [mbind option_bind] in H.
  destruct (cancel_vote (p_options p) v) as [o1 v1] eqn:E1.
  destruct (do_vote o1 v1 c) as [o2 v2] eqn:E2. injection H as <-.
  pose proof (cancel_vote_ok _ (p_options p) v (option_ok_set_votes Q)) as [N1 F1]. rewrite E1 in N1, F1. cbn [fst] in N1, F1.
  pose proof (do_vote_ok _ o1 v1 c (option_ok_set_votes Q)) as [N2 F2]. rewrite E2 in N2, F2. cbn [fst] in N2, F2.
  split; [cbn; auto|]. split; cbn; [intros Ht; auto|exact Hmaj].
Qed.

Lemma gov_validate_proposal s t : gov_validate s t = None → t_type t = TRX_PROPOSAL →
  ∃ start period apply opttype opts flag, t_payload t = PProposal start period apply opttype opts flag ∧
    opts ≠ [] ∧ (opttype = PROPOSAL_GOVPARAMS → flag = true).
Proof.
  unfold gov_validate. intros H E4. rewrite E4 in H. cbn [Z.eqb TRX_PROPOSAL Pos.eqb] in H.
  destruct (negb (t_to t =? 0)%N); [discriminate|].
  destruct (negb (is_validator s (t_from t))); [discriminate|].
  destruct (t_payload t) as [| | |start period apply opttype opts flag| | |]; try discriminate.
  destruct (match props (work s) !! t_hash t with Some _ => true | None => false end); [discriminate|].
  destruct (start <=? _); [discriminate|].
  destruct (_ || _); [discriminate|].
  destruct ((opttype =? PROPOSAL_GOVPARAMS) && negb flag) eqn:Ef; [discriminate|].
  destruct (_ <? start); [discriminate|].
  destruct (_ || _); [discriminate|].
  destruct opts as [|o opts]; [discriminate|].
  eexists _, _, _, _, _, _. split; [reflexivity|]. split; [discriminate|].
  intros ->. rewrite Z.eqb_refl in Ef. destruct flag; [reflexivity|discriminate].
Qed.

Lemma gov_execute_W h s l t l' :
  gov_execute s l t = Ok l' →
  (t_type t = TRX_PROPOSAL → ∃ s1, gov_validate s1 t = None) →
  payload_consistent t → proposal_params_ok t →
  W h l → W h l' ∧ grows l l'.
Proof.
  unfold gov_execute. intros H Hv Hpc Hpp ([Hg1 Hg2] & Ho & Hr).
  ty_case t TRX_PROPOSAL E4.
  - destruct (Hv E4) as [s1 Hv1].
    destruct (gov_validate_proposal s1 t Hv1 E4) as (start & period & apply & opttype & opts & flag & Ep & Hne & Hfl).
    unfold payload_consistent in Hpc. unfold proposal_params_ok in Hpp. rewrite Ep in H, Hpc, Hpp.
    injection H as <-. split; [split; [|split]|].
    + split; [|exact Hg2]. cbn. intros k p Hk. apply lookup_insert_Some in Hk as [[_ <-]|[_ Hk]]; [|eapply Hg1; exact Hk].
      split; [cbn; destruct opts; [contradiction|discriminate]|]. split; cbn; [|discriminate].
      intros Ht. specialize (Hpc (Hfl Ht)). apply Forall_fmap.
      rewrite Forall_forall in Hpc, Hpp. apply Forall_forall. intros o Hin.
      destruct (Hpc o Hin) as [np Hnp]. exists np. cbn. split; [exact Hnp|]. apply (Hpp o Hin). exact Hnp.
    + exact Ho.
    + exact Hr.
    + split; [apply accts_mono_refl|]. split; [|auto]. cbn. intros k Hk. apply lookup_insert_is_Some'. right. exact Hk.
  - destruct (t_payload t) as [| | | |ph choice| |]; try discriminate.
    destruct (props l !! ph) as [q|] eqn:Eq; [|discriminate].
    destruct (prop_vote q (t_from t) choice) as [q'|] eqn:Ev; [|discriminate]. injection H as <-.
    split; [split; [|split]|].
    + split; [|exact Hg2]. cbn. intros k p Hk. apply lookup_insert_Some in Hk as [[_ <-]|[_ Hk]]; [|eapply Hg1; exact Hk].
      eapply prop_vote_ok; [exact Ev|]. eapply Hg1. exact Eq.
    + exact Ho.
    + exact Hr.
    + split; [apply accts_mono_refl|]. split; [|auto]. cbn. intros k Hk. apply lookup_insert_is_Some'. right. exact Hk.
Qed.

(* ------------------------------------------------------------------ staking *)
Lemma find_stake_elem h l s0 : find_stake h l = Some s0 → s0 ∈ l.
Proof.
  induction l as [|s r IH]; simpl; [discriminate|].
  destruct (s_hash s =? h)%N; [intros [= <-]; left|intros H; right; apply IH; exact H].
Qed.
Lemma remove_stake_elem h l st : st ∈ remove_stake h l → st ∈ l.
Proof.
  induction l as [|s r IH]; simpl; [auto|].
  destruct (s_hash s =? h)%N; [intros H; right; exact H|].
  intros H. apply elem_of_cons in H as [->|H]; [left|right; apply IH; exact H].
Qed.

Lemma freeze_all_owned A l r ss :
  frozen_owned A l → (∀ st, st ∈ ss → is_Some (A !! s_from st)) →
  frozen_owned A (set_frozen l (freeze_all (frozen l) r ss)).
Proof.
  unfold freeze_all. intros Hf Hs. apply (foldl_inv _ (λ m, frozen_owned A (set_frozen l m))); [|exact Hf].
  intros m st Hin Hm h st' Hk. cbn in Hk.
  apply lookup_insert_Some in Hk as [[_ <-]|[_ Hk]]; [exact (Hs st Hin)|eapply Hm; exact Hk].
Qed.

Lemma dels_owned_insert A m a d :
  dels_owned A m → (∀ st, st ∈ d_stakes d → is_Some (A !! s_from st)) → dels_owned A (<[a := d]> m).
Proof. intros H Hd b d0 st Hk. apply lookup_insert_Some in Hk as [[_ <-]|[_ Hk]]; [apply Hd|eapply H; exact Hk]. Qed.
Lemma dels_owned_delete A m a : dels_owned A m → dels_owned A (delete a m).
Proof. intros H b d0 st Hk. apply lookup_delete_Some in Hk as [_ Hk]. eapply H; exact Hk. Qed.

Lemma W_stakes h l l' :
  accts l' = accts l → rewards l' = rewards l → props l' = props l → fprops l' = fprops l →
  owned (accts l) l' → W h l → W h l' ∧ grows l l'.
Proof.
  intros Ea Er Ep Ef Ho ([Hg1 Hg2] & _ & Hr). split; [split; [|split]|].
  - split; [rewrite Ep; exact Hg1|rewrite Ef; exact Hg2].
  - rewrite Ea. exact Ho.
  - rewrite Er. exact Hr.
  - split; [rewrite Ea; apply accts_mono_refl|]. rewrite Ep, Ef. split; auto.
Qed.

Lemma stake_execute_W s l t l' :
  stake_execute s l t = Ok l' → W (b_height (bctx s)) l → W (b_height (bctx s)) l' ∧ grows l l'.
Proof.
  intros H Hw. destruct (InvStake.stake_execute_cases _ _ _ _ H)
    as [(_ & d & x & x' & Hd & _ & _ & ->)|[(_ & d & hs & b & s0 & Hd & _ & Hf & _ & ->)|(E1 & E2 & _)]].
  - eapply W_step; [apply W_set_acct; exact Hw|]. intros Hw1. pose proof Hw1 as (_ & [Hod Hof] & _).
    apply W_stakes; try reflexivity; [|exact Hw1]. split; [|exact Hof].
    apply dels_owned_insert; [exact Hod|]. intros st Hin. apply elem_of_app in Hin as [Hin|Hin].
    + destruct Hd as [Hd|(_ & _ & ->)]; [eapply Hod; eassumption|inversion Hin].
    + apply elem_of_list_singleton in Hin as ->. cbn. rewrite lookup_insert. eexists; reflexivity.
  - pose proof Hw as (_ & [Hod Hof] & _). apply W_stakes; try reflexivity; [|exact Hw].
    set (R := InvStake.release_height s).
    assert (Hd1 : ∀ st, st ∈ d_stakes (del_stake d hs) → is_Some (accts l !! s_from st)).
    { intros st Hin. unfold del_stake in Hin. rewrite Hf in Hin.
      eapply Hod; [exact Hd|]. eapply remove_stake_elem. exact Hin. }
    assert (Hfr1 : frozen_owned (accts l) (set_frozen l (<[s_hash s0 := with_refund R s0]> (frozen l)))).
    { intros k st Hk. cbn in Hk. apply lookup_insert_Some in Hk as [[_ <-]|[_ Hk]]; [|eapply Hof; exact Hk].
      exact (Hod _ _ _ Hd (find_stake_elem _ _ _ Hf)). }
    unfold InvStake.unstake_result. fold R. split; cbn [dels frozen set_dels set_frozen fst snd].
    + destruct (d_total _ =? 0); [apply dels_owned_delete; exact Hod|apply dels_owned_insert; [exact Hod|]].
      destruct (d_self _ =? 0); [intros st Hin; inversion Hin|exact Hd1].
    + destruct (d_self _ =? 0); [exact (freeze_all_owned _ _ _ _ Hfr1 Hd1)|exact Hfr1].
  - set (h := b_height (bctx s)) in *. destruct Hw as (Hg & Ho & Hr). unfold stake_execute in H. fold h in H.
    rewrite (proj2 (Z.eqb_neq _ _) E1), (proj2 (Z.eqb_neq _ _) E2) in H.
    destruct (t_payload t) as [| |req| | | |]; try discriminate.
    destruct (rewards l !! t_from t) as [r|] eqn:Er; [|discriminate].
    destruct (r_height r >? h); [discriminate|].
    unfold acct_reward in H. cbn [accts set_rewards] in H.
    destruct (accts l !! t_from t) as [x|]; [|discriminate]. cbn [mbind option_bind] in H.
    destruct (add_balance x req) as [x'|]; [|discriminate]. cbn [mbind option_bind] in H. injection H as <-.
    assert (Hm : accts_mono (accts l) (<[t_from t := x']> (accts l))) by apply accts_mono_insert.
    split; [split; [exact Hg|split]|split; [exact Hm|split; auto]].
    + exact (owned_mono _ _ _ Hm Ho).
    + intros a r0 Hk. cbn in Hk. apply lookup_insert_Some in Hk as [[_ <-]|[_ Hk]]; [cbn; lia|eapply Hr; exact Hk].
Qed.

(* ------------------------------------------------------------------ the limiter stays sound *)
Lemma check_limit_lim_ok sl da dt diff sl' : check_limit sl da dt diff = Ok sl' → lim_ok sl → lim_ok sl'.
Proof.
  unfold check_limit. intros H Hl.
  destruct (lim_objs sl) as [objs|] eqn:Eo; [|injection H as <-; exact Hl].
  cbv zeta in H.
  destruct (negb (if diff <=? 0 then true else _)); [discriminate|].
  destruct (negb (_ =? dt)); [discriminate|].
  match type of H with (if ?c then _ else _) = _ => destruct c end; [discriminate|].
  destruct (lim_base sl =? 0); [discriminate|].
  match type of H with (if ?c then _ else _) = _ => destruct c end; [discriminate|].
  match type of H with (if ?c then _ else _) = _ => destruct c end; [discriminate|].
  injection H as <-. intros objs' _. cbn. exact (Hl objs Eo).
Qed.

Lemma stake_validate_lim_ok s1 t lim' : stake_validate s1 t = Ok lim' → lim_ok (lim s1) → lim_ok lim'.
Proof.
  intros H Hl. unfold stake_validate in H.
  destruct (t_type t =? TRX_STAKING).
  { destruct (_ <=? 0); [discriminate|]. destruct (negb _); [discriminate|].
    destruct (amount_to_power (t_amount t)) as [txp|]; [|discriminate].
    match type of H with match ?cs with Ok _ => _ | Err _ => _ | Panic _ => _ end = _ =>
      destruct cs as [total|e|p] end; try discriminate.
    destruct (wrap64 _ <=? 0); [discriminate|].
    destruct (3 <=? _); [eapply check_limit_lim_ok; eassumption|injection H as <-; exact Hl]. }
  destruct (t_type t =? TRX_UNSTAKING).
  { destruct (dels (work s1) !! t_to t) as [d|]; [|discriminate].
    destruct (t_payload t) as [|hs lo| | | | |]; try discriminate.
    destruct (negb lo); [discriminate|].
    destruct (find_stake hs (d_stakes d)) as [s0|]; [|discriminate].
    destruct (negb (s_from s0 =? t_from t)%N); [discriminate|].
    destruct (3 <=? _); [eapply check_limit_lim_ok; eassumption|injection H as <-; exact Hl]. }
  destruct (negb (t_amount t =? 0)); [discriminate|].
  destruct (t_payload t); try discriminate.
  destruct (rewards (work s1) !! t_from t) as [r|]; [|discriminate].
  destruct (r_cumulated r <? req); [discriminate|]. injection H as <-. exact Hl.
Qed.

Lemma validated_lim_ok s1 recv t lim' : validated s1 recv t = Ok lim' → lim_ok (lim s1) → lim_ok lim'.
Proof.
  intros H Hl. ty_case t TRX_STAKING E2.
  { rewrite (validated_stake _ _ _ (or_introl E2)) in H. eapply stake_validate_lim_ok; eassumption. }
  ty_case t TRX_UNSTAKING E3.
  { rewrite (validated_stake _ _ _ (or_intror (or_introl E3))) in H. eapply stake_validate_lim_ok; eassumption. }
  rewrite (validated_lim _ _ _ _ H E2 E3). exact Hl.
Qed.

(* ------------------------------------------------------------------ DeliverTx keeps the invariant *)
Lemma exec_native_W s1 recv lim' s2 t l' :
  validated s1 recv t = Ok lim' → exec_native s2 t = Ok l' → payload_consistent t → proposal_params_ok t →
  W (b_height (bctx s2)) (work s2) → W (b_height (bctx s2)) l' ∧ grows (work s2) l'.
Proof.
  intros Hv H Hpc Hpp Hw. unfold exec_native in H.
  destruct ((t_type t =? TRX_PROPOSAL) || (t_type t =? TRX_VOTING)).
  { eapply gov_execute_W; try eassumption. intros E4. exists s1. unfold validated in Hv. rewrite E4 in Hv.
    cbn [Z.eqb orb TRX_PROPOSAL Pos.eqb] in Hv. destruct (gov_validate s1 t); [discriminate|reflexivity]. }
  destruct ((t_type t =? TRX_TRANSFER) || (t_type t =? TRX_SETDOC)).
  { eapply acct_execute_W; eassumption. }
  eapply stake_execute_W; eassumption.
Qed.

Definition same_frame (s s' : state) : Prop :=
  committed s' = committed s ∧ gparams s' = gparams s ∧ newparams s' = newparams s ∧
  last_height s' = last_height s ∧ b_height (bctx s') = b_height (bctx s).
Lemma same_frame_refl s : same_frame s s.  Proof. repeat split. Qed.

Lemma deliver_inv s t :
  payload_consistent t → proposal_params_ok t →
  W (b_height (bctx s)) (work s) → lim_ok (lim s) →
  W (b_height (bctx s)) (work (deliver s t).1) ∧ grows (work s) (work (deliver s t).1) ∧
  lim_ok (lim (deliver s t).1) ∧ same_frame s (deliver s t).1.
Proof.
  intros Hpc Hpp Hw Hl. set (h := b_height (bctx s)) in *.
  destruct (W_find_or_new h (work s) (t_to t) Hw) as [W1 G1]. change (find_or_new _ _).1 with (work (pre s t)) in W1, G1.
  destruct (deliver s t) as [s' r] eqn:H. apply deliver_cases in H. cbn [fst].
  destruct H as [_|? ? _ _|? lim' ? ? _ _ _ Hv Hf].
  - split; [exact Hw|]. split; [apply grows_refl|]. split; [exact Hl|apply same_frame_refl].
  - split; [exact W1|]. split; [exact G1|]. split; [exact Hl|repeat split].
  - pose proof (validated_lim_ok _ _ _ _ Hv Hl) as Hl'.
    (* in every case the limiter is lim' and the frame is that of s; what varies is the ledgers *)
    assert (R : ∀ l fee, W h l → grows (work (pre s t)) l →
              let s' := add_fee (with_lim (pre s t) lim') l fee (g_gasPrice (gparams s)) in
              W h (work s') ∧ grows (work s) (work s') ∧ lim_ok (lim s') ∧ same_frame s s').
    { intros l fee Wl Gl. split; [exact Wl|]. split; [eapply grows_trans; eassumption|]. split; [exact Hl'|repeat split]. }
    destruct Hf as [? _|l' gas _ Hx|l' ? _ Hx _ _|l' ? snd'' _ Hx _ _].
    + split; [exact W1|]. split; [exact G1|]. split; [exact Hl'|repeat split].
    + destruct (evm_execute_W h _ _ _ _ Hx W1) as [W2 G2]. apply R; assumption.
    + destruct (exec_native_W _ _ _ _ t l' Hv Hx Hpc Hpp W1) as [W2 G2].
      split; [exact W2|]. split; [eapply grows_trans; eassumption|]. split; [exact Hl'|repeat split].
    + destruct (exec_native_W _ _ _ _ t l' Hv Hx Hpc Hpp W1) as [W2 G2].
      destruct (W_set_acct h l' (t_from t) (add_nonce snd'') W2) as [W3 G3].
      apply R; [exact W3|eapply grows_trans; eassumption].
Qed.

(* ------------------------------------------------------------------ BeginBlock keeps the invariant *)
Lemma prop_punish_ok Q p a ratio : prop_ok Q p → prop_ok Q (prop_punish p a ratio).1.
Proof.
  intros (Hne & Hopts & Hmaj). unfold prop_punish.
  destruct (p_voters p !! a) as [v|]; [|split; [exact Hne|split; assumption]].
  destruct (cancel_vote (p_options p) v) as [o1 v1] eqn:E1.
  pose proof (cancel_vote_ok _ (p_options p) v (option_ok_set_votes Q)) as [N1 F1]. rewrite E1 in N1, F1. cbn [fst] in N1, F1.
  cbv zeta.
  match goal with |- context [if ?c then (delete a (p_voters p), o1) else _] => destruct c end.
  { cbn. split; [auto|]. split; cbn; [auto|exact Hmaj]. }
  destruct (0 <=? v_choice v).
  - match goal with |- context [do_vote o1 ?v2 ?c] =>
      destruct (do_vote o1 v2 c) as [o' v'] eqn:E2; pose proof (do_vote_ok _ o1 v2 c (option_ok_set_votes Q)) as [N2 F2] end.
    rewrite E2 in N2, F2. cbn [fst] in N2, F2.
    cbn. split; [auto|]. split; cbn; [auto|exact Hmaj].
  - cbn. split; [auto|]. split; cbn; [auto|exact Hmaj].
Qed.

Lemma W_props h l l' :
  accts l' = accts l → dels l' = dels l → frozen l' = frozen l → rewards l' = rewards l → fprops l' = fprops l →
  (∀ k, is_Some (props l !! k) → is_Some (props l' !! k)) →
  (∀ k p, props l' !! k = Some p → prop_ok opt_ok p) →
  W h l → W h l' ∧ grows l l'.
Proof.
  intros Ea Ed Efr Er Ef Hk Hp ([Hg1 Hg2] & [Ho1 Ho2] & Hr). split; [split; [|split]|].
  - split; [exact Hp|rewrite Ef; exact Hg2].
  - unfold owned, frozen_owned. rewrite Ea, Ed, Efr. split; assumption.
  - rewrite Er. exact Hr.
  - split; [rewrite Ea; apply accts_mono_refl|]. split; [exact Hk|rewrite Ef; auto].
Qed.

Lemma gov_punish_W h l ratio evi :
  W h l → W h (gov_punish l ratio evi) ∧ grows l (gov_punish l ratio evi) ∧ accts (gov_punish l ratio evi) = accts l.
Proof.
  intros Hw. unfold gov_punish.
  apply (foldl_inv _ (λ x, W h x ∧ grows l x ∧ accts x = accts l)); [|split; [exact Hw|split; [apply grows_refl|reflexivity]]].
  intros x a _ Hx.
  apply (foldl_inv _ (λ y, W h y ∧ grows l y ∧ accts y = accts l)); [|exact Hx].
  intros y kp _ (Hy & Gy & Ay). destruct (props y !! kp.1) as [p|] eqn:Ep; [|split; [exact Hy|split; assumption]].
  destruct (W_props h y (set_props y (<[kp.1 := (prop_punish p a ratio).1]> (props y)))) as [H1 H2];
    try reflexivity; [| |exact Hy|].
  - cbn. intros k Hk. apply lookup_insert_is_Some'. right. exact Hk.
  - cbn. intros k q Hk. destruct Hy as ([Hg1 _] & _).
    apply lookup_insert_Some in Hk as [[_ <-]|[_ Hk]]; [apply prop_punish_ok; eapply Hg1; exact Ep|eapply Hg1; exact Hk].
  - split; [exact H1|]. split; [eapply grows_trans; eassumption|exact Ay].
Qed.

Lemma slash_all_from d ratio st :
  st ∈ d_stakes (slash_all d ratio).1 → ∃ st0, st0 ∈ d_stakes d ∧ s_from st = s_from st0.
Proof.
  unfold slash_all. cbn [fst d_stakes]. intros H.
  match type of H with st ∈ foldl ?f ?slashed ?removing =>
    assert (Hs : ∀ x, x ∈ foldl f slashed removing → x ∈ slashed) end.
  { apply (foldl_inv _ (λ l, ∀ x, x ∈ l → x ∈ _)); [|auto].
    intros l s0 _ Hl x Hx. apply Hl. eapply remove_stake_elem. exact Hx. }
  apply Hs in H. apply elem_of_list_fmap_2 in H as (st0 & E & Hin). exists st0. split; [exact Hin|].
  rewrite E. destruct (_ <? 1); reflexivity.
Qed.

Lemma stake_punish_W h l ratio evi :
  W h l → W h (stake_punish l ratio evi) ∧ grows l (stake_punish l ratio evi) ∧ accts (stake_punish l ratio evi) = accts l.
Proof.
  intros Hw. unfold stake_punish.
  apply (foldl_inv _ (λ x, W h x ∧ grows l x ∧ accts x = accts l)); [|split; [exact Hw|split; [apply grows_refl|reflexivity]]].
  intros x a _ (Hx & Gx & Ax). destruct (dels x !! a) as [d|] eqn:Ed; [|split; [exact Hx|split; assumption]].
  destruct (W_stakes h x (set_dels x (<[a := (slash_all d ratio).1]> (dels x)))) as [H1 H2];
    try reflexivity; [|exact Hx|].
  - destruct Hx as (_ & [Ho1 Ho2] & _). split; [|exact Ho2]. apply dels_owned_insert; [exact Ho1|].
    intros st Hin. apply slash_all_from in Hin as (st0 & Hin0 & ->). eapply Ho1; eassumption.
  - split; [exact H1|]. split; [eapply grows_trans; eassumption|exact Ax].
Qed.

Lemma vote_step_W g old h l issued v : 0 ≤ h → W h l →
  ∃ l' issued', vote_step g old h (Ok (l, issued)) v = Ok (l', issued') ∧ W h l' ∧ grows l l' ∧ accts l' = accts l.
Proof.
  intros Hh Hw. pose proof Hw as ([Hg1 Hg2] & [Ho1 Ho2] & Hr).
  destruct (vote_step_ok g old h l issued v Hh Hr) as (l' & i' & E & Hr' & Ea & Ep & Ef & _ & Hcase).
  exists l', i'. split; [exact E|].
  assert (G : grows l l').
  { split; [rewrite Ea; apply accts_mono_refl|]. rewrite Ep, Ef. split; auto. }
  split; [|split; [exact G|exact Ea]].
  split; [split; [rewrite Ep; exact Hg1|rewrite Ef; exact Hg2]|]. split; [|exact Hr'].
  unfold owned, frozen_owned. rewrite Ea. destruct Hcase as [[Ed Efr]|(_ & a & d & m2 & _ & Hd & [[Ed Efr]|[Ed Efr]])].
  - rewrite Ed, Efr. split; assumption.
  - rewrite Ed, Efr. split; [|exact Ho2]. apply dels_owned_insert; [exact Ho1|exact (λ st, Ho1 _ _ st Hd)].
  - rewrite Ed, Efr. split.
    + apply dels_owned_delete. exact Ho1.
    + refine (freeze_all_owned _ l _ _ Ho2 _). intros st Hin. eapply Ho1; eassumption.
Qed.

(* the limiter BeginBlock builds: every eligible delegatee has power *)
Definition self_le_total (l : ledgers) : Prop := ∀ a d, dels l !! a = Some d → d_self d ≤ d_total d.

Lemma min_power_pos g : params_ok g → 1 ≤ min_power g.
Proof.
  intros Hg. unfold min_power, power_of. rewrite (params_ok_minval _ Hg). cbn [default].
  destruct Hg as (_ & _ & _ & _ & _ & Hv & _). apply Z.div_le_lower_bound; [exact apP_pos|lia].
Qed.

Lemma limiter_reset_ok g base :
  params_ok g → self_le_total base →
  lim_ok (limiter_reset (sort_power (List.filter (λ d, min_power g <=? d_self d) (snd <$> sorted_items (dels base)))) g).
Proof.
  intros Hg Hb. set (all := sort_power _).
  assert (Hall : ∀ d, d ∈ all → 1 ≤ d_total d).
  { intros d Hd. unfold all, sort_power in Hd. rewrite merge_sort_Permutation in Hd.
    apply elem_of_list_In, filter_In in Hd as [Hin Hle]. apply elem_of_list_In in Hin.
    apply elem_of_list_fmap in Hin as ([k d'] & -> & Hin). apply elem_of_sorted_items in Hin. cbn.
    apply Z.leb_le in Hle. cbn in Hle. pose proof (min_power_pos _ Hg). specialize (Hb _ _ Hin). lia. }
  intros objs Ho. unfold limiter_reset in *. cbn [lim_objs lim_base lim_maxcnt] in *.
  destruct Hg as (_ & _ & _ & _ & Hmax & _). split; [|exact Hmax].
  destruct all as [|d ds]; [discriminate|].
  destruct (Z.to_nat (g_maxValidatorCnt g)) as [|n] eqn:En; [lia|].
  cbn [take sumZ_with foldr]. assert (1 ≤ d_total d) by (apply Hall; left).
  assert (0 ≤ sumZ_with d_total (take n ds)).
  { apply sumZ_with_nonneg. intros x Hx. apply elem_of_take in Hx as (i & Hi & _).
    apply elem_of_list_lookup_2 in Hi. assert (1 ≤ d_total x) by (apply Hall; right; exact Hi). lia. }
  unfold sumZ_with in *. lia.
Qed.

Lemma begin_block_inv s hd :
  h_height hd = last_height s + 1 → (h_votes hd ≠ [] → committed s ≠ []) →
  params_ok (gparams s) → heights_ok s → self_le_total (base_of s) →
  W (b_height (bctx s)) (work s) →
  let s' := (begin_block s hd).1 in
  (∃ iss, (begin_block s hd).2 = Ok iss) ∧
  W (h_height hd) (work s') ∧ grows (work s) (work s') ∧ lim_ok (lim s') ∧
  committed s' = committed s ∧ gparams s' = gparams s ∧ newparams s' = newparams s ∧
  last_height s' = last_height s ∧ b_height (bctx s') = h_height hd.
Proof.
  intros Hh Hvotes Hg (H0 & Hb & Hc) Hbase Hw. cbv zeta.
  assert (Hw0 : W (h_height hd) (work s)).
  { destruct Hw as (A & B & C). split; [exact A|]. split; [exact B|]. intros a r Hr. apply C in Hr. lia. }
  destruct (gov_punish_W (h_height hd) (work s) (g_slashRatio (gparams s)) (h_evidence hd) Hw0) as (W1 & G1 & A1).
  destruct (stake_punish_W (h_height hd) _ (g_slashRatio (gparams s)) (h_evidence hd) W1) as (W2 & G2 & A2).
  pose proof (grows_trans _ _ _ G1 G2) as G12.
  pose proof (limiter_reset_ok (gparams s) (base_of s) Hg Hbase) as Hlim.
  assert (Hpv : h_votes hd ≠ [] → ∃ l iss,
            process_votes (begun s hd) (work (begun s hd)) (h_height hd) (h_votes hd) = Ok (l, iss) ∧
            W (h_height hd) l ∧ grows (work s) l).
  { intros Hv. apply (process_votes_inv (λ x, W (h_height hd) x ∧ grows (work s) x)).
    - apply committed_nonempty, Hvotes, Hv.
    - cbn [begun committed]. lia.
    - intros old l issued v [Hl Gl].
      destruct (vote_step_W (gparams s) old (h_height hd) l issued v) as (l' & i' & E & Hl' & Gl' & _); [lia|exact Hl|].
      exists l', i'. split; [exact E|]. split; [exact Hl'|eapply grows_trans; eassumption].
    - split; [exact W2|exact G12]. }
  destruct (begin_block s hd) as [s' r] eqn:E. apply begin_block_cases in E. cbn [fst snd].
  destruct E as [Hne|_ _|l iss _ Hv Hp|e _ Hv Hp|p _ Hv Hp]; [contradiction| | | |].
  - split; [eexists; reflexivity|]. split; [exact W2|]. split; [exact G12|]. split; [exact Hlim|repeat split].
  - destruct (Hpv Hv) as (l' & iss' & E & Wl & Gl). rewrite E in Hp. injection Hp as -> ->.
    split; [eexists; reflexivity|]. split; [exact Wl|]. split; [exact Gl|]. split; [exact Hlim|repeat split].
  - destruct (Hpv Hv) as (l' & iss' & E & _). rewrite E in Hp. discriminate.
  - destruct (Hpv Hv) as (l' & iss' & E & _). rewrite E in Hp. discriminate.
Qed.

(* ------------------------------------------------------------------ the run invariant *)
Inductive phase := Idle | InBlock | Ended.

(* facts this file maintains by itself *)
Definition core (s : state) : Prop :=
  params_ok (gparams s) ∧ (∀ m, newparams s = Some m → params_ok m) ∧
  W (b_height (bctx s)) (work s) ∧ lim_ok (lim s) ∧
  gov_ok opt_ok (base_of s) ∧ frozen_owned (accts (work s)) (base_of s) ∧ self_le_total (base_of s).

Definition phase_inv (ph : phase) (n : Z) (s : state) : Prop :=
  core s ∧ 0 ≤ n ∧ last_height s = n ∧ Z.of_nat (length (committed s)) = n ∧
  match ph with
  | Idle => b_height (bctx s) = n ∧ keys_ok s
  | InBlock => b_height (bctx s) = n + 1 ∧ keys_ok s
  | Ended => b_height (bctx s) = n + 1
  end.

(* facts taken from the stake-bookkeeping (C11) and supply (C02) properties: bonded totals are the
   sums of non-negative stake powers, and the supply stays below 2^63 RIGO *)
Definition ext_ok (s : state) : Prop :=
  supply_small (work s) ∧ totals_nonneg (work s) ∧ self_le_total (work s).

Lemma core_state_ok s : core s → ext_ok s → state_ok s.
Proof.
  intros (Hg & _ & (_ & _ & Hr) & Hl & _) (Hs & Ht & _).
  split; [exact Hg|]. split; [exact Hs|]. split; [exact Ht|]. split; [exact Hl|exact Hr].
Qed.

Lemma base_of_commit s : base_of (commit s) = work s.
Proof. unfold base_of, commit. cbn [committed]. rewrite last_snoc. reflexivity. Qed.

Lemma keys_ok_grows s s' : base_of s' = base_of s → grows (work s) (work s') → keys_ok s → keys_ok s'.
Proof. intros Eb (_ & Gp & Gf) [Kp Kf]. unfold keys_ok. rewrite Eb. split; auto. Qed.

(* BeginBlock and DeliverTx lead into (or stay in) the open block n + 1: they leave the committed
   versions and the parameters alone, and the working ledgers only grow *)
Lemma phase_inv_inblock n s s' :
  core s → keys_ok s → 0 ≤ n → last_height s = n → Z.of_nat (length (committed s)) = n →
  committed s' = committed s → gparams s' = gparams s → newparams s' = newparams s →
  last_height s' = last_height s → b_height (bctx s') = n + 1 →
  W (n + 1) (work s') → grows (work s) (work s') → lim_ok (lim s') →
  phase_inv InBlock n s'.
Proof.
  intros (Hg & Hnp & _ & _ & Hgb & Hfb & Hsb) Hk Hn Hlast Hlen C' GP' NP' LH' BH' W' G' L'.
  pose proof (base_of_same _ _ C' GP') as Eb.
  split; [|split; [exact Hn|split; [lia|split; [rewrite C'; exact Hlen|split; [exact BH'|eapply keys_ok_grows; eassumption]]]]].
  unfold core. rewrite GP', NP', BH', Eb.
  split; [exact Hg|]. split; [exact Hnp|]. split; [exact W'|]. split; [exact L'|]. split; [exact Hgb|].
  split; [|exact Hsb]. eapply frozen_owned_mono; [exact (proj1 G')|exact Hfb].
Qed.

(* ------------------------------------------------------------------ genesis *)
Definition all_empty (l : ledgers) : Prop :=
  frozen l = ∅ ∧ rewards l = ∅ ∧ props l = ∅ ∧ fprops l = ∅.

Lemma init_fold_accts (vals : list (addr * Z)) : ∀ l,
  let l' := foldl (λ l v, (find_or_new l v.1).1) l vals in
  (∀ v, v ∈ vals → is_Some (accts l' !! v.1)) ∧ accts_mono (accts l) (accts l') ∧
  dels l' = dels l ∧ (all_empty l → all_empty l').
Proof.
  induction vals as [|v vals IH]; intros l; cbn [foldl].
  { split; [intros v Hv; inversion Hv|]. split; [apply accts_mono_refl|]. split; [reflexivity|auto]. }
  destruct (IH (find_or_new l v.1).1) as (H1 & H2 & H3 & H4). cbv zeta in *.
  assert (Hm : accts_mono (accts l) (accts (find_or_new l v.1).1)).
  { unfold find_or_new. destruct (accts l !! v.1); cbn; [apply accts_mono_refl|apply accts_mono_insert]. }
  split; [|split; [eapply accts_mono_trans; eassumption|split]].
  - intros v' Hv'. apply elem_of_cons in Hv' as [->|Hv']; [|apply H1; exact Hv'].
    apply H2. rewrite find_or_new_lookup. eexists; reflexivity.
  - rewrite H3. apply (keeps_dels _ _ _ (find_or_new_keeps _ _) I).
  - intros He. apply H4. unfold find_or_new. destruct (accts l !! v.1); exact He.
Qed.

Lemma init_chain_inv g : params_ok (gen_params g) → phase_inv Idle 0 (init_chain g).
Proof.
  intros Hg. unfold init_chain.
  set (l1 := foldl (λ l h, set_acct l h.1 _) (empty_ledgers (gen_params g)) (gen_holders g)).
  assert (H1 : dels l1 = ∅ ∧ all_empty l1).
  { apply (foldl_inv _ (λ l, dels l = ∅ ∧ all_empty l)); [|repeat split].
    intros l h _ Hl. exact Hl. }
  destruct (init_fold_accts (gen_validators g) l1) as (A2 & _ & D2 & E2). cbv zeta in *.
  set (l2 := foldl (λ l v, (find_or_new l v.1).1) l1 (gen_validators g)) in *.
  destruct H1 as [D1 E1]. specialize (E2 E1). rewrite D1 in D2.
  set (l3 := foldl _ l2 (gen_validators g)).
  assert (H3 : accts l3 = accts l2 ∧ all_empty l3 ∧
               ∀ a d st, dels l3 !! a = Some d → st ∈ d_stakes d → ∃ v, v ∈ gen_validators g ∧ s_from st = v.1).
  { apply (foldl_inv _ (λ l, accts l = accts l2 ∧ all_empty l ∧
             ∀ a d st, dels l !! a = Some d → st ∈ d_stakes d → ∃ v, v ∈ gen_validators g ∧ s_from st = v.1)).
    - intros l v Hv (Ha & He & Hd). split; [exact Ha|]. split; [exact He|]. cbn.
      intros a d st Hk Hin. apply lookup_insert_Some in Hk as [[_ <-]|[_ Hk]]; [|eapply Hd; eassumption].
      cbn in Hin. apply elem_of_list_singleton in Hin as ->. exists v. split; [exact Hv|reflexivity].
    - split; [reflexivity|]. split; [exact E2|]. intros a d st Hk. rewrite D2, lookup_empty in Hk. discriminate. }
  destruct H3 as (A3 & (F3 & R3 & P3 & FP3) & S3).
  split; [|cbn; repeat split; try lia; intros k [x Hx]; cbn in Hx; rewrite lookup_empty in Hx; discriminate].
  split; [exact Hg|]. split; [cbn; discriminate|]. cbn [work bctx b_height lim base_of committed last default gparams].
  split; [|split; [intros objs Ho; discriminate|]].
  - split; [split; intros k p Hk; [rewrite P3 in Hk|rewrite FP3 in Hk]; rewrite lookup_empty in Hk; discriminate|].
    split; [split|].
    + intros a d st Hk Hin. destruct (S3 a d st Hk Hin) as (v & Hv & ->). rewrite A3. apply A2. exact Hv.
    + intros h st Hk. rewrite F3, lookup_empty in Hk. discriminate.
    + intros a r Hk. rewrite R3, lookup_empty in Hk. discriminate.
  - split; [split; intros k p Hk; cbn in Hk; rewrite lookup_empty in Hk; discriminate|].
    split; [intros h st Hk; cbn in Hk; rewrite lookup_empty in Hk; discriminate|].
    intros a d Hk. cbn in Hk. rewrite lookup_empty in Hk. discriminate.
Qed.

(* ------------------------------------------------------------------ runs *)
Definition tx_ok (t : tx) : Prop := tx_wf t ∧ payload_kind_ok t ∧ payload_consistent t ∧ proposal_params_ok t.

(* Begin, Deliver*, End, Commit; block n+1 follows block n; the first block carries no votes *)
Fixpoint bracketed (ph : phase) (n : Z) (ops : list sop) : Prop :=
  match ops with
  | [] => True
  | o :: r =>
      match ph, o with
      | Idle, SBegin hd => h_height hd = n + 1 ∧ (h_votes hd ≠ [] → 1 ≤ n) ∧ bracketed InBlock n r
      | InBlock, SDeliver t => tx_ok t ∧ bracketed InBlock n r
      | InBlock, SEnd => bracketed Ended n r
      | Ended, SCommit => bracketed Idle (n + 1) r
      | _, _ => False
      end
  end.

Fixpoint ext_along (s : state) (ops : list sop) : Prop :=
  ext_ok s ∧ match ops with [] => True | o :: r => ext_along (sstep s o) r end.

(* BeginBlock and EndBlock succeed (any error there makes node/app.go panic); DeliverTx answers *)
Definition step_answers (s : state) (o : sop) : Prop :=
  match o with
  | SBegin hd => ∃ x, (begin_block s hd).2 = Ok x
  | SDeliver t => ∀ p, (deliver s t).2 ≠ Panic p
  | SEnd => ∃ ups, (end_block s).2 = Ok ups
  | SCommit => True
  end.
Fixpoint run_answers (s : state) (ops : list sop) : Prop :=
  match ops with [] => True | o :: r => step_answers s o ∧ run_answers (sstep s o) r end.

Lemma run_answers_at pre : ∀ s o post, run_answers s (pre ++ o :: post) → step_answers (srun s pre) o.
Proof.
  induction pre as [|x pre IH]; intros s o post H; cbn [app run_answers] in H; [apply H|].
  destruct H as [_ H]. apply (IH (sstep s x) _ _ H).
Qed.

Definition next_phase (ph : phase) (n : Z) (o : sop) : phase * Z :=
  match ph, o with
  | Idle, SBegin _ => (InBlock, n)
  | InBlock, SDeliver _ => (InBlock, n)
  | InBlock, SEnd => (Ended, n)
  | Ended, SCommit => (Idle, n + 1)
  | _, _ => (ph, n)
  end.
Fixpoint end_phase (ph : phase) (n : Z) (ops : list sop) : phase * Z :=
  match ops with [] => (ph, n) | o :: r => end_phase (next_phase ph n o).1 (next_phase ph n o).2 r end.

Lemma step_inv ph n s o r :
  phase_inv ph n s → bracketed ph n (o :: r) → ext_ok s →
  step_answers s o ∧ phase_inv (next_phase ph n o).1 (next_phase ph n o).2 (sstep s o) ∧
  bracketed (next_phase ph n o).1 (next_phase ph n o).2 r.
Proof.
  intros (Hcore & Hn & Hlast & Hlen & Hph) Hbr Hext.
  pose proof Hcore as (Hg & Hnp & Hw & Hl & Hgb & Hfb & Hsb).
  destruct ph, o; cbn [bracketed] in Hbr; try contradiction.
  - (* BeginBlock *)
    destruct Hph as [Hbh Hk]. destruct Hbr as (Hh & Hv & Hbr).
    destruct (begin_block_inv s h) as ([iss Hok] & W' & G' & L' & C' & GP' & NP' & LH' & BH'); try assumption.
    + lia.
    + intros Hvs Hc. specialize (Hv Hvs). rewrite Hc in Hlen. cbn in Hlen. lia.
    + split; [lia|]. split; lia.
    + cbn [step_answers sstep]. split; [exists iss; exact Hok|]. cbn [next_phase fst snd].
      split; [|exact Hbr]. rewrite Hh in W', BH'. apply (phase_inv_inblock n s); assumption.
  - (* DeliverTx *)
    destruct Hph as [Hbh Hk]. destruct Hbr as ((Hwf & Hkind & Hpc & Hpp) & Hbr).
    cbn [step_answers sstep]. split.
    { intros p Hp. destruct (deliver s t) as [s' res] eqn:E. cbn in Hp. subst res.
      eapply (deliver_never_panics s t (core_state_ok _ Hcore Hext) Hwf Hkind). exact E. }
    destruct (deliver_inv s t Hpc Hpp Hw Hl) as (W' & G' & L' & (C' & GP' & NP' & LH' & BH')).
    cbn [next_phase fst snd]. split; [|exact Hbr]. rewrite Hbh in W', BH'.
    apply (phase_inv_inblock n s); assumption.
  - (* EndBlock *)
    destruct Hph as [Hbh Hk].
    destruct (end_block_ok opt_ok params_ok s) as (s' & ups & E & HP & Hnp'); try assumption.
    + destruct Hg as (_ & _ & _ & _ & Hm & _). lia.
    + intros newp HQ. apply HQ. exact Hg.
    + cbn [step_answers sstep]. rewrite E. cbn [fst snd]. split; [exists ups; reflexivity|].
      cbn [next_phase fst snd]. split; [|exact Hbr].
      destruct HP as (C' & GP' & _ & L' & B' & LH' & A' & D' & R' & F' & P' & FP').
      pose proof (base_of_same _ _ C' GP') as Eb.
      split; [|split; [exact Hn|split; [lia|split; [rewrite C'; exact Hlen|rewrite B'; exact Hbh]]]].
      split; [rewrite GP'; exact Hg|]. split; [exact Hnp'|]. rewrite B', L', Eb.
      destruct Hw as ([Hg1 Hg2] & [Ho1 Ho2] & Hr).
      split; [|split; [exact Hl|split; [exact Hgb|split; [eapply frozen_owned_mono; eassumption|exact Hsb]]]].
      split; [split|split; [split|]].
      * intros k p Hk'. eapply Hg1. apply P'. exact Hk'.
      * intros k p Hk'. destruct (FP' k p Hk') as [Hk''|Hk'']; [eapply Hg2; exact Hk''|exact Hk''].
      * rewrite D'. intros a d st Hd Hin. apply A'. eapply Ho1; eassumption.
      * intros k st Hk'. apply A'. eapply Ho2. apply F'. exact Hk'.
      * rewrite R'. exact Hr.
  - (* Commit *)
    cbn [step_answers sstep]. split; [exact I|]. cbn [next_phase fst snd]. split; [|exact Hbr].
    destruct Hw as (Hgw & [Ho1 Ho2] & Hr). destruct Hext as (_ & _ & Hsl).
    split; [|split; [lia|split; [cbn; lia|split; [cbn; rewrite app_length; cbn; lia|split; [cbn; lia|]]]]].
    + unfold core. rewrite base_of_commit. cbn [gparams newparams work bctx lim commit].
      split; [destruct (newparams s) as [m|]; cbn; [apply Hnp; reflexivity|exact Hg]|].
      split; [discriminate|]. split; [split; [exact Hgw|split; [split; assumption|exact Hr]]|].
      split; [exact Hl|]. split; [exact Hgw|]. split; [exact Ho2|exact Hsl].
    + unfold keys_ok. rewrite base_of_commit. cbn [work commit]. split; auto.
Qed.

Lemma run_inv ops : ∀ ph n s,
  phase_inv ph n s → bracketed ph n ops → ext_along s ops → run_answers s ops.
Proof.
  induction ops as [|o r IH]; intros ph n s Hinv Hbr Hext; [exact I|].
  destruct Hext as [He Hext]. destruct (step_inv ph n s o r Hinv Hbr He) as (Ha & Hinv' & Hbr').
  split; [exact Ha|]. eapply IH; eassumption.
Qed.

Lemma run_reaches ops : ∀ ph n s,
  phase_inv ph n s → bracketed ph n ops → ext_along s ops →
  phase_inv (end_phase ph n ops).1 (end_phase ph n ops).2 (srun s ops).
Proof.
  induction ops as [|o r IH]; intros ph n s Hinv Hbr Hext; [exact Hinv|].
  destruct Hext as [He Hext]. destruct (step_inv ph n s o r Hinv Hbr He) as (_ & Hinv' & Hbr').
  cbn [end_phase srun foldl]. apply IH; assumption.
Qed.

(* N3.  The hypothesis [ext_along] is the part owned by other properties: at every point of the
   run the supply is below 2^63 RIGO ([supply_small]) and every delegatee's total power is
   non-negative and not below its self power (C11 bookkeeping with non-negative stake powers).
   Everything else [state_ok], [keys_ok], the proposal and ownership invariants is established
   here from [params_ok (gen_params g)] and the hypotheses on the operations. *)
Theorem run_never_panics g ops :
  params_ok (gen_params g) → bracketed Idle 0 ops → ext_along (init_chain g) ops →
  run_answers (init_chain g) ops.
Proof. intros Hg Hbr Hext. eapply run_inv; [apply init_chain_inv; exact Hg|exact Hbr|exact Hext]. Qed.
Print Assumptions run_never_panics.

Theorem run_invariant g ops :
  params_ok (gen_params g) → bracketed Idle 0 ops → ext_along (init_chain g) ops →
  let s := srun (init_chain g) ops in
  phase_inv (end_phase Idle 0 ops).1 (end_phase Idle 0 ops).2 s ∧ (ext_ok s → state_ok s) ∧
  heights_ok s ∧ gov_ok (λ _, True) (base_of s) ∧ frozen_owned (accts (work s)) (base_of s) ∧
  ((end_phase Idle 0 ops).1 ≠ Ended → keys_ok s).
Proof.
  intros Hg Hbr Hext s.
  pose proof (run_reaches ops Idle 0 _ (init_chain_inv g Hg) Hbr Hext) as Hinv. fold s in Hinv.
  split; [exact Hinv|]. destruct Hinv as (Hcore & Hn & Hlast & Hlen & Hph).
  split; [apply core_state_ok; exact Hcore|].
  destruct Hcore as (_ & _ & _ & _ & [Hg1 Hg2] & Hfo & _).
  split; [|split; [|split; [exact Hfo|]]].
  - split; [lia|]. split; [|lia]. destruct (end_phase Idle 0 ops).1; [destruct Hph as [-> _]|destruct Hph as [-> _]|rewrite Hph]; lia.
  - split; intros k p Hk; [apply Hg1 in Hk|apply Hg2 in Hk]; destruct Hk as (A & B & C);
      (split; [exact A|split; [intros Ht; specialize (B Ht); eapply Forall_impl; [exact B|]|intros Ht o Ho; specialize (C Ht o Ho)]]).
    + intros o (np & E & _). exists np. split; [exact E|exact I].
    + destruct C as (np & E & _). exists np. split; [exact E|exact I].
    + intros o (np & E & _). exists np. split; [exact E|exact I].
    + destruct C as (np & E & _). exists np. split; [exact E|exact I].
  - intros Hne. destruct (end_phase Idle 0 ops).1; [exact (proj2 Hph)|exact (proj2 Hph)|contradiction].
Qed.
Print Assumptions run_invariant.

Definition step_panics (s : state) (o : sop) : Prop :=
  match o with
  | SBegin hd => ∃ p, (begin_block s hd).2 = Panic p
  | SDeliver t => ∃ p, (deliver s t).2 = Panic p
  | SEnd => ∃ p, (end_block s).2 = Panic p
  | SCommit => False
  end.
Corollary run_no_step_panics g ops pre o post :
  params_ok (gen_params g) → bracketed Idle 0 ops → ext_along (init_chain g) ops →
  ops = pre ++ o :: post → ¬ step_panics (srun (init_chain g) pre) o.
Proof.
  intros Hg Hbr Hext ->. pose proof (run_never_panics g _ Hg Hbr Hext) as H. clear Hbr Hext Hg.
  revert H. generalize (init_chain g) as s. induction pre as [|x pre IH]; intros s H.
  - cbn in H. destruct H as [Ha _]. destruct o; cbn in *.
    + intros [p Hp]. destruct Ha as [x Hx]. congruence.
    + intros [p Hp]. eapply Ha. exact Hp.
    + intros [p Hp]. destruct Ha as [x Hx]. congruence.
    + auto.
  - cbn in H. destruct H as [_ H]. cbn [srun foldl]. apply IH. exact H.
Qed.
Print Assumptions run_no_step_panics.

(* ------------------------------------------------------------------ [ext_ok] in the shared vocabulary *)
(* the hypothesis of N3 follows from the stake bookkeeping of C11 ([delegatee_ok]), the machine
   ranges ([ranges_ok]) and a total supply below 2^63 RIGO (C02's quantity [supply]) *)
Lemma sum_power_of_bounds a l : (∀ st, st ∈ l → 0 ≤ s_power st) → 0 ≤ sum_power_of a l ≤ sum_power l.
Proof.
  induction l as [|x l IH]; intros H; cbn; [lia|].
  assert (0 ≤ s_power x) by (apply H; left).
  assert (0 ≤ sum_power_of a l ≤ sum_power l) by (apply IH; intros y Hy; apply H; right; exact Hy).
  unfold sum_power, sum_power_of in *. destruct (s_from x =? a)%N; lia.
Qed.

Lemma sum_concat_ge {A} (f : A → list stake) (L : list A) x :
  x ∈ L → (∀ st, st ∈ concat (f <$> L) → 0 ≤ s_power st) → sum_power (f x) ≤ sum_power (concat (f <$> L)).
Proof.
  induction L as [|y L IH]; intros Hx Hn; [inversion Hx|]. cbn [fmap list_fmap concat] in *.
  rewrite sum_power_app.
  assert (H0 : 0 ≤ sum_power (f y)) by (apply sum_power_nonneg; intros st Hst; apply Hn, elem_of_app; left; exact Hst).
  assert (H1 : 0 ≤ sum_power (concat (f <$> L))) by (apply sum_power_nonneg; intros st Hst; apply Hn, elem_of_app; right; exact Hst).
  apply elem_of_cons in Hx as [->|Hx]; [lia|].
  assert (sum_power (f x) ≤ sum_power (concat (f <$> L))); [|lia].
  apply IH; [exact Hx|]. intros st Hst. apply Hn, elem_of_app. right. exact Hst.
Qed.

Lemma total_balance_ge l :
  (∀ a x, accts l !! a = Some x → 0 ≤ a_bal x) →
  0 ≤ total_balance l ∧ ∀ a x, accts l !! a = Some x → a_bal x ≤ total_balance l.
Proof.
  unfold total_balance. generalize (accts l). intros m. induction m as [|i x m Hi IH] using map_ind; intros Hn.
  { rewrite map_fold_empty. split; [lia|]. intros a x Hx. rewrite lookup_empty in Hx. discriminate. }
  rewrite map_fold_insert_L; [|intros; lia|exact Hi].
  destruct IH as [IH1 IH2].
  { intros a y Hy. apply (Hn a). rewrite lookup_insert_ne; [exact Hy|]. intros ->. congruence. }
  assert (0 ≤ a_bal x) by (apply (Hn i); apply lookup_insert).
  cbv beta in *. split; [lia|]. intros a y Hy. apply lookup_insert_Some in Hy as [[_ <-]|[_ Hy]]; [lia|].
  specialize (IH2 _ _ Hy). lia.
Qed.

Lemma ext_ok_from_C02_C11 s :
  (∀ a d, dels (work s) !! a = Some d → delegatee_ok a d) →
  (∀ a x, accts (work s) !! a = Some x → 0 ≤ a_bal x < two256) →
  (∀ st, st ∈ bonded_stakes (work s) ++ frozen_stakes (work s) → 0 ≤ s_power st < two63) →
  supply (work s) < two63 * amountPerPower → ext_ok s.
Proof.
  intros Hd Hra Hrs Hsup. set (l := work s) in *. pose proof apP_pos as Hp.
  assert (Hb : ∀ st, st ∈ bonded_stakes l → 0 ≤ s_power st).
  { intros st Hst. apply (Hrs st), elem_of_app. left. exact Hst. }
  assert (Hf : 0 ≤ frozen_power l).
  { apply sum_power_nonneg. intros st Hst. apply (Hrs st), elem_of_app. right. exact Hst. }
  destruct (total_balance_ge l) as [HT0 HT]; [intros a x Hx; apply Hra in Hx; lia|].
  assert (HD : ∀ a d, dels l !! a = Some d → 0 ≤ d_self d ≤ d_total d ∧ d_total d ≤ bonded_power l).
  { intros a d Had. destruct (Hd a d Had) as (_ & Et & Es & _).
    assert (Hin : (a, d) ∈ map_to_list (dels l)) by (apply elem_of_map_to_list; exact Had).
    assert (Hn : ∀ st, st ∈ d_stakes d → 0 ≤ s_power st).
    { intros st Hst. apply Hb, InvStake.elem_of_bonded. exists a, d. split; assumption. }
    pose proof (sum_power_of_bounds a _ Hn) as Hsb.
    pose proof (sum_concat_ge (λ kv : addr * delegatee, d_stakes kv.2) _ (a, d) Hin Hb) as Hge. cbv beta in Hge. cbn [snd] in Hge.
    unfold bonded_power, bonded_stakes. lia. }
  assert (HB : 0 ≤ bonded_power l) by (apply sum_power_nonneg; exact Hb).
  unfold supply in Hsup. fold l in Hsup.
  split; [split|split].
  - intros a x Hx. specialize (HT _ _ Hx). nia.
  - intros a d b x Had Hx. specialize (HT _ _ Hx). destruct (HD _ _ Had) as [_ Hle]. nia.
  - intros a d Had. destruct (HD _ _ Had) as [H1 _]. lia.
  - intros a d Had. destruct (HD _ _ Had) as [H1 _]. lia.
Qed.
Print Assumptions ext_ok_from_C02_C11.

Lemma ext_along_prefixes ops : ∀ s,
  (∀ pre post, ops = pre ++ post → ext_ok (srun s pre)) → ext_along s ops.
Proof.
  induction ops as [|o r IH]; intros s H.
  - split; [exact (H [] [] eq_refl)|exact I].
  - split; [exact (H [] (o :: r) eq_refl)|]. apply IH. intros pre post ->.
    exact (H (o :: pre) post eq_refl).
Qed.

Corollary run_never_panics_C02_C11 g ops :
  params_ok (gen_params g) → bracketed Idle 0 ops →
  (∀ pre post, ops = pre ++ post →
     let l := work (srun (init_chain g) pre) in
     (∀ a d, dels l !! a = Some d → delegatee_ok a d) ∧ ranges_ok l ∧ supply l < two63 * amountPerPower) →
  run_answers (init_chain g) ops.
Proof.
  intros Hg Hbr H. apply run_never_panics; [exact Hg|exact Hbr|].
  apply ext_along_prefixes. intros pre post E. destruct (H pre post E) as (H1 & (H2 & H2' & _) & H3).
  apply ext_ok_from_C02_C11; [exact H1|exact (λ a x Hx, proj1 (H2 a x Hx))|exact H2'|exact H3].
Qed.
Print Assumptions run_never_panics_C02_C11.

(* ------------------------------------------------------------------ evaluating a run once *)
Definition ext_okb (s : state) : bool :=
  let A := map_to_list (accts (work s)) in
  forallb (λ kx : addr * account, a_bal kx.2 <? two63 * amountPerPower) A &&
  forallb (λ kd : addr * delegatee,
             (0 <=? d_total kd.2) && (d_self kd.2 <=? d_total kd.2) &&
             forallb (λ kx : addr * account, d_total kd.2 * amountPerPower + a_bal kx.2 <? two63 * amountPerPower) A)
          (map_to_list (dels (work s))).

Lemma map_forallb {A} (f : N * A → bool) (m : gmap N A) :
  forallb f (map_to_list m) = true → ∀ k x, m !! k = Some x → f (k, x) = true.
Proof. intros H k x Hx. rewrite forallb_forall in H. apply H, elem_of_list_In, elem_of_map_to_list, Hx. Qed.

Lemma ext_okb_sound s : ext_okb s = true → ext_ok s.
Proof.
  unfold ext_okb. intros H. apply andb_true_iff in H as [HA HD].
  pose proof (map_forallb _ _ HA) as HA'.
  assert (HD' : ∀ a d, dels (work s) !! a = Some d →
            0 ≤ d_total d ∧ d_self d ≤ d_total d ∧
            ∀ b x, accts (work s) !! b = Some x → d_total d * amountPerPower + a_bal x < two63 * amountPerPower).
  { intros a d Hd. pose proof (map_forallb _ _ HD a d Hd) as H. cbn in H.
    apply andb_true_iff in H as [H1 H2]. apply andb_true_iff in H1 as [H0 H1]. apply Z.leb_le in H0, H1.
    split; [exact H0|]. split; [exact H1|]. intros b x Hx. apply Z.ltb_lt, (map_forallb _ _ H2 b x Hx). }
  split; [split|split].
  - intros a x Hx. apply Z.ltb_lt, (HA' a x Hx).
  - intros a d b x Hd Hx. exact (proj2 (proj2 (HD' a d Hd)) b x Hx).
  - intros a d Hd. exact (proj1 (HD' a d Hd)).
  - intros a d Hd. exact (proj1 (proj2 (HD' a d Hd))).
Qed.

Definition all_ok (s : state) (ops : list sop) : bool :=
  (fix go s ops := match ops with [] => true | o :: r =>
     match o with
     | SDeliver t => match (deliver s t).2 with Ok _ => true | _ => false end
     | _ => sstep_ok s o end && go (sstep s o) r end) s ops.

(* The closed examples below say several things about one run: that every operation succeeded, that
   [ext_ok] held throughout, what some states on the way look like.  [run_then c s ops K] says all of it
   in one proposition whose evaluation walks the run once: every state passes [c], every operation
   answers [Ok], and [K] holds of the last state; [K] may go on with the next piece of the run. *)
Definition step_ok (s : state) (o : sop) : option state :=
  match o with
  | SBegin hd => let x := begin_block s hd in match x.2 with Ok _ => Some x.1 | _ => None end
  | SDeliver t => let x := deliver s t in match x.2 with Ok _ => Some x.1 | _ => None end
  | SEnd => let x := end_block s in match x.2 with Ok _ => Some x.1 | _ => None end
  | SCommit => Some (commit s)
  end.
Fixpoint run_then (c : state → bool) (s : state) (ops : list sop) (K : state → Prop) : Prop :=
  if c s then
    match ops with
    | [] => K s
    | o :: r => match step_ok s o with Some s' => run_then c s' r K | None => False end
    end
  else False.

Lemma step_ok_sound s o s' : step_ok s o = Some s' → s' = sstep s o ∧ all_ok s [o] = true.
Proof.
  destruct o as [hd|t| |]; cbn.
  - destruct (begin_block s hd).2; [|discriminate..]. intros [= <-]. split; reflexivity.
  - destruct (deliver s t).2; [|discriminate..]. intros [= <-]. split; reflexivity.
  - destruct (end_block s).2; [|discriminate..]. intros [= <-]. split; reflexivity.
  - intros [= <-]. split; reflexivity.
Qed.

Lemma all_ok_cons s o r : all_ok s (o :: r) = all_ok s [o] && all_ok (sstep s o) r.
Proof. unfold all_ok. rewrite andb_true_r. reflexivity. Qed.

Lemma run_then_sound c ops : ∀ s K, run_then c s ops K → all_ok s ops = true ∧ K (srun s ops).
Proof.
  induction ops as [|o r IH]; intros s K H; cbn [run_then] in H; destruct (c s); try contradiction.
  { split; [reflexivity|exact H]. }
  destruct (step_ok s o) as [s'|] eqn:E; [|contradiction].
  apply step_ok_sound in E as [-> Ho]. apply IH in H as [Hr HK].
  rewrite all_ok_cons, Ho, Hr. split; [reflexivity|exact HK].
Qed.

Lemma run_then_ext ops : ∀ s K, run_then ext_okb s ops K → ext_along s ops.
Proof.
  induction ops as [|o r IH]; intros s K H; cbn [run_then] in H; destruct (ext_okb s) eqn:Ec; try contradiction.
  { split; [apply ext_okb_sound, Ec|exact I]. }
  destruct (step_ok s o) as [s'|] eqn:E; [|contradiction].
  apply step_ok_sound in E as [-> _]. split; [apply ext_okb_sound, Ec|exact (IH _ _ H)].
Qed.

(* a continuation that states [K'] and goes on with the next piece *)
Lemma run_then_app c a b K K' : ∀ s,
  run_then c s a (λ s', K' s' ∧ run_then c s' b K) → run_then c s a K' ∧ run_then c s (a ++ b) K.
Proof.
  induction a as [|o r IH]; intros s H; cbn [run_then app] in *.
  { destruct (c s) eqn:Ec; [|contradiction]. destruct H as [H1 H2]. split; [exact H1|].
    destruct b; cbn [run_then] in *; rewrite Ec in *; exact H2. }
  destruct (c s); [|contradiction]. destruct (step_ok s o) as [s'|]; [|contradiction]. apply IH, H.
Qed.

(* ------------------------------------------------------------------ N1: a concrete state *)
Definition hdr (h : Z) : header := {| h_height := h; h_proposer := Some 1%N; h_votes := []; h_evidence := [] |}.
Definition gen3 : genesis := {|
  gen_params := pr0 10;
  gen_holders := [(1%N, 1000 * amountPerPower); (2%N, 500 * amountPerPower); (3%N, 500 * amountPerPower)];
  gen_validators := [(1%N, 100); (2%N, 100); (3%N, 100)] |}.
Definition hdr3 : header :=
  {| h_height := 3; h_proposer := Some 1%N; h_votes := [(1%N, 100, true); (2%N, 100, true); (3%N, 100, false)];
     h_evidence := [] |}.
Definition st3 : state :=
  srun (init_chain gen3) [SBegin (hdr 1); SEnd; SCommit; SBegin (hdr 2); SEnd; SCommit; SBegin hdr3].

Definition tx_unstake_none : tx := mk_tx TRX_UNSTAKING 1%N 1%N 0 10 100 0 PNone.

Lemma st3_eval : (λ s,
  gparams s = pr0 10 ∧ ext_okb s = true ∧ 0 < lim_base (lim s) ∧ 0 < lim_maxcnt (lim s) ∧
  forallb (λ kr : addr * reward, r_height kr.2 <=? b_height (bctx s)) (map_to_list (rewards (work s))) = true ∧
  match lim_objs (lim s) with Some _ => true | None => false end = true ∧
  length (lastvals s) = 3%nat ∧ size (rewards (work s)) = 2%nat ∧
  (deliver s tx_unstake_none).2 = Panic P_ENDBLOCK) st3.
Proof. vm_compute. repeat split. Qed.

(* the hypotheses of N1 hold in the third block of a three-validator chain: the limiter is active
   and rewards have been issued *)
Example state_ok_ex :
  state_ok st3 ∧ (∃ objs, lim_objs (lim st3) = Some objs) ∧ length (lastvals st3) = 3%nat ∧
  size (rewards (work st3)) = 2%nat.
Proof.
  pose proof st3_eval as (Hg & He & Hb & Hm & Hr & Ho & Hv & Hn & _).
  apply ext_okb_sound in He as (Hs & Ht & _).
  split; [|split; [destruct (lim_objs (lim st3)); [eexists; reflexivity|discriminate Ho]|split; assumption]].
  split; [rewrite Hg; exact pr0_ok|]. split; [exact Hs|]. split; [exact Ht|]. split; [intros objs _; split; assumption|].
  intros a r Har. apply Z.leb_le, (map_forallb _ _ Hr a r Har).
Qed.

(* ------------------------------------------------------------------ each hypothesis is needed *)
Definition stake_tx (from to : addr) (amount nonce : Z) (h : hash) : tx := {|
  t_type := TRX_STAKING; t_from := from; t_to := to; t_from_ok := true; t_to_ok := true; t_amount := amount;
  t_price := 10; t_gas := 100; t_nonce := nonce; t_payload := PNone; t_hash := h; t_sigok := true; t_evm := None |}.

(* (a) A REACHABLE panic when the supply is not below 2^63 RIGO: a genesis holder owning 2^63 RIGO
   stakes them; AmountToPower (gov_params.go:611) panics inside DeliverTx.  Parameters, the
   transaction and its payload are all well-formed; only [supply_small] fails. *)
Definition gen_big : genesis := {|
  gen_params := pr0 10;
  gen_holders := [(1%N, two63 * amountPerPower + 1000000)];
  gen_validators := [(1%N, 100)] |}.

Theorem deliver_panics_reachable : ∃ g ops t,
  params_ok (gen_params g) ∧ tx_wf t ∧ payload_kind_ok t ∧
  (deliver (srun (init_chain g) ops) t).2 = Panic P_AMOUNT_TO_POWER.
Proof.
  exists gen_big, [SBegin (hdr 1)], (stake_tx 1%N 1%N (two63 * amountPerPower) 0 50%N).
  split; [exact pr0_ok|]. split; [zc|]. split; [intros E; vm_compute in E; discriminate|].
  vm_compute. reflexivity.
Qed.
Print Assumptions deliver_panics_reachable.

(* (b) every balance below 2^63 RIGO but bonded power + balance not: the "delegatee power
   overflow" panic of ValidateTrx (ctrler.go:474) *)
Definition gen_big2 : genesis := {|
  gen_params := pr0 10;
  gen_holders := [(1%N, 2 ^ 62 * amountPerPower + 1000000); (2%N, 2 ^ 62 * amountPerPower + 1000000)];
  gen_validators := [(1%N, 100)] |}.

Theorem deliver_never_panics_refuted_total : ∃ g ops t,
  params_ok (gen_params g) ∧ tx_wf t ∧ payload_kind_ok t ∧
  (∀ a x, accts (work (srun (init_chain g) ops)) !! a = Some x → a_bal x < two63 * amountPerPower) ∧
  (deliver (srun (init_chain g) ops) t).2 = Panic P_POWER_OVERFLOW.
Proof.
  exists gen_big2, [SBegin (hdr 1); SDeliver (stake_tx 1%N 1%N (2 ^ 62 * amountPerPower) 0 50%N)],
         (stake_tx 2%N 1%N (2 ^ 62 * amountPerPower) 0 51%N).
  split; [exact pr0_ok|]. split; [zc|]. split; [intros E; vm_compute in E; discriminate|].
  assert (H : (λ s, forallb (λ kx : addr * account, a_bal kx.2 <? two63 * amountPerPower) (map_to_list (accts (work s))) = true ∧
                    (deliver s (stake_tx 2%N 1%N (2 ^ 62 * amountPerPower) 0 51%N)).2 = Panic P_POWER_OVERFLOW)
                (srun (init_chain gen_big2) [SBegin (hdr 1); SDeliver (stake_tx 1%N 1%N (2 ^ 62 * amountPerPower) 0 50%N)]))
    by (vm_compute; split; reflexivity).
  destruct H as [Hb Hd]. split; [|exact Hd]. intros a x Hx. apply Z.ltb_lt, (map_forallb _ _ Hb a x Hx).
Qed.

(* (c) a TRX_UNSTAKING transaction without an unstaking payload (excluded by both decoders) *)
Theorem deliver_never_panics_refuted_kind : ∃ s t,
  state_ok s ∧ tx_wf t ∧ (deliver s t).2 = Panic P_ENDBLOCK.
Proof.
  exists st3, tx_unstake_none.
  split; [apply state_ok_ex|]. split; [zc|]. apply st3_eval.
Qed.

(* (d) minValidatorStake below one RIGO (the only conjunct of params_ok that fails; proposals are
   checked for an upper bound of this parameter only, gov/ctrler.go:212): delegatees without any
   power stay eligible, and once every validator has been slashed to nothing the limiter's base
   is 0 and checkUpdatablePowerLimit (limiter.go:163) divides by zero *)
Definition pr_low : params := {|
  g_version := 1; g_maxValidatorCnt := 21; g_minValidatorStake := 1;
  g_minDelegatorStake := 0; g_rewardPerPower := 1000; g_lazyRewardBlocks := 10; g_lazyApplyingBlocks := 10;
  g_gasPrice := 10; g_minTrxGas := 10; g_maxTrxGas := 1000000; g_maxBlockGas := 10000000;
  g_minVotingPeriodBlocks := 1; g_maxVotingPeriodBlocks := 100; g_minSelfStakeRatio := 50;
  g_maxUpdatableStakeRatio := 30; g_maxIndividualStakeRatio := 100; g_slashRatio := 50;
  g_signedBlocksWindow := 100; g_minSignedBlocks := 10 |}.
Definition gen_low : genesis := {|
  gen_params := pr_low;
  gen_holders := [(1%N, 1000 * amountPerPower); (2%N, 500 * amountPerPower); (3%N, 500 * amountPerPower)];
  gen_validators := [(1%N, 1); (2%N, 1); (3%N, 1)] |}.
Definition hdr_evi (h : Z) : header :=
  {| h_height := h; h_proposer := Some 1%N; h_votes := []; h_evidence := [1%N; 2%N; 3%N] |}.

Theorem deliver_never_panics_refuted_minstake : ∃ g ops t,
  params_ok (merge_params (gen_params g) (pr0 10)) ∧ 0 < g_minValidatorStake (gen_params g) ∧
  g_minValidatorStake (pr0 10) ≠ g_minValidatorStake (gen_params g) ∧
  tx_wf t ∧ payload_kind_ok t ∧
  supply_small (work (srun (init_chain g) ops)) ∧ totals_nonneg (work (srun (init_chain g) ops)) ∧
  (deliver (srun (init_chain g) ops) t).2 = Panic P_LIMITER_DIV.
Proof.
  exists gen_low, [SBegin (hdr 1); SEnd; SCommit; SBegin (hdr 2); SEnd; SCommit; SBegin (hdr_evi 3); SEnd; SCommit;
                   SBegin (hdr 4)],
         (stake_tx 1%N 1%N amountPerPower 0 50%N).
  split; [zc|]. split; [reflexivity|]. split; [discriminate|]. split; [zc|].
  split; [intros E; vm_compute in E; discriminate|].
  assert (H : (λ s, ext_okb s = true ∧ (deliver s (stake_tx 1%N 1%N amountPerPower 0 50%N)).2 = Panic P_LIMITER_DIV)
                (srun (init_chain gen_low) [SBegin (hdr 1); SEnd; SCommit; SBegin (hdr 2); SEnd; SCommit;
                                            SBegin (hdr_evi 3); SEnd; SCommit; SBegin (hdr 4)]))
    by (vm_compute; split; reflexivity).
  destruct H as [He Hd]. apply ext_okb_sound in He as (Hs & Ht & _).
  split; [exact Hs|]. split; [exact Ht|exact Hd].
Qed.

(* ------------------------------------------------------------------ N3 on a concrete chain *)
Definition p_zero : params := {|
  g_version := 0; g_maxValidatorCnt := 0; g_minValidatorStake := 0; g_minDelegatorStake := 0;
  g_rewardPerPower := 0; g_lazyRewardBlocks := 0; g_lazyApplyingBlocks := 0; g_gasPrice := 0;
  g_minTrxGas := 0; g_maxTrxGas := 0; g_maxBlockGas := 0; g_minVotingPeriodBlocks := 0;
  g_maxVotingPeriodBlocks := 0; g_minSelfStakeRatio := 0; g_maxUpdatableStakeRatio := 0;
  g_maxIndividualStakeRatio := 0; g_slashRatio := 0; g_signedBlocksWindow := 0; g_minSignedBlocks := 0 |}.
(* a parameter document that sets slashRatio to 30 and maxValidatorCnt to 10 *)
Definition opt_slash : params := {|
  g_version := 0; g_maxValidatorCnt := 10; g_minValidatorStake := 0; g_minDelegatorStake := 0;
  g_rewardPerPower := 0; g_lazyRewardBlocks := 0; g_lazyApplyingBlocks := 0; g_gasPrice := 0;
  g_minTrxGas := 0; g_maxTrxGas := 0; g_maxBlockGas := 0; g_minVotingPeriodBlocks := 0;
  g_maxVotingPeriodBlocks := 0; g_minSelfStakeRatio := 0; g_maxUpdatableStakeRatio := 0;
  g_maxIndividualStakeRatio := 0; g_slashRatio := 30; g_signedBlocksWindow := 0; g_minSignedBlocks := 0 |}.

Lemma opt_ok_zero : opt_ok p_zero.
Proof. intros cur H. destruct cur. exact H. Qed.
Lemma opt_ok_slash : opt_ok opt_slash.
Proof.
  intros cur H. destruct cur. unfold params_ok in *. cbn in *. unfold pick. cbn.
  destruct H as (H1 & H2 & H3 & H4 & H5 & H6 & H7 & H8 & H9 & H10 & H11).
  repeat split; try lia; try tauto.
Qed.

Definition pr1 : params := {|
  g_version := 1; g_maxValidatorCnt := 21; g_minValidatorStake := 10 * amountPerPower;
  g_minDelegatorStake := 0; g_rewardPerPower := 1000; g_lazyRewardBlocks := 10; g_lazyApplyingBlocks := 1;
  g_gasPrice := 10; g_minTrxGas := 10; g_maxTrxGas := 1000000; g_maxBlockGas := 10000000;
  g_minVotingPeriodBlocks := 1; g_maxVotingPeriodBlocks := 100; g_minSelfStakeRatio := 50;
  g_maxUpdatableStakeRatio := 30; g_maxIndividualStakeRatio := 100; g_slashRatio := 50;
  g_signedBlocksWindow := 100; g_minSignedBlocks := 10 |}.
Lemma pr1_ok : params_ok pr1.  Proof. zc. Qed.

Definition gen4 : genesis := {|
  gen_params := pr1;
  gen_holders := [(1%N, 1000 * amountPerPower); (2%N, 500 * amountPerPower); (3%N, 500 * amountPerPower)];
  gen_validators := [(1%N, 100); (2%N, 100); (3%N, 100)] |}.

Definition prop_tx (o : option params) : tx :=
  mk_tx TRX_PROPOSAL 1%N 0%N 0 10 100 0 (PProposal 4 1 6 PROPOSAL_GOVPARAMS [(1%N, o)] true).
Definition vote_tx (from : addr) (nonce : Z) : tx :=
  mk_tx TRX_VOTING from 0%N 0 10 100 nonce (PVoting 77%N 0).

(* blocks 1-2: empty; 3: rewards, a proposal, a delegation, a self-stake; 4: two votes, an
   unstaking; 5: idle; 6: the proposal is frozen; 7: it is applied *)
Definition run_a (o : option params) : list sop :=
  [SBegin (hdr 1); SEnd; SCommit; SBegin (hdr 2); SEnd; SCommit;
   SBegin hdr3; SDeliver (prop_tx o); SDeliver (stake_tx 2%N 1%N (20 * amountPerPower) 0 60%N);
   SDeliver (stake_tx 3%N 3%N (5 * amountPerPower) 0 61%N); SEnd; SCommit;
   SBegin (hdr 4); SDeliver (vote_tx 1%N 1); SDeliver (vote_tx 2%N 1);
   SDeliver (mk_tx TRX_UNSTAKING 2%N 1%N 0 10 100 2 (PUnstake 60%N true)); SEnd; SCommit;
   SBegin (hdr 5); SEnd; SCommit].
Definition run_b : list sop := [SBegin (hdr 6); SEnd; SCommit].
Definition run_c : list sop := [SBegin (hdr 7); SEnd; SCommit; SBegin (hdr 8)].
Definition run_ex : list sop := run_a (Some opt_slash) ++ run_b ++ run_c.

Lemma tx_ok_plain t :
  tx_wf t → t_type t ≠ TRX_UNSTAKING → (∀ a b c d e f, t_payload t ≠ PProposal a b c d e f) → tx_ok t.
Proof.
  intros Hwf Hty Hp. split; [exact Hwf|]. split; [intros E; contradiction|].
  unfold payload_consistent, proposal_params_ok. destruct (t_payload t); try (split; exact I).
  exfalso. eapply Hp. reflexivity.
Qed.

Lemma tx_ok_prop : tx_ok (prop_tx (Some opt_slash)).
Proof.
  split; [zc|]. split; [intros E; vm_compute in E; discriminate|].
  unfold payload_consistent, proposal_params_ok. cbn. split.
  - intros _. repeat constructor. eexists; reflexivity.
  - constructor; [|constructor]. intros np' E. cbn in E. injection E as <-. exact opt_ok_slash.
Qed.

Ltac solve_bracketed :=
  unfold run_a, run_b, run_c; cbn [app bracketed];
  repeat match goal with
  | |- _ ∧ _ => split
  | |- tx_ok (prop_tx _) => exact tx_ok_prop
  | |- tx_ok (mk_tx TRX_UNSTAKING _ _ _ _ _ _ _) =>
      split; [zc|split; [intros _; eexists _, _; reflexivity|split; exact I]]
  | |- tx_ok _ => apply tx_ok_plain; [zc|discriminate|discriminate]
  | |- _ = _ => reflexivity
  | |- _ → _ => let H := fresh in intros H; first [lia|exfalso; apply H; reflexivity]
  | |- True => exact I
  end.

Lemma run_ex_bracketed : bracketed Idle 0 run_ex.
Proof. unfold run_ex. solve_bracketed. Qed.

(* the run with the states the examples look at: after block 5, inside block 6, after its EndBlock *)
Lemma run_ex_eval :
  run_then ext_okb (init_chain gen4) (run_a (Some opt_slash)) (λ s5,
    size (rewards (work s5)) = 2%nat ∧
    run_then ext_okb s5 [SBegin (hdr 6)] (λ s6,
      (size (props (base_of s6)) = 1%nat ∧ size (frozen (base_of s6)) = 1%nat ∧
       size (fprops (work (end_block s6).1)) = 1%nat) ∧
      run_then ext_okb s6 [SEnd] (λ s7,
        (end_block s7).2 = Panic P_ENDBLOCK ∧
        run_then ext_okb s7 (SCommit :: run_c) (λ s, g_slashRatio (gparams s) = 30)))).
Proof. vm_compute. repeat split. Qed.

Example run_never_panics_ex :
  params_ok (gen_params gen4) ∧ bracketed Idle 0 run_ex ∧ ext_along (init_chain gen4) run_ex ∧
  run_answers (init_chain gen4) run_ex ∧
  (* every operation succeeded, and the proposal went through *)
  all_ok (init_chain gen4) run_ex = true ∧
  g_slashRatio (gparams (srun (init_chain gen4) run_ex)) = 30.
Proof.
  pose proof run_ex_eval as H.
  apply run_then_app in H as [_ H]. apply run_then_app in H as [_ H]. apply run_then_app in H as [_ H].
  change (_ ++ _) with run_ex in H.
  pose proof (run_then_ext _ _ _ H) as Hext. apply run_then_sound in H as [Hok Hs].
  split; [exact pr1_ok|]. split; [exact run_ex_bracketed|]. split; [exact Hext|].
  split; [apply run_never_panics; [exact pr1_ok|exact run_ex_bracketed|exact Hext]|]. split; assumption.
Qed.

(* the hypotheses of the two block theorems on concrete states of this chain: before block 6
   (rewards issued, an unbonding stake and an open proposal committed) and inside block 6, whose
   EndBlock freezes the proposal *)
Example block_theorems_ex :
  let s5 := srun (init_chain gen4) (run_a (Some opt_slash)) in
  let s6 := srun (init_chain gen4) (run_a (Some opt_slash) ++ [SBegin (hdr 6)]) in
  (reward_heights_ok s5 ∧ heights_ok s5 ∧ committed s5 ≠ [] ∧ size (rewards (work s5)) = 2%nat) ∧
  (0 ≤ g_maxValidatorCnt (gparams s6) ∧ keys_ok s6 ∧ gov_ok (λ _, True) (base_of s6) ∧
   frozen_owned (accts (work s6)) (base_of s6) ∧
   size (props (base_of s6)) = 1%nat ∧ size (frozen (base_of s6)) = 1%nat) ∧
  (∃ ups, (end_block s6).2 = Ok ups) ∧ size (fprops (work (end_block s6).1)) = 1%nat.
Proof.
  cbv zeta. set (ops5 := run_a (Some opt_slash)). set (ops6 := ops5 ++ [SBegin (hdr 6)]).
  pose proof run_ex_eval as H. fold ops5 in H.
  apply run_then_app in H as [H5 H]. apply run_then_app in H as [H6 _]. fold ops6 in H6.
  pose proof (run_then_ext _ _ _ H5) as He5. pose proof (run_then_ext _ _ _ H6) as He6.
  apply run_then_sound in H5 as [_ O1]. apply run_then_sound in H6 as [_ (O2 & O3 & O4)].
  (* the invariants of N3 give every hypothesis of N2 *)
  assert (Hb5 : bracketed Idle 0 ops5) by (unfold ops5; solve_bracketed).
  assert (Hb6 : bracketed Idle 0 ops6) by (unfold ops6, ops5; solve_bracketed).
  destruct (run_invariant gen4 _ pr1_ok Hb5 He5) as ((Hcore5 & _ & _ & Hlen5 & _) & _ & Hh5 & _).
  destruct (run_invariant gen4 _ pr1_ok Hb6 He6) as ((Hcore6 & _) & _ & _ & Hg6 & Hf6 & Hk6).
  cbv zeta in *. destruct Hcore5 as (_ & _ & (_ & _ & Hr5) & _).
  destruct Hcore6 as ((_ & _ & _ & _ & Hmax & _) & _). apply Z.lt_le_incl in Hmax.
  assert (Ep : (end_phase Idle 0 ops6).1 = InBlock) by reflexivity.
  rewrite Ep in Hk6. specialize (Hk6 ltac:(discriminate)).
  split; [|split; [|split]].
  - split; [exact Hr5|]. split; [exact Hh5|]. split; [|exact O1].
    intros E. rewrite E in Hlen5. vm_compute in Hlen5. discriminate Hlen5.
  - split; [exact Hmax|]. split; [exact Hk6|]. split; [exact Hg6|]. split; [exact Hf6|]. split; assumption.
  - destruct (end_block_ok (λ _, True) (λ _, True) _ Hmax Hk6 Hg6 Hf6) as (s' & ups & E & _); [auto|auto|].
    exists ups. rewrite E. reflexivity.
  - exact O4.
Qed.

(* ------------------------------------------------------------------ N2/N3: the hypotheses are needed *)
(* (e) votes in the first block (excluded by Tendermint: block 1 has no LastCommitInfo) *)
Theorem begin_block_never_panics_refuted_votes : ∃ g hd,
  params_ok (gen_params g) ∧ h_height hd = last_height (init_chain g) + 1 ∧
  (begin_block (init_chain g) hd).2 = Panic P_BEGINBLOCK.
Proof.
  exists gen4, {| h_height := 1; h_proposer := Some 1%N; h_votes := [(1%N, 100, true)]; h_evidence := [] |}.
  split; [exact pr1_ok|]. split; vm_compute; reflexivity.
Qed.

(* (f) EndBlock twice in the block that freezes a proposal: the second DelFinality fails *)
Theorem end_block_never_panics_refuted_bracket : ∃ g ops,
  params_ok (gen_params g) ∧ all_ok (init_chain g) (ops ++ [SEnd]) = true ∧
  (end_block (srun (init_chain g) (ops ++ [SEnd]))).2 = Panic P_ENDBLOCK.
Proof.
  exists gen4, (run_a (Some opt_slash) ++ [SBegin (hdr 6)]).
  pose proof run_ex_eval as H.
  apply run_then_app in H as [_ H]. apply run_then_app in H as [_ H]. apply run_then_app in H as [H _].
  apply run_then_sound in H as [Hok Hp]. split; [exact pr1_ok|]. split; assumption.
Qed.

(* (g) [payload_consistent] dropped: a proposal flagged as parsable whose option does not parse
   wins the vote; applyProposals fails at its applying height *)
Theorem run_never_panics_refuted_consistent : ∃ g ops,
  params_ok (gen_params g) ∧ all_ok (init_chain g) ops = true ∧
  (end_block (srun (init_chain g) ops)).2 = Panic P_ENDBLOCK.
Proof.
  exists gen4, (run_a None ++ run_b ++ [SBegin (hdr 7)]).
  assert (H : run_then (λ _, true) (init_chain gen4) (run_a None ++ run_b ++ [SBegin (hdr 7)])
                (λ s, (end_block s).2 = Panic P_ENDBLOCK)) by (vm_compute; reflexivity).
  split; [exact pr1_ok|]. exact (run_then_sound _ _ _ _ H).
Qed.

(* (h) [proposal_params_ok] dropped: the winning option sets maxValidatorCnt to -1; once it is in
   force EndBlock's validator selection slices with a negative bound, and an unstaking transaction
   divides by the limiter's zero base *)
Definition opt_bad : params := {|
  g_version := 0; g_maxValidatorCnt := -1; g_minValidatorStake := 0; g_minDelegatorStake := 0;
  g_rewardPerPower := 0; g_lazyRewardBlocks := 0; g_lazyApplyingBlocks := 0; g_gasPrice := 0;
  g_minTrxGas := 0; g_maxTrxGas := 0; g_maxBlockGas := 0; g_minVotingPeriodBlocks := 0;
  g_maxVotingPeriodBlocks := 0; g_minSelfStakeRatio := 0; g_maxUpdatableStakeRatio := 0;
  g_maxIndividualStakeRatio := 0; g_slashRatio := 0; g_signedBlocksWindow := 0; g_minSignedBlocks := 0 |}.

Theorem run_never_panics_refuted_params : ∃ g ops t,
  params_ok (gen_params g) ∧ all_ok (init_chain g) ops = true ∧ tx_wf t ∧ payload_kind_ok t ∧
  (end_block (srun (init_chain g) ops)).2 = Panic P_SELECT ∧
  (deliver (srun (init_chain g) ops) t).2 = Panic P_LIMITER_DIV.
Proof.
  exists gen4, (run_a (Some opt_bad) ++ run_b ++ run_c), (mk_tx TRX_UNSTAKING 3%N 3%N 0 10 100 1 (PUnstake 61%N true)).
  assert (H : run_then (λ _, true) (init_chain gen4) (run_a (Some opt_bad) ++ run_b ++ run_c)
                (λ s, (end_block s).2 = Panic P_SELECT ∧
                      (deliver s (mk_tx TRX_UNSTAKING 3%N 3%N 0 10 100 1 (PUnstake 61%N true))).2 = Panic P_LIMITER_DIV))
    by (vm_compute; split; reflexivity).
  apply run_then_sound in H as [Hok Hp].
  split; [exact pr1_ok|]. split; [exact Hok|]. split; [zc|]. split; [intros _; eexists _, _; reflexivity|exact Hp].
Qed.

Print Assumptions run_never_panics_refuted_params.
