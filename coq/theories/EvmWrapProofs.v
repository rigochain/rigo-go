(* EvmWrapProofs.v — proofs about the EVM state wrapper model of EvmWrap.v (property C17).

   W1  wrapper_refines_reference(_tx): on every disciplined call sequence the wrapper (on
       arbitrary stale geth balances/nonces) answers every call as geth alone does on the native
       balances/nonces; simulation invariant [Inv].
       wrapper_refuted_without_snapshot: without "Snapshot before Prepare" (issue #69) it does not.
   W2  finish_syncs_out, finish_order_irrelevant, finish_matches_reference, tx_success.
   W3  top_level_revert_no_effect.
   W4  examples evaluated on both machines. *)
From Coq Require Import ZArith NArith Lia.
From Rigo Require Import EvmWrap.
From stdpp Require Import gmap.

(** * journal: undoing *)

Lemma sj_undo1 e j s : sj (undo1 e j s) = j.
Proof. by destruct e. Qed.

Lemma undo_nil k s : sj s = [] → undo k s = s.
Proof. intros Hs. destruct k; simpl; [done|]. by rewrite Hs. Qed.

Lemma undo_add a b s : undo (a + b) s = undo b (undo a s).
Proof.
  revert s. induction a as [|a IH]; intros s; simpl; [done|].
  destruct (sj s) as [|e j] eqn:Hs; [by rewrite undo_nil|]. apply IH.
Qed.

Lemma undo_length k s : length (sj (undo k s)) = length (sj s) - k.
Proof.
  revert s. induction k as [|k IH]; intros s; simpl; [lia|].
  destruct (sj s) as [|e j] eqn:Hs; simpl; [by rewrite Hs|].
  rewrite IH, sj_undo1. done.
Qed.

Lemma partial_alter_insert_old {A} (m : gmap addr A) a v :
  partial_alter (λ _, m !! a) a (<[a:=v]> m) = m.
Proof.
  apply map_eq; intros i. destruct (decide (i = a)) as [->|Hne].
  - by rewrite lookup_partial_alter.
  - by rewrite lookup_partial_alter_ne, lookup_insert_ne.
Qed.

(* [s'] is [s] plus journaled changes: undoing the new entries gives back [s] exactly *)
Definition sext (s s' : jstate) : Prop :=
  ∃ k, undo k s' = s ∧ length (sj s') = k + length (sj s).

Lemma sext_refl s : sext s s.
Proof. by exists 0. Qed.

Lemma sext_trans s1 s2 s3 : sext s1 s2 → sext s2 s3 → sext s1 s3.
Proof.
  intros (k1 & Hu1 & Hl1) (k2 & Hu2 & Hl2). exists (k2 + k1). split.
  - by rewrite undo_add, Hu2.
  - lia.
Qed.

Lemma sext_length s s' : sext s s' → length (sj s) ≤ length (sj s').
Proof. intros (k & _ & Hl). lia. Qed.

Lemma set_bal_sext a v s : sext s (set_bal a v s).
Proof.
  exists 1. split; [|done]. destruct s as [b n c j]; simpl.
  by rewrite partial_alter_insert_old.
Qed.

Lemma set_nonce_sext a v s : sext s (set_nonce a v s).
Proof.
  exists 1. split; [|done]. destruct s as [b n c j]; simpl.
  by rewrite partial_alter_insert_old.
Qed.

Lemma in_acl_true s a : in_acl s a = true ↔ is_Some (sacl s !! a).
Proof. unfold in_acl. destruct (sacl s !! a); split; intros H; try done; by destruct H. Qed.

Lemma in_acl_false s a : in_acl s a = false ↔ sacl s !! a = None.
Proof. unfold in_acl. by destruct (sacl s !! a). Qed.

Lemma add_acl_sext a s : sext s (add_acl a s).
Proof.
  unfold add_acl. destruct (in_acl s a) eqn:Hin; [apply sext_refl|].
  apply in_acl_false in Hin. exists 1. split; [|done].
  destruct s as [b n c j]; simpl in *. by rewrite delete_insert.
Qed.

Lemma undo_sext s s' jl :
  sext s s' → jl ≤ length (sj s) →
  undo (length (sj s') - jl) s' = undo (length (sj s) - jl) s.
Proof.
  intros (k & Hu & Hl) Hjl.
  replace (length (sj s') - jl) with (k + (length (sj s) - jl)) by lia.
  by rewrite undo_add, Hu.
Qed.

(* reverting to journal length [jl] and then to [jl2 ≤ jl] is reverting to [jl2] *)
Lemma undo_undo_sub s jl jl2 :
  jl2 ≤ jl →
  undo (length (sj (undo (length (sj s) - jl) s)) - jl2) (undo (length (sj s) - jl) s)
  = undo (length (sj s) - jl2) s.
Proof. intros Hle. rewrite undo_length, <- undo_add. f_equal. lia. Qed.

(** * views after the elementary writes *)

Lemma gb_set_bal a v s b : gb (set_bal a v s) b = if decide (b = a) then v else gb s b.
Proof.
  unfold gb; simpl. destruct (decide (b = a)) as [->|].
  - by rewrite lookup_insert.
  - by rewrite lookup_insert_ne.
Qed.
Lemma gn_set_bal a v s b : gn (set_bal a v s) b = gn s b.
Proof. done. Qed.
Lemma gn_set_nonce a v s b : gn (set_nonce a v s) b = if decide (b = a) then v else gn s b.
Proof.
  unfold gn; simpl. destruct (decide (b = a)) as [->|].
  - by rewrite lookup_insert.
  - by rewrite lookup_insert_ne.
Qed.
Lemma gb_set_nonce a v s b : gb (set_nonce a v s) b = gb s b.
Proof. done. Qed.
Lemma gb_add_acl a s b : gb (add_acl a s) b = gb s b.
Proof. unfold add_acl. by destruct (in_acl s a). Qed.
Lemma gn_add_acl a s b : gn (add_acl a s) b = gn s b.
Proof. unfold add_acl. by destruct (in_acl s a). Qed.

Lemma in_acl_add_acl a s b :
  in_acl (add_acl a s) b = if decide (b = a) then true else in_acl s b.
Proof.
  unfold add_acl. destruct (in_acl s a) eqn:Hin.
  - destruct (decide (b = a)) as [->|]; done.
  - unfold in_acl; simpl. destruct (decide (b = a)) as [->|].
    + by rewrite lookup_insert.
    + by rewrite lookup_insert_ne.
Qed.

Definition op_target (o : wop) : option addr :=
  match o with
  | OGetBalance a | OGetNonce a | OAddBalance a _ | OSubBalance a _
  | OSetNonce a _ | OCreate a | OSuicide a => Some a
  | _ => None
  end.

Inductive jwrite (a : addr) (s : jstate) : jstate → Prop :=
  | jw_none : jwrite a s s
  | jw_bal v : jwrite a s (set_bal a v s)
  | jw_nonce v : jwrite a s (set_nonce a v s).

Lemma jstep_shape o s out s' :
  jstep o s = Some (out, s') → ∃ a, op_target o = Some a ∧ jwrite a s s'.
Proof.
  destruct o; simpl; intros [= <- <-] || done; eexists; (split; [done|]);
    unfold j_add_balance, j_sub_balance, j_create, j_suicide; try destruct (Z.eqb _ _); constructor.
Qed.

Lemma jstep_total o s r x : jstep o s = Some x → ∃ y, jstep o r = Some y.
Proof. destruct o; simpl; intros; try done; eauto. Qed.

Lemma jstep_none o s r : jstep o s = None → jstep o r = None.
Proof. destruct o; simpl; intros; done. Qed.

Lemma jstep_sext o s out s' : jstep o s = Some (out, s') → sext s s'.
Proof.
  intros (a & _ & [| |])%jstep_shape; [apply sext_refl|apply set_bal_sext|apply set_nonce_sext].
Qed.

Lemma jstep_acl o s out s' : jstep o s = Some (out, s') → sacl s' = sacl s.
Proof. by intros (a & _ & [| |])%jstep_shape. Qed.

Lemma jstep_other o s out s' a b :
  jstep o s = Some (out, s') → op_target o = Some a → b ≠ a →
  gb s' b = gb s b ∧ gn s' b = gn s b.
Proof.
  intros (a' & Ht' & Hw)%jstep_shape Ht Hne. rewrite Ht in Ht'. injection Ht' as <-.
  destruct Hw; rewrite ?gb_set_bal, ?gn_set_nonce, ?decide_False by done; done.
Qed.

Lemma jstep_same o s r out s' out' r' a :
  jstep o s = Some (out, s') → jstep o r = Some (out', r') → op_target o = Some a →
  gb s a = gb r a → gn s a = gn r a →
  out = out' ∧ gb s' a = gb r' a ∧ gn s' a = gn r' a.
Proof.
  destruct o; simpl; intros H H' Ht Hb Hn; try done;
    injection H as <- <-; injection H' as <- <-; injection Ht as <-;
    unfold j_add_balance, j_sub_balance, j_create, j_suicide;
    try (destruct (Z.eqb _ _)); rewrite ?gb_set_bal, ?gn_set_bal, ?gb_set_nonce, ?gn_set_nonce;
    rewrite ?Hb, ?Hn; try done; by destruct (decide (_ = _)).
Qed.

(** * revisions *)

Fixpoint revs_ok (bi bj : nat) (revs : list (nat * nat)) : Prop :=
  match revs with
  | [] => True
  | (i, jl) :: rest => i < bi ∧ jl ≤ bj ∧ revs_ok i jl rest
  end.

Definition gwf (g : gstate) : Prop := revs_ok (gnext g) (length (sj (gs g))) (grevs g).

Lemma revs_ok_weaken bi bj bi' bj' revs :
  bi ≤ bi' → bj ≤ bj' → revs_ok bi bj revs → revs_ok bi' bj' revs.
Proof. destruct revs as [|[i jl] rest]; simpl; [done|]. intros ?? (?&?&?). repeat split; [lia..|done]. Qed.

Lemma find_rev_ok bi bj revs id jl rest :
  revs_ok bi bj revs → find_rev id revs = Some (jl, rest) →
  id < bi ∧ jl ≤ bj ∧ revs_ok id jl rest.
Proof.
  revert bi bj. induction revs as [|[i j] tl IH]; intros bi bj; simpl; [done|].
  intros (Hi & Hj & Hok). destruct (Nat.eqb_spec i id) as [->|Hne].
  - intros [= <- <-]. done.
  - intros Hf. destruct (IH _ _ Hok Hf) as (?&?&?). repeat split; [lia..|done].
Qed.

Lemma gwf_ext g s' : gwf g → sext (gs g) s' → gwf (GS s' (grevs g) (gnext g)).
Proof.
  intros Hwf Hs. unfold gwf in *; simpl.
  eapply revs_ok_weaken; [done| |exact Hwf]. by apply sext_length.
Qed.

Lemma gwf_snapshot g : gwf g → gwf (g_snapshot g).2.
Proof. intros Hwf. unfold gwf in *; simpl. repeat split; [lia..|done]. Qed.

Lemma gwf_undo id jl rest g :
  id < gnext g → jl ≤ length (sj (gs g)) → revs_ok id jl rest →
  gwf (GS (undo (length (sj (gs g)) - jl) (gs g)) rest (gnext g)).
Proof.
  intros Hid Hjl Hok. unfold gwf; simpl. rewrite undo_length.
  eapply revs_ok_weaken; [| |exact Hok]; lia.
Qed.

Lemma find_rev_older bi bj revs id jl rest id2 x :
  revs_ok bi bj revs → find_rev id revs = Some (jl, rest) →
  find_rev id2 rest = Some x → find_rev id2 revs = Some x.
Proof.
  revert bi bj. induction revs as [|[i j] tl IH]; intros bi bj; simpl; [done|].
  intros (Hi & Hj & Hok). destruct x as [jl2 rest2]. destruct (Nat.eqb_spec i id) as [->|Hne].
  - intros [= <- <-] Hf2. destruct (find_rev_ok _ _ _ _ _ _ Hok Hf2) as (Hlt&_&_).
    destruct (Nat.eqb_spec id id2); [lia|done].
  - intros Hf Hf2. pose proof (IH _ _ Hok Hf Hf2) as Hf3.
    destruct (find_rev_ok _ _ _ _ _ _ Hok Hf3) as (Hlt&_&_).
    destruct (Nat.eqb_spec i id2); [lia|done].
Qed.

Lemma find_rev_ids revs1 revs2 id jl rest :
  revs1.*1 = revs2.*1 → find_rev id revs1 = Some (jl, rest) →
  ∃ jl' rest', find_rev id revs2 = Some (jl', rest') ∧ rest.*1 = rest'.*1.
Proof.
  revert revs2. induction revs1 as [|[i j] tl IH]; intros [|[i' j'] tl']; simpl; try done.
  intros [= <- Htl]. destruct (Nat.eqb_spec i id) as [->|Hne].
  - intros [= <- <-]. eauto.
  - intros Hf. by apply IH.
Qed.

(** * keep_tags *)

Lemma keep_tags_lookup id m a t : keep_tags id m !! a = Some t ↔ m !! a = Some t ∧ t ≤ id.
Proof. unfold keep_tags. by rewrite map_filter_lookup_Some. Qed.

Lemma keep_tags_all id m : (∀ a t, m !! a = Some t → t ≤ id) → keep_tags id m = m.
Proof.
  intros H. apply map_eq; intros a. apply option_eq; intros t.
  rewrite keep_tags_lookup. naive_solver.
Qed.

Lemma keep_tags_none id m : (∀ a t, m !! a = Some t → id < t) → keep_tags id m = ∅.
Proof.
  intros H. apply map_eq; intros a. rewrite lookup_empty. apply option_eq; intros t.
  rewrite keep_tags_lookup. split; [|done]. intros [Hm Hle]. apply H in Hm. lia.
Qed.

Lemma keep_tags_twice id2 id m : id2 ≤ id → keep_tags id2 (keep_tags id m) = keep_tags id2 m.
Proof.
  intros Hle. apply map_eq; intros a. apply option_eq; intros t.
  rewrite !keep_tags_lookup. split; [naive_solver|]. intros [? ?]. repeat split; [done|lia|done].
Qed.

Lemma keep_tags_insert_new id m a t : id < t → m !! a = None →
  keep_tags id (<[a:=t]> m) = keep_tags id m.
Proof.
  intros Hlt Hnone. apply map_eq; intros b. apply option_eq; intros u.
  rewrite !keep_tags_lookup. destruct (decide (b = a)) as [->|Hne].
  - rewrite lookup_insert, Hnone. split; [|naive_solver]. intros [[= <-] ?]. lia.
  - by rewrite lookup_insert_ne.
Qed.

(** * runs *)

Lemma wrun_app ops1 ops2 w :
  wrun (ops1 ++ ops2) w =
  ((wrun ops1 w).1 ++ (wrun ops2 (wrun ops1 w).2).1, (wrun ops2 (wrun ops1 w).2).2).
Proof.
  revert w. induction ops1 as [|o r IH]; intros w; simpl.
  - by destruct (wrun ops2 w).
  - destruct (wstep o w) as [out w1]. rewrite IH.
    destruct (wrun r w1) as [outs1 w2]; simpl. by destruct (wrun ops2 w2).
Qed.

Lemma wrun_cons o r w :
  wrun (o :: r) w = ((wstep o w).1 :: (wrun r (wstep o w).2).1, (wrun r (wstep o w).2).2).
Proof. simpl. destruct (wstep o w) as [out w1]; simpl. by destruct (wrun r w1). Qed.

Lemma rrun_cons o r g :
  rrun (o :: r) g = ((rstep o g).1 :: (rrun r (rstep o g).2).1, (rrun r (rstep o g).2).2).
Proof. simpl. destruct (rstep o g) as [out g1]; simpl. by destruct (rrun r g1). Qed.

(** * W3: the failure path of ExecuteTrx leaves the native ledger alone *)

(* calls the interpreter can make in the body of a transaction *)
Definition body_op (o : wop) : Prop :=
  match o with OPrepare _ _ _ | OFinish => False | _ => True end.

Lemma sync_in_wnat a w : wnat (sync_in a w) = wnat w.
Proof. unfold sync_in. by destruct (wacc w !! a). Qed.
Lemma w_add_access_wnat a w : wnat (w_add_access a w) = wnat w.
Proof. unfold w_add_access; simpl. apply sync_in_wnat. Qed.

Lemma wstep_wnat o w : o ≠ OFinish → wnat (wstep o w).2 = wnat w.
Proof.
  intros Hne. unfold wstep. destruct (jstep o (gs (wg w))) as [[out s']|] eqn:Hj; [done|].
  destruct o; try done; simpl.
  - by destruct (g_revert id (wg w)).
  - apply w_add_access_wnat.
  - destruct to as [t|]; unfold opt_access; rewrite ?w_add_access_wnat; done.
Qed.

(* a run without Finish never writes the native ledger (in particular: a read-only call) *)
Lemma no_finish_native_unchanged ops w : OFinish ∉ ops → wnat (wrun ops w).2 = wnat w.
Proof.
  revert w. induction ops as [|o r IH]; intros w Hnot; [done|].
  rewrite wrun_cons; simpl. rewrite IH, wstep_wnat; [done|..].
  - intros ->. apply Hnot. by left.
  - intros Hin. apply Hnot. by right.
Qed.

(* every recorded address was recorded after revision [n] was taken *)
Definition after_snap (n : nat) (w : wstate) : Prop :=
  n < gnext (wg w) ∧ n ≤ wsnap w ∧ ∀ a t, wacc w !! a = Some t → n < t.

Lemma sync_in_after n a w : after_snap n w → after_snap n (sync_in a w).
Proof.
  intros (Hn & Hs & Ht). unfold sync_in. destruct (wacc w !! a) eqn:Ha; [done|].
  repeat split; simpl; [done..|].
  intros b t [[-> <-]|[_ Hb]]%lookup_insert_Some; [lia|by eapply Ht].
Qed.

Lemma w_add_access_after n a w : after_snap n w → after_snap n (w_add_access a w).
Proof. intros H. apply (sync_in_after _ a) in H. exact H. Qed.

Lemma wstep_after n o w : body_op o → after_snap n w → after_snap n (wstep o w).2.
Proof.
  intros Hb (Hn & Hs & Ht). unfold wstep.
  destruct (jstep o (gs (wg w))) as [[out s']|] eqn:Hj; [done|].
  destruct o; try done; simpl.
  - repeat split; simpl; [lia..|done].
  - unfold g_revert. destruct (find_rev id (grevs (wg w))) as [[jl rest]|]; simpl; [|done].
    repeat split; simpl; [done..|]. intros a t [Hm _]%keep_tags_lookup. by eapply Ht.
  - by apply w_add_access_after.
Qed.

Lemma wrun_after n ops w :
  Forall body_op ops → after_snap n w → after_snap n (wrun ops w).2.
Proof.
  revert w. induction ops as [|o r IH]; intros w Hall Haft; [done|].
  inversion Hall as [|?? Ho Hr]; subst. rewrite wrun_cons; simpl.
  apply IH; [done|]. by apply wstep_after.
Qed.

Lemma body_op_not_finish ops : Forall body_op ops → OFinish ∉ ops.
Proof.
  intros Hall Hin. rewrite Forall_forall in Hall. by apply Hall in Hin.
Qed.

Lemma w_finish_empty w : wacc w = ∅ → wnat (w_finish w) = wnat w.
Proof. intros He. unfold w_finish, acc_addrs; simpl. by rewrite He, map_to_list_empty. Qed.

(* Snapshot; Prepare(snap); body; RevertToSnapshot(snap); Finish — the failure path of
   ExecuteTrx.  After the revert nothing is recorded any more (all tags are > snap), so Finish
   writes nothing.  [Hnopanic]: geth's RevertToSnapshot(snap) does not panic, i.e. the body has
   not itself reverted to [snap] or below (properly nested revisions). *)
Theorem top_level_revert_no_effect w f t body :
  wacc w = ∅ → Forall body_op body →
  let n := gnext (wg w) in
  let w1 := (wrun (OSnapshot :: OPrepare n f t :: body) w).2 in
  (wstep (ORevert n) w1).1 = OutUnit →
  let w2 := (wrun [ORevert n; OFinish] w1).2 in
  wacc (wstep (ORevert n) w1).2 = ∅ ∧ wacc w2 = ∅ ∧ wnat w2 = wnat w.
Proof.
  intros Hacc Hbody n w1 Hnopanic w2.
  assert (Haft : after_snap n w1).
  { unfold w1. rewrite !wrun_cons; simpl. apply wrun_after; [done|].
    assert (H0 : after_snap n (WS (GS (gs (wg w)) ((n, length (sj (gs (wg w)))) :: grevs (wg w)) (S n))
                                  (wacc w) n (wnat w))).
    { repeat split; simpl; [lia..|]. intros a u. by rewrite Hacc, lookup_empty. }
    destruct t as [t|]; simpl; [apply w_add_access_after|]; by apply w_add_access_after. }
  assert (Hnat1 : wnat w1 = wnat w).
  { unfold w1. apply no_finish_native_unchanged. intros Hin.
    apply elem_of_cons in Hin as [?|Hin]; [done|].
    apply elem_of_cons in Hin as [?|Hin]; [done|]. by apply body_op_not_finish in Hin. }
  assert (Hrev : wacc (wstep (ORevert n) w1).2 = ∅ ∧ wnat (wstep (ORevert n) w1).2 = wnat w1).
  { revert Hnopanic. unfold wstep; simpl. destruct (g_revert n (wg w1)); simpl; [|done].
    intros _. split; [|done]. apply keep_tags_none. by destruct Haft as (_&_&?). }
  destruct Hrev as [Hrev1 Hrev2]. split; [done|].
  unfold w2. rewrite !wrun_cons; simpl. split; [done|].
  unfold wstep at 1; simpl.
  change (wnat (w_finish (wstep (ORevert n) w1).2) = wnat w).
  rewrite w_finish_empty by done. congruence.
Qed.

(** * W2: Finish *)

Lemma finish_list_in l s m a :
  a ∈ l → finish_list l s m !! a = Some (gb s a, gn s a).
Proof.
  induction l as [|x l IH]; simpl; [by intros ?%elem_of_nil|].
  intros Hin. destruct (decide (a = x)) as [->|Hne]; [by rewrite lookup_insert|].
  rewrite lookup_insert_ne by done. apply IH. by apply elem_of_cons in Hin as [?|?].
Qed.

Lemma finish_list_notin l s m a : a ∉ l → finish_list l s m !! a = m !! a.
Proof.
  induction l as [|x l IH]; simpl; [done|].
  intros Hnot. apply not_elem_of_cons in Hnot as [Hne Hnot].
  rewrite lookup_insert_ne by done. by apply IH.
Qed.

(* the visiting order of Finish (Go map iteration) does not matter *)
Lemma finish_list_perm l1 l2 s m : l1 ≡ₚ l2 → finish_list l1 s m = finish_list l2 s m.
Proof.
  intros Hp. apply map_eq; intros a. destruct (decide (a ∈ l1)) as [Hin|Hnot].
  - rewrite !finish_list_in; [done| |done]. by rewrite <- Hp.
  - rewrite !finish_list_notin; [done| |done]. by rewrite <- Hp.
Qed.

Lemma elem_of_acc_addrs (m : gmap addr nat) a : a ∈ acc_addrs m ↔ is_Some (m !! a).
Proof.
  unfold acc_addrs. rewrite elem_of_list_fmap. split.
  - intros ([b t] & -> & Hin). apply elem_of_map_to_list in Hin. by exists t.
  - intros [t Ht]. exists (a, t). split; [done|]. by apply elem_of_map_to_list.
Qed.

Theorem finish_order_irrelevant w l :
  l ≡ₚ acc_addrs (wacc w) →
  finish_list l (gs (wg w)) (wnat w) = wnat (wstep OFinish w).2.
Proof. intros Hp. unfold wstep; simpl. by apply finish_list_perm. Qed.

(* Finish writes geth's balance and nonce of every recorded address into the native ledger,
   leaves every other account alone, and clears the record; geth's state is not changed *)
Theorem finish_syncs_out w :
  let w' := (wstep OFinish w).2 in
  wacc w' = ∅ ∧ wg w' = wg w ∧
  (∀ a, is_Some (wacc w !! a) →
        wnat w' !! a = Some (gb (gs (wg w)) a, gn (gs (wg w)) a)) ∧
  (∀ a, wacc w !! a = None → wnat w' !! a = wnat w !! a).
Proof.
  intros w'. unfold w', wstep; simpl. split; [done|]. split; [done|]. split.
  - intros a Ha. apply finish_list_in. by apply elem_of_acc_addrs.
  - intros a Ha. apply finish_list_notin. rewrite elem_of_acc_addrs, Ha. by intros [? ?].
Qed.

(** * W1: the simulation *)

(* [E]: "the two access lists are equal" is carried along only when it holds initially *)
Definition CoreS (E : Prop) (s : jstate) (acc : gmap addr nat) (nat : gmap addr (Z * Z))
    (r : jstate) : Prop :=
  (∀ a, is_Some (acc !! a) → gb s a = gb r a ∧ gn s a = gn r a) ∧
  (∀ a, acc !! a = None → nb nat a = gb r a ∧ nn nat a = gn r a) ∧
  (∀ a, is_Some (acc !! a) ↔ in_acl r a = true) ∧
  (E → sacl s = sacl r).

Record Inv (E : Prop) (w : wstate) (g : gstate) : Prop := {
  i_wfw  : gwf (wg w);
  i_wfr  : gwf g;
  i_next : gnext (wg w) = gnext g;
  i_ids  : (grevs (wg w)).*1 = (grevs g).*1;
  i_snap : S (wsnap w) = gnext g;
  i_tags : ∀ a t, wacc w !! a = Some t → t ≤ gnext g;
  i_core : CoreS E (gs (wg w)) (wacc w) (wnat w) (gs g);
  (* the heart: reverting both worlds to any valid revision — geth by its journal, the wrapper
     additionally by its tags — gives related states again *)
  i_all  : ∀ id jl rest jl' rest',
             find_rev id (grevs (wg w)) = Some (jl, rest) →
             find_rev id (grevs g) = Some (jl', rest') →
             CoreS E (undo (length (sj (gs (wg w))) - jl) (gs (wg w)))
                     (keep_tags id (wacc w)) (wnat w)
                     (undo (length (sj (gs g)) - jl') (gs g))
}.

(* journaled extension of both worlds which records only new addresses (tag = nextRevisionId) *)
Lemma Inv_ext E w g s' acc' sn' r' :
  Inv E w g →
  sext (gs (wg w)) s' → sext (gs g) r' →
  S sn' = gnext g →
  (∀ id, id < gnext g → keep_tags id acc' = keep_tags id (wacc w)) →
  (∀ a t, acc' !! a = Some t → t ≤ gnext g) →
  CoreS E s' acc' (wnat w) r' →
  Inv E (WS (GS s' (grevs (wg w)) (gnext (wg w))) acc' sn' (wnat w)) (GS r' (grevs g) (gnext g)).
Proof.
  intros [Hwfw Hwfr Hnext Hids Hsnap Htags Hcore Hall] Hsw Hsr Hsn Hkeep Htags' Hcore'.
  split; simpl; try done.
  - by apply gwf_ext.
  - by apply gwf_ext.
  - intros id jl rest jl' rest' Hf Hf'.
    destruct (find_rev_ok _ _ _ _ _ _ Hwfw Hf) as (Hid & Hjl & _).
    destruct (find_rev_ok _ _ _ _ _ _ Hwfr Hf') as (Hid' & Hjl' & _).
    rewrite (undo_sext _ _ _ Hsw Hjl), (undo_sext _ _ _ Hsr Hjl'), Hkeep by done.
    by eapply Hall.
Qed.

Lemma Inv_jstep E w g o out s' out' r' :
  Inv E w g → op_ok o g →
  jstep o (gs (wg w)) = Some (out, s') → jstep o (gs g) = Some (out', r') →
  out = out' ∧
  Inv E (WS (GS s' (grevs (wg w)) (gnext (wg w))) (wacc w) (wsnap w) (wnat w))
        (GS r' (grevs g) (gnext g)).
Proof.
  intros HI Hok Hj Hj'. destruct (jstep_shape _ _ _ _ Hj) as (a & Ht & _).
  assert (Hin : in_acl (gs g) a = true) by (destruct o; simpl in *; try done; by injection Ht as <-).
  pose proof HI as [_ _ _ _ Hsnap Htags (Hc1 & Hc2 & Hc3 & Hc4) _].
  assert (Hacc : is_Some (wacc w !! a)) by by apply Hc3.
  destruct (Hc1 _ Hacc) as [Hb Hn].
  destruct (jstep_same _ _ _ _ _ _ _ _ Hj Hj' Ht Hb Hn) as (Hout & Hb' & Hn').
  split; [done|]. apply Inv_ext; try done.
  1,2: by eapply jstep_sext.
  split; [|split; [|split]].
  - intros b Hx. destruct (decide (b = a)) as [->|Hne]; [done|].
    destruct (jstep_other _ _ _ _ _ _ Hj Ht Hne) as [-> ->].
    destruct (jstep_other _ _ _ _ _ _ Hj' Ht Hne) as [-> ->]. by apply Hc1.
  - intros b Hx. assert (Hne : b ≠ a) by (intros ->; rewrite Hx in Hacc; by destruct Hacc).
    destruct (jstep_other _ _ _ _ _ _ Hj' Ht Hne) as [-> ->]. by apply Hc2.
  - intros b. unfold in_acl. rewrite (jstep_acl _ _ _ _ Hj'). apply Hc3.
  - intros HE. rewrite (jstep_acl _ _ _ _ Hj), (jstep_acl _ _ _ _ Hj'). by apply Hc4.
Qed.

Lemma add_acl_same_acl a s r : sacl s = sacl r → sacl (add_acl a s) = sacl (add_acl a r).
Proof.
  intros Heq. unfold add_acl, in_acl. rewrite Heq. destruct (sacl r !! a); simpl; [done|].
  by f_equal.
Qed.

(* AddAddressToAccessList on both worlds *)
Lemma Inv_add_access E w g a :
  Inv E w g → Inv E (w_add_access a w) (g_lift (add_acl a) g).
Proof.
  intros HI. pose proof HI as [_ _ _ _ Hsnap Htags (Hc1 & Hc2 & Hc3 & Hc4) _].
  unfold w_add_access, w_lift, g_lift, sync_in. destruct (wacc w !! a) as [t|] eqn:Ha; simpl.
  - (* already recorded: no sync-in; the reference has it on the list already *)
    assert (Hr : add_acl a (gs g) = gs g).
    { unfold add_acl. by rewrite (proj1 (Hc3 a)) by by rewrite Ha. }
    apply Inv_ext; simpl; try done; try apply add_acl_sext.
    split; [|split; [|split]].
    + intros b. rewrite !gb_add_acl, !gn_add_acl. apply Hc1.
    + intros b. rewrite gb_add_acl, gn_add_acl. apply Hc2.
    + intros b. rewrite Hr. apply Hc3.
    + intros HE. by apply add_acl_same_acl, Hc4.
  - (* first access: sync-in *)
    destruct (Hc2 _ Ha) as [Hnb Hnn].
    apply Inv_ext; simpl; try done; try apply add_acl_sext.
    + eapply sext_trans; [apply set_nonce_sext|]. eapply sext_trans; [apply set_bal_sext|].
      apply add_acl_sext.
    + intros id Hid. apply keep_tags_insert_new; [|done]. by rewrite Hsnap.
    + intros b u [[-> <-]|[_ Hb]]%lookup_insert_Some; [by rewrite Hsnap|by eapply Htags].
    + split; [|split; [|split]].
      * intros b Hb. rewrite !gb_add_acl, !gn_add_acl, gb_set_bal, gn_set_bal, gb_set_nonce, gn_set_nonce.
        destruct (decide (b = a)) as [->|Hne]; [done|].
        rewrite lookup_insert_ne in Hb by done. by apply Hc1.
      * intros b [Hb Hne]%lookup_insert_None. rewrite gb_add_acl, gn_add_acl. by apply Hc2.
      * intros b. rewrite in_acl_add_acl, lookup_insert_is_Some'. rewrite Hc3.
        destruct (decide (b = a)) as [->|Hne]; [split; [done|by left]|].
        split; [by intros [->|?]|by right].
      * intros HE. by apply add_acl_same_acl, Hc4.
Qed.

Lemma Inv_set_snap E w g sn :
  Inv E w g → S sn = gnext g → Inv E (WS (wg w) (wacc w) sn (wnat w)) g.
Proof. intros [] ?. by split. Qed.

Lemma Inv_snapshot E w g :
  Inv E w g →
  (g_snapshot (wg w)).1 = (g_snapshot g).1 ∧
  Inv E (WS (g_snapshot (wg w)).2 (wacc w) (g_snapshot (wg w)).1 (wnat w)) (g_snapshot g).2.
Proof.
  intros [Hwfw Hwfr Hnext Hids Hsnap Htags Hcore Hall]. unfold g_snapshot; simpl.
  split; [done|]. split; simpl.
  - by apply gwf_snapshot.
  - by apply gwf_snapshot.
  - by rewrite Hnext.
  - rewrite Hnext. f_equal. exact Hids.
  - by rewrite Hnext.
  - intros a t Ht. apply Htags in Ht. lia.
  - done.
  - intros id jl rest jl' rest'. rewrite Hnext.
    destruct (Nat.eqb_spec (gnext g) id) as [<-|Hne].
    + intros [= <- <-] [= <- <-]. rewrite !Nat.sub_diag; simpl.
      rewrite keep_tags_all; [done|]. intros a t Ht. by apply Htags in Ht.
    + apply Hall.
Qed.

Lemma Inv_revert E w g id g' :
  Inv E w g → g_revert id g = Some g' →
  ∃ gw', g_revert id (wg w) = Some gw' ∧
         Inv E (WS gw' (keep_tags id (wacc w)) (wsnap w) (wnat w)) g'.
Proof.
  intros [Hwfw Hwfr Hnext Hids Hsnap Htags Hcore Hall]. unfold g_revert.
  destruct (find_rev id (grevs g)) as [[jl' rest']|] eqn:Hf'; [|done]. intros [= <-].
  destruct (find_rev_ids _ _ _ _ _ (eq_sym Hids) Hf') as (jl & rest & Hf & Hrest).
  rewrite Hf. eexists; split; [done|].
  destruct (find_rev_ok _ _ _ _ _ _ Hwfw Hf) as (Hid & Hjl & Hokw).
  destruct (find_rev_ok _ _ _ _ _ _ Hwfr Hf') as (Hid' & Hjl' & Hokr).
  split; simpl.
  - by apply (gwf_undo id).
  - by apply (gwf_undo id).
  - done.
  - done.
  - done.
  - intros a t [Ht _]%keep_tags_lookup. by eapply Htags.
  - by eapply Hall.
  - intros id2 jl2 rest2 jl2' rest2' Hf2 Hf2'.
    destruct (find_rev_ok _ _ _ _ _ _ Hokw Hf2) as (Hid2 & Hjl2 & _).
    destruct (find_rev_ok _ _ _ _ _ _ Hokr Hf2') as (_ & Hjl2' & _).
    pose proof (find_rev_older _ _ _ _ _ _ _ _ Hwfw Hf Hf2) as Hg2.
    pose proof (find_rev_older _ _ _ _ _ _ _ _ Hwfr Hf' Hf2') as Hg2'.
    rewrite !undo_undo_sub, keep_tags_twice by lia. by eapply Hall.
Qed.

Lemma Inv_step E w g o :
  Inv E w g → op_ok o g →
  (wstep o w).1 = (rstep o g).1 ∧ Inv E (wstep o w).2 (rstep o g).2.
Proof.
  intros HI Hok. unfold wstep, rstep.
  destruct (jstep o (gs (wg w))) as [[out s']|] eqn:Hj.
  - destruct (jstep_total _ _ (gs g) _ Hj) as [[out' r'] Hj']. rewrite Hj'; simpl.
    by eapply Inv_jstep.
  - rewrite (jstep_none _ _ (gs g) Hj). destruct o; try done; simpl in *.
    + (* Snapshot *)
      destruct (Inv_snapshot _ _ _ HI) as [Hid HI'].
      unfold g_snapshot in *; simpl in *. split; [by rewrite Hid|done].
    + (* RevertToSnapshot *)
      destruct Hok as [[jl' rest'] Hf'].
      assert (Hr : ∃ g', g_revert id g = Some g') by (unfold g_revert; rewrite Hf'; eauto).
      destruct Hr as [g' Hr]. destruct (Inv_revert _ _ _ _ _ HI Hr) as (gw' & Hrw & HI').
      rewrite Hr, Hrw; simpl. done.
    + (* AddAddressToAccessList *)
      split; [done|]. by apply Inv_add_access.
    + (* Prepare *)
      split; [done|]. pose proof (Inv_set_snap _ _ _ snap HI Hok) as HI1.
      pose proof (Inv_add_access _ _ _ from HI1) as HI2.
      destruct to as [t|]; simpl; [|exact HI2].
      exact (Inv_add_access _ _ _ t HI2).
Qed.

Theorem wrapper_refines_reference E w g ops :
  Inv E w g → disciplined ops g →
  (wrun ops w).1 = (rrun ops g).1 ∧ Inv E (wrun ops w).2 (rrun ops g).2.
Proof.
  revert w g. induction ops as [|o r IH]; intros w g HI Hd; [done|].
  destruct Hd as [Hok Hd]. rewrite wrun_cons, rrun_cons; simpl.
  destruct (Inv_step _ _ _ _ HI Hok) as [Hout HI'].
  destruct (IH _ _ HI' Hd) as [Houts HI'']. split; [by rewrite Hout, Houts|done].
Qed.

(** ** initial states *)

Lemma nb_fmap (m : gmap addr (Z * Z)) a : default 0%Z ((fst <$> m) !! a) = nb m a.
Proof. unfold nb. rewrite lookup_fmap. by destruct (m !! a). Qed.
Lemma nn_fmap (m : gmap addr (Z * Z)) a : default 0%Z ((snd <$> m) !! a) = nn m a.
Proof. unfold nn. rewrite lookup_fmap. by destruct (m !! a). Qed.

Lemma CoreS_init (E : Prop) w :
  wacc w = ∅ → (E → sacl (gs (wg w)) = ∅) →
  CoreS E (gs (wg w)) (wacc w) (wnat w) (gs (ref_init w)).
Proof.
  intros Hacc HE. split; [|split; [|split]].
  - intros a. rewrite Hacc, lookup_empty. by intros [? ?].
  - intros a _. unfold gb, gn; simpl. by rewrite nb_fmap, nn_fmap.
  - intros a. rewrite Hacc, lookup_empty. split; [by intros [? ?]|done].
  - done.
Qed.

(* a wrapper between two transactions whose s.snapshot is the last revision id issued *)
Lemma Inv_init (E : Prop) w :
  wacc w = ∅ → grevs (wg w) = [] → S (wsnap w) = gnext (wg w) →
  (E → sacl (gs (wg w)) = ∅) → Inv E w (ref_init w).
Proof.
  intros Hacc Hrevs Hsnap HE. split; simpl; try done.
  - unfold gwf. by rewrite Hrevs.
  - by rewrite Hrevs.
  - intros a t. by rewrite Hacc, lookup_empty.
  - by apply CoreS_init.
Qed.

(* ExecuteTrx: any wrapper between two transactions (s.snapshot arbitrary, e.g. the fresh
   wrapper with s.snapshot = nextRevisionId = 0), after the Snapshot() call *)
Lemma Inv_after_snapshot (E : Prop) w :
  wacc w = ∅ → grevs (wg w) = [] → (E → sacl (gs (wg w)) = ∅) →
  Inv E (wstep OSnapshot w).2 (rstep OSnapshot (ref_init w)).2.
Proof.
  intros Hacc Hrevs HE. unfold wstep, rstep; simpl. split; simpl; try done.
  - unfold gwf; simpl. rewrite Hrevs. repeat split; lia.
  - unfold gwf; simpl. repeat split; lia.
  - by rewrite Hrevs.
  - intros a t. by rewrite Hacc, lookup_empty.
  - by apply CoreS_init.
  - intros id jl rest jl' rest'. rewrite Hrevs; simpl.
    destruct (Nat.eqb_spec (gnext (wg w)) id) as [<-|Hne]; [|done].
    intros [= <- <-] [= <- <-]. rewrite !Nat.sub_diag; simpl.
    rewrite keep_tags_all; [by apply CoreS_init|]. intros a t. by rewrite Hacc, lookup_empty.
Qed.

(* W1 for the shape ExecuteTrx produces, with [E] as in [Inv] *)
Lemma refines_reference_tx (E : Prop) w f t body :
  wacc w = ∅ → grevs (wg w) = [] → (E → sacl (gs (wg w)) = ∅) →
  let ops := OSnapshot :: OPrepare (gnext (wg w)) f t :: body in
  disciplined ops (ref_init w) →
  (wrun ops w).1 = (rrun ops (ref_init w)).1 ∧
  Inv E (wrun ops w).2 (rrun ops (ref_init w)).2.
Proof.
  intros Hacc Hrevs HE ops [_ Hd]. unfold ops. rewrite wrun_cons, rrun_cons. cbn [fst snd].
  pose proof (Inv_after_snapshot E w Hacc Hrevs HE) as HI.
  destruct (wrapper_refines_reference _ _ _ _ HI Hd) as [Houts HI']. split; [|exact HI'].
  rewrite Houts. reflexivity.
Qed.

(* ARBITRARY stale geth balances, nonces, access list and journal; only "nothing recorded, no
   open revision" is assumed of the wrapper *)
Theorem wrapper_refines_reference_tx w f t body :
  wacc w = ∅ → grevs (wg w) = [] →
  let ops := OSnapshot :: OPrepare (gnext (wg w)) f t :: body in
  disciplined ops (ref_init w) →
  (wrun ops w).1 = (rrun ops (ref_init w)).1 ∧
  Inv False (wrun ops w).2 (rrun ops (ref_init w)).2.
Proof. intros Hacc Hrevs. by apply refines_reference_tx. Qed.

(* if moreover the geth access list starts empty, the wrapper's geth access list equals the
   reference's all along: the interpreter's AddressInAccessList test on the wrapper is the
   discipline's test *)
Theorem acl_agree w f t body :
  wacc w = ∅ → grevs (wg w) = [] → sacl (gs (wg w)) = ∅ →
  let ops := OSnapshot :: OPrepare (gnext (wg w)) f t :: body in
  disciplined ops (ref_init w) →
  sacl (gs (wg (wrun ops w).2)) = sacl (gs (rrun ops (ref_init w)).2) ∧
  ∀ a, is_Some (wacc (wrun ops w).2 !! a) ↔ in_acl (gs (wg (wrun ops w).2)) a = true.
Proof.
  intros Hacc Hrevs Hacl ops Hd. unfold ops.
  destruct (refines_reference_tx True w f t body Hacc Hrevs (λ _, Hacl) Hd) as [_ HI'].
  destruct (i_core _ _ _ HI') as (_ & _ & Hc3 & Hc4). specialize (Hc4 I).
  split; [done|]. intros a. rewrite Hc3. unfold in_acl. by rewrite Hc4.
Qed.

(** ** W2 with the simulation: after Finish the native ledger IS the reference world *)

Theorem finish_matches_reference E w g :
  Inv E w g →
  ∀ a, nb (wnat (wstep OFinish w).2) a = gb (gs g) a ∧
       nn (wnat (wstep OFinish w).2) a = gn (gs g) a.
Proof.
  intros HI a. destruct (i_core _ _ _ HI) as (Hc1 & Hc2 & _).
  destruct (finish_syncs_out w) as (_ & _ & Hin & Hout).
  destruct (wacc w !! a) as [t|] eqn:Ha.
  - assert (Hs : is_Some (wacc w !! a)) by (by rewrite Ha).
    unfold nb, nn. rewrite (Hin _ Hs); simpl. by apply Hc1.
  - unfold nb, nn. rewrite (Hout _ Ha). by apply Hc2.
Qed.

(* the success path of ExecuteTrx, end to end *)
Theorem tx_success w f t body :
  wacc w = ∅ → grevs (wg w) = [] →
  let ops := OSnapshot :: OPrepare (gnext (wg w)) f t :: body in
  disciplined ops (ref_init w) →
  let w' := (wrun (ops ++ [OFinish]) w).2 in
  let g' := (rrun ops (ref_init w)).2 in
  (wrun ops w).1 = (rrun ops (ref_init w)).1 ∧
  wacc w' = ∅ ∧
  ∀ a, nb (wnat w') a = gb (gs g') a ∧ nn (wnat w') a = gn (gs g') a.
Proof.
  intros Hacc Hrevs ops Hd w' g'.
  destruct (wrapper_refines_reference_tx w f t body Hacc Hrevs Hd) as [Houts HI].
  split; [done|]. unfold w'. rewrite wrun_app. cbn [fst snd]. rewrite wrun_cons. cbn [fst snd wrun].
  split.
  - pose proof (finish_syncs_out (wrun ops w).2) as (He & _). exact He.
  - exact (finish_matches_reference _ _ _ HI).
Qed.

(* Two transactions of one block with native activity in between: after the first transaction
   (Finish, then geth's Finalise) native transactions change the native ledger to ANY [m'];
   the next contract transaction sees exactly [m'] (and by [tx_success] leaves behind exactly
   the reference world's result).  Nothing is assumed about what the first transaction left in
   geth's balances, nonces and access list. *)
Theorem native_changes_visible w m' f t body :
  wacc w = ∅ →
  let w' := w_set_native m' (w_finalise w) in
  let ops := OSnapshot :: OPrepare (gnext (wg w)) f t :: body in
  disciplined ops (ref_init w') →
  gs (ref_init w') = JS (fst <$> m') (snd <$> m') ∅ [] ∧
  (wrun ops w').1 = (rrun ops (ref_init w')).1 ∧
  ∀ a, nb (wnat (wrun (ops ++ [OFinish]) w').2) a = gb (gs (rrun ops (ref_init w')).2) a ∧
       nn (wnat (wrun (ops ++ [OFinish]) w').2) a = gn (gs (rrun ops (ref_init w')).2) a.
Proof.
  intros Hacc w' ops Hd. split; [done|].
  destruct (tx_success w' f t body Hacc eq_refl Hd) as (Houts & _ & Hfin). by split.
Qed.

(** * the refutation: Prepare without a fresh Snapshot (the state of the code before issue #69,
      and what callVM in query.go still does: Prepare(..., snap = 0, ...) on a new wrapper) *)

Definition op_ok_nosnap (o : wop) (g : gstate) : Prop :=
  match o with OPrepare _ _ _ => True | _ => op_ok o g end.
Fixpoint disciplined_nosnap (ops : list wop) (g : gstate) : Prop :=
  match ops with
  | [] => True
  | o :: r => op_ok_nosnap o g ∧ disciplined_nosnap r (rstep o g).2
  end.

Definition w_refute : wstate := fresh_wrapper ∅ ∅ (<[1%N := (1000%Z, 5%Z)]> ∅).

(* Prepare records sender 1 with tag 0+1; the first Snapshot (of evm.Call) returns id 0; a
   revert to 0 then drops the sender from the record although geth keeps it on the access list
   and keeps its synced-in balance; the next AddAddressToAccessList syncs in AGAIN and wipes the
   credit of 5. *)
Definition ops_refute : list wop :=
  [OPrepare 0 1%N None; OAddBalance 1%N 5; OSnapshot; ORevert 0; OAddAccess 1%N; OGetBalance 1%N].

Theorem wrapper_refuted_without_snapshot :
  ∃ (w : wstate) (ops : list wop),
    wacc w = ∅ ∧ grevs (wg w) = [] ∧ sacl (gs (wg w)) = ∅ ∧
    disciplined_nosnap ops (ref_init w) ∧
    (wrun ops w).1 ≠ (rrun ops (ref_init w)).1.
Proof.
  exists w_refute, ops_refute. repeat split; try (vm_compute; reflexivity).
  - vm_compute. eauto.
  - vm_compute. intros H. discriminate H.
Qed.

(* the same defect seen at Finish: a credit made after the revert is never written out *)
Definition ops_refute_finish : list wop :=
  [OPrepare 0 1%N None; OSnapshot; ORevert 0; OAddBalance 1%N 5].

Theorem finish_refuted_without_snapshot :
  ∃ (w : wstate) (ops : list wop),
    wacc w = ∅ ∧ grevs (wg w) = [] ∧ sacl (gs (wg w)) = ∅ ∧
    disciplined_nosnap ops (ref_init w) ∧
    nb (wnat (wrun (ops ++ [OFinish]) w).2) 1%N ≠ gb (gs (rrun ops (ref_init w)).2) 1%N.
Proof.
  exists w_refute, ops_refute_finish. repeat split; try (vm_compute; reflexivity).
  - vm_compute. eauto.
  - vm_compute. intros H. discriminate H.
Qed.

(** * W4: examples, evaluated on both machines

   Each example is a call sequence as geth v1.10.23 issues it (core/state_transition.go,
   core/vm/evm.go, instructions.go, operations_acl.go) on a NEW wrapper (nextRevisionId = 0), with
   stale geth copies that differ from the native ledger everywhere.  [agree] compares all outputs
   and, after Finish, the native ledger with the reference world's balances and nonces on every
   address of the example. *)

Local Open Scope Z_scope.

Definition ex_native : list acct :=
  [(1%N, 1000, 5); (2%N, 50, 1); (3%N, 7, 1); (9%N, 3, 0)].
Definition ex_stale : list acct :=
  [(1%N, 1, 1); (2%N, 2, 2); (3%N, 99, 9); (4%N, 44, 4); (9%N, 0, 7)].
Definition ex_w0 : wstate :=
  fresh_wrapper (bal_of ex_stale) (nonce_of ex_stale) (native_of ex_native).

(* sender 1 calls contract 2 with value 10 (gas 100 bought, 40 refunded).  2 calls 3 (frame with
   revision 2) which reads the balance of 4 (first access: BALANCE) and reverts; 2 then touches
   4 again (BALANCE: access list entry was rolled back, so it is added and synced in again),
   sends 5 to 3 and returns. *)
Definition ex_nested_body : list wop :=
  [ OSnapshot; OPrepare 0 1%N (Some 2%N);
    OGetNonce 1%N; OGetBalance 1%N; OSubBalance 1%N 100;            (* preCheck, buyGas *)
    OGetBalance 1%N;                                                (* CanTransfer *)
    OAddAccess 1%N; OAddAccess 2%N; OAddAccess 9%N;                 (* PrepareAccessList *)
    OGetNonce 1%N; OSetNonce 1%N 6;
    OGetBalance 1%N; OSnapshot; OSubBalance 1%N 10; OAddBalance 2%N 10;   (* evm.Call 1 -> 2 *)
    OAddAccess 3%N;                                                 (* CALL gas function *)
    OGetBalance 2%N; OSnapshot; OSubBalance 2%N 4; OAddBalance 3%N 4;     (* evm.Call 2 -> 3 *)
    OAddAccess 4%N; OGetBalance 4%N; OGetBalance 3%N;
    ORevert 2;                                                      (* 3 reverts *)
    OGetBalance 3%N; OGetBalance 2%N;
    OAddAccess 4%N; OGetBalance 4%N;                                (* 4 touched again *)
    OGetBalance 2%N; OSnapshot; OSubBalance 2%N 5; OAddBalance 3%N 5;     (* evm.Call 2 -> 3 *)
    OGetBalance 3%N;
    OAddBalance 1%N 40 ].                                           (* refundGas *)

Example ex_nested_disciplined : disciplinedb ex_nested_body (ref_init ex_w0) = true.
Proof. vm_compute. reflexivity. Qed.
Example ex_nested_agree : agree ex_native ex_stale (ex_nested_body ++ [OFinish]) = true.
Proof. vm_compute. reflexivity. Qed.
Example ex_nested_result :
  wrun_outs ex_native ex_stale (ex_nested_body ++ [OFinish]) =
  ([OutId 0; OutUnit; OutVal 5; OutVal 1000; OutUnit; OutVal 900; OutUnit; OutUnit; OutUnit;
    OutVal 5; OutUnit; OutVal 900; OutId 1; OutUnit; OutUnit; OutUnit; OutVal 60; OutId 2;
    OutUnit; OutUnit; OutUnit; OutVal 0; OutVal 11; OutUnit; OutVal 7; OutVal 60; OutUnit;
    OutVal 0; OutVal 60; OutId 3; OutUnit; OutUnit; OutVal 12; OutUnit; OutUnit],
   [(1%N, 930, 6); (2%N, 55, 1); (3%N, 12, 1); (4%N, 0, 0); (9%N, 3, 0)]).
Proof. vm_compute. reflexivity. Qed.

(* the same transaction failing at the top: evm.Call 1 -> 2 reverts (revision 1), gas is
   refunded, ExecuteTrx reverts to its own snapshot and calls Finish: nothing is written *)
Definition ex_fail_body : list wop :=
  [ OSnapshot; OPrepare 0 1%N (Some 2%N);
    OGetNonce 1%N; OGetBalance 1%N; OSubBalance 1%N 100; OGetBalance 1%N;
    OAddAccess 1%N; OAddAccess 2%N; OAddAccess 9%N;
    OGetNonce 1%N; OSetNonce 1%N 6;
    OGetBalance 1%N; OSnapshot; OSubBalance 1%N 10; OAddBalance 2%N 10;
    OAddAccess 3%N; OGetBalance 3%N;
    ORevert 1;
    OAddBalance 1%N 40;
    ORevert 0 ].

Example ex_fail_disciplined : disciplinedb ex_fail_body (ref_init ex_w0) = true.
Proof. vm_compute. reflexivity. Qed.
Example ex_fail_agree : agree ex_native ex_stale (ex_fail_body ++ [OFinish]) = true.
Proof. vm_compute. reflexivity. Qed.
Example ex_fail_native_unchanged :
  (wrun_outs ex_native ex_stale (ex_fail_body ++ [OFinish])).2 =
  [(1%N, 1000, 5); (2%N, 50, 1); (3%N, 7, 1); (4%N, 0, 0); (9%N, 3, 0)].
Proof. vm_compute. reflexivity. Qed.

(* deployment: sender 1 creates contract 4 with endowment 20 (evm.create); the constructor
   reads its own balance *)
Definition ex_create_body : list wop :=
  [ OSnapshot; OPrepare 0 1%N None;
    OGetNonce 1%N; OGetBalance 1%N; OSubBalance 1%N 100; OGetBalance 1%N;
    OAddAccess 1%N; OAddAccess 9%N;
    OGetNonce 1%N;                                     (* evm.Create: address from the nonce *)
    OGetBalance 1%N; OGetNonce 1%N; OSetNonce 1%N 6;   (* evm.create *)
    OAddAccess 4%N; OGetNonce 4%N;
    OSnapshot; OCreate 4%N; OSetNonce 4%N 1;
    OSubBalance 1%N 20; OAddBalance 4%N 20;
    OGetBalance 4%N; OGetNonce 4%N;
    OAddBalance 1%N 30 ].

Example ex_create_disciplined : disciplinedb ex_create_body (ref_init ex_w0) = true.
Proof. vm_compute. reflexivity. Qed.
Example ex_create_agree : agree ex_native ex_stale (ex_create_body ++ [OFinish]) = true.
Proof. vm_compute. reflexivity. Qed.
Example ex_create_final :
  (wrun_outs ex_native ex_stale (ex_create_body ++ [OFinish])).2 =
  [(1%N, 910, 6); (2%N, 50, 1); (3%N, 7, 1); (4%N, 20, 1); (9%N, 3, 0)].
Proof. vm_compute. reflexivity. Qed.

(* sender 1 calls contract 2, which self-destructs in favour of 3 (opSelfdestruct); in a second
   variant the frame then fails and the self-destruct is rolled back *)
Definition ex_suicide_prefix : list wop :=
  [ OSnapshot; OPrepare 0 1%N (Some 2%N);
    OGetNonce 1%N; OGetBalance 1%N; OSubBalance 1%N 100; OGetBalance 1%N;
    OAddAccess 1%N; OAddAccess 2%N; OAddAccess 9%N;
    OGetNonce 1%N; OSetNonce 1%N 6;
    OSnapshot;
    OAddAccess 3%N;                                     (* makeSelfdestructGasFn *)
    OGetBalance 3%N; OGetNonce 3%N; OGetBalance 2%N;    (* Empty(3), GetBalance(2) *)
    OGetBalance 2%N; OAddBalance 3%N 50; OSuicide 2%N;  (* opSelfdestruct *)
    OGetBalance 2%N; OGetBalance 3%N ].
Definition ex_suicide_body : list wop := ex_suicide_prefix ++ [OAddBalance 1%N 70].
Definition ex_suicide_reverted_body : list wop :=
  ex_suicide_prefix ++ [ORevert 1; OGetBalance 2%N; OAddBalance 1%N 0; ORevert 0].

Example ex_suicide_disciplined : disciplinedb ex_suicide_body (ref_init ex_w0) = true.
Proof. vm_compute. reflexivity. Qed.
Example ex_suicide_agree : agree ex_native ex_stale (ex_suicide_body ++ [OFinish]) = true.
Proof. vm_compute. reflexivity. Qed.
Example ex_suicide_final :
  (wrun_outs ex_native ex_stale (ex_suicide_body ++ [OFinish])).2 =
  [(1%N, 970, 6); (2%N, 0, 1); (3%N, 57, 1); (4%N, 0, 0); (9%N, 3, 0)].
Proof. vm_compute. reflexivity. Qed.
Example ex_suicide_reverted_disciplined :
  disciplinedb ex_suicide_reverted_body (ref_init ex_w0) = true.
Proof. vm_compute. reflexivity. Qed.
Example ex_suicide_reverted_agree :
  agree ex_native ex_stale (ex_suicide_reverted_body ++ [OFinish]) = true.
Proof. vm_compute. reflexivity. Qed.

(* the harness entry point on a recorded case *)
Example ex_check_wcases :
  check_wcases
    [ WCase ex_native ex_stale (ex_create_body ++ [OFinish])
        (wrun_outs ex_native ex_stale (ex_create_body ++ [OFinish])).1
        [(1%N, 910, 6); (2%N, 50, 1); (3%N, 7, 1); (4%N, 20, 1); (9%N, 3, 0)] ] = true.
Proof. vm_compute. reflexivity. Qed.

(* the examples are instances of the theorems: e.g. the discipline of [ex_nested_body] gives,
   by [tx_success], the agreement that [ex_nested_agree] computed *)
Lemma disciplinedb_sound ops g : disciplinedb ops g = true → disciplined ops g.
Proof.
  revert g. induction ops as [|o r IH]; intros g; cbn [disciplinedb disciplined]; [done|].
  intros [Hok Hr]%andb_prop. split; [|by apply IH].
  destruct o; cbn [op_okb op_ok] in *; try done.
  - by destruct (find_rev id (grevs g)).
  - by apply Nat.eqb_eq in Hok.
Qed.
