(* InvFeeClosed.v — property C16 over whole runs, with hypotheses on the inputs only.

   InvFee.v proves the per-step facts behind Props/C16.v (admission, exact cost of one delivery,
   growth of the fee sum, what one EndBlock credits).  This file puts them together along runs
   [srun (init_chain g) ops] from a genesis:

   - vocabulary: [fee1], [fees_of_txs], [fees_of_block] (per block of a run: height, proposer, the
     (sender, fee) pairs of its successful deliveries), [in_force] (the parameter set a run hands
     over at its Commits), [fee_gain] / [credits] (what the fee step of the EndBlocks of a run
     credits), [fees_flat], [moved], [charged_to];
   - shape: on a well-bracketed list (Begin, Deliver*, End, Commit, consecutive heights) every
     BeginBlock passes its height check -- no hypothesis on states ([bracketed_begin_height]);
   - price: [C16_run_price_in_force] (every successful delivery of ANY run was accepted at the gas
     price of the set in force, which is constant between Commits), [C16_run_price_hand_over] (the
     set changes at a Commit only, to what an EndBlock computed from a passed parameter proposal
     whose applying height had come), [C16_run_admission_exact] (the bounds as products over Z);
   - blocks: [C16_run_block_fee_sum_mod] (every block of every well-bracketed run, EVM path
     included: one price per block, fee sum = sum of gas x price modulo 2^256) and
     [C16_run_block_credit] (closed runs: the sum is exact, EndBlock answers, and every balance after
     EndBlock = balance before + the fee sum for the proposer + unbonding refunds);
   - deliveries of closed runs: [C16_run_sender_charge] (+ [_types]), [C16_run_failed_no_charge],
     [C16_run_failed_no_effect], [C16_run_no_panic];
   - totals of closed runs: [C16_run_total_fees] (credits = fees of the blocks with a proposer;
     charged = credited + fees of proposer-less blocks + open block; fees are moved, never created),
     [C16_run_account_ledger] (per account, the balance at the end of the run);
   - the EVM path on checked histories: [C16_run_evm_charge_checked];
   - an eight-block example with a governance change of gas price and minimum gas.

   "Closed run" = the input-only hypotheses of InvReach.C02_closed_total: [genesis_ok],
   [InvPanic.bracketed Idle 0], [hashes_fresh], [txs_ok], genesis supply + requested withdrawals
   below the supply bound. *)
From Rigo Require Import Base.
From stdpp Require Import gmap sorting.
From Coq Require Import ZifyBool ZifyNat ZifyN.
From Rigo Require Import Spec SpecProps SpecFacts.
From Rigo Require InvFail InvNonce InvGov InvPanic.
From Rigo Require Import InvFee InvSupply InvReach InvClosed InvStake InvUnbond.
Local Open Scope Z_scope.

Local Opaque two256 two255 two64 two63.

(* ================================================================== vocabulary *)

(* the fee of one delivery, as a function of the run: the sender and gas x the gas price in force in
   the state the transaction is delivered in, where gas is what the delivery REPORTS ([Ok gas]: the
   gas limit on the native path, the interpreter's gas used on the EVM path); nothing for a failed
   or panicking delivery.  The product is over Z. *)
Definition fee1 (s : state) (t : tx) : list (addr * Z) :=
  match (deliver s t).2 with
  | Ok gas => [(t_from t, gas * g_gasPrice (gparams s))]
  | _ => []
  end.

Fixpoint fees_of_txs (s : state) (txs : list tx) : list (addr * Z) :=
  match txs with
  | [] => []
  | t :: r => fee1 s t ++ fees_of_txs (deliver s t).1 r
  end.

Definition fee_total (l : list (addr * Z)) : Z := sumZ_with snd l.

(* one block of a run: height and proposer of the block context at its EndBlock, and the fees of
   its successful deliveries in order *)
Record fblock := { fb_height : Z; fb_proposer : option addr; fb_fees : list (addr * Z) }.

Definition open_step (s : state) (cur : list (addr * Z)) (o : sop) : list (addr * Z) :=
  match o with
  | SBegin _ => []
  | SDeliver t => cur ++ fee1 s t
  | SEnd => []
  | SCommit => cur
  end.

(* walking the operation list from state [s] with the fees [cur] of the block that is open:
   one [fblock] per EndBlock *)
Fixpoint fees_from (s : state) (cur : list (addr * Z)) (ops : list sop) : list fblock :=
  match ops with
  | [] => []
  | o :: r =>
      match o with
      | SEnd => [{| fb_height := b_height (bctx s); fb_proposer := b_proposer (bctx s); fb_fees := cur |}]
      | _ => []
      end ++ fees_from (sstep s o) (open_step s cur o) r
  end.

Fixpoint open_fees (s : state) (cur : list (addr * Z)) (ops : list sop) : list (addr * Z) :=
  match ops with
  | [] => cur
  | o :: r => open_fees (sstep s o) (open_step s cur o) r
  end.

Definition fees_of_block (g : genesis) (ops : list sop) : list fblock := fees_from (init_chain g) [] ops.

Lemma fees_from_app pre : ∀ s cur post,
  fees_from s cur (pre ++ post) = fees_from s cur pre ++ fees_from (srun s pre) (open_fees s cur pre) post.
Proof.
  induction pre as [|o pre IH]; intros s cur post; cbn [app fees_from open_fees]; [reflexivity|].
  rewrite IH, app_assoc. reflexivity.
Qed.

Lemma open_fees_app pre : ∀ s cur post,
  open_fees s cur (pre ++ post) = open_fees (srun s pre) (open_fees s cur pre) post.
Proof. induction pre as [|o pre IH]; intros s cur post; cbn [app open_fees]; [reflexivity|]. apply IH. Qed.

Lemma fees_from_delivers txs : ∀ s cur,
  fees_from s cur (map SDeliver txs) = [] ∧ open_fees s cur (map SDeliver txs) = cur ++ fees_of_txs s txs.
Proof.
  induction txs as [|t txs IH]; intros s cur; cbn [map fees_from open_fees fees_of_txs].
  - rewrite app_nil_r. split; reflexivity.
  - destruct (IH (sstep s (SDeliver t)) (open_step s cur (SDeliver t))) as [I1 I2].
    rewrite I1, I2. cbn [open_step sstep]. rewrite app_assoc. split; reflexivity.
Qed.

Lemma fees_from_block s cur pre hd txs post :
  let s0 := srun s pre in
  let s1 := (begin_block s0 hd).1 in
  let s2 := srun s1 (map SDeliver txs) in
  fees_from s cur (pre ++ SBegin hd :: map SDeliver txs ++ SEnd :: post) =
    fees_from s cur pre ++
    {| fb_height := b_height (bctx s2); fb_proposer := b_proposer (bctx s2); fb_fees := fees_of_txs s1 txs |}
      :: fees_from (end_block s2).1 [] post.
Proof.
  cbv zeta. rewrite fees_from_app. f_equal. cbn [fees_from app sstep open_step].
  rewrite fees_from_app. destruct (fees_from_delivers txs (begin_block (srun s pre) hd).1 []) as [E1 E2].
  rewrite E1, E2. cbn [app fees_from sstep open_step]. reflexivity.
Qed.

(* ================================================================== the shape of a run *)
(* On a well-bracketed list the heights take care of themselves: BeginBlock of block n+1 finds
   [last_height = n].  No hypothesis about states is needed for this (unlike InvPanic.phase_inv). *)
Definition shape_inv (ph : InvPanic.phase) (n : Z) (s : state) : Prop :=
  last_height s = n ∧
  match ph with
  | InvPanic.Idle => True
  | InvPanic.InBlock | InvPanic.Ended => b_height (bctx s) = n + 1
  end.

Lemma end_block_ctl s : bctx (end_block s).1 = bctx s ∧ last_height (end_block s).1 = last_height s ∧
  gparams (end_block s).1 = gparams s.
Proof.
  destruct (end_block s) as [s' r] eqn:E. apply end_block_cases in E. destruct E; repeat split; reflexivity.
Qed.

Lemma shape_step ph n s o r :
  shape_inv ph n s → InvPanic.bracketed ph n (o :: r) →
  shape_inv (InvPanic.next_phase ph n o).1 (InvPanic.next_phase ph n o).2 (sstep s o) ∧
  InvPanic.bracketed (InvPanic.next_phase ph n o).1 (InvPanic.next_phase ph n o).2 r.
Proof.
  intros [Hl Hph] Hbr.
  destruct ph, o as [hd|t| |]; cbn [InvPanic.bracketed] in Hbr; try contradiction;
    cbn [InvPanic.next_phase fst snd sstep].
  - destruct Hbr as (Hh & _ & Hbr). split; [|exact Hbr].
    destruct (begin_block s hd) as [s' x] eqn:E. apply begin_block_cases in E.
    destruct E; [lia|split; [exact Hl|cbn; lia]..].
  - destruct Hbr as (_ & Hbr). split; [|exact Hbr].
    destruct (deliver s t) as [s' x] eqn:E. cbn [fst].
    destruct (deliver_bctx _ _ _ _ E) as (Hh & _ & _ & _ & _ & Hlh). split; lia.
  - split; [|exact Hbr]. destruct (end_block_ctl s) as (Hb & Hlh & _). unfold shape_inv. rewrite Hb, Hlh. split; lia.
  - split; [|exact Hbr]. split; [cbn; lia|exact I].
Qed.

Lemma shape_run pre : ∀ ph n s post,
  shape_inv ph n s → InvPanic.bracketed ph n (pre ++ post) →
  shape_inv (InvPanic.end_phase ph n pre).1 (InvPanic.end_phase ph n pre).2 (srun s pre) ∧
  InvPanic.bracketed (InvPanic.end_phase ph n pre).1 (InvPanic.end_phase ph n pre).2 post.
Proof.
  induction pre as [|o pre IH]; intros ph n s post Hs Hbr; [split; assumption|].
  cbn [app] in Hbr. destruct (shape_step ph n s o _ Hs Hbr) as [Hs' Hbr'].
  cbn [InvPanic.end_phase]. unfold srun. cbn [foldl]. apply IH; assumption.
Qed.

Lemma shape_init g : shape_inv InvPanic.Idle 0 (init_chain g).
Proof. split; [reflexivity|exact I]. Qed.

Lemma bracketed_begin_height g pre hd post :
  InvPanic.bracketed InvPanic.Idle 0 (pre ++ SBegin hd :: post) →
  h_height hd = last_height (srun (init_chain g) pre) + 1.
Proof.
  intros Hbr. destruct (shape_run pre _ _ _ _ (shape_init g) Hbr) as [[Hl _] Hbr'].
  destruct (InvPanic.end_phase InvPanic.Idle 0 pre).1; cbn [InvPanic.bracketed] in Hbr'; try contradiction.
  destruct Hbr' as (Hh & _). lia.
Qed.

(* ================================================================== the price in force *)
(* The parameter set in force after a run, computed along the list: the genesis set, replaced at
   every Commit by the set the preceding EndBlocks left pending ([newparams]), when there is one.
   No other operation touches it. *)
Definition hand_over (s : state) (cur : params) (o : sop) : params :=
  match o with SCommit => default cur (newparams s) | _ => cur end.

Fixpoint in_force (s : state) (cur : params) (ops : list sop) : params :=
  match ops with
  | [] => cur
  | o :: r => in_force (sstep s o) (hand_over s cur o) r
  end.

Lemma sstep_gparams s o : gparams (sstep s o) = hand_over s (gparams s) o.
Proof.
  destruct o as [hd|t| |]; cbn [sstep hand_over].
  - apply begin_block_gparams.
  - apply (InvGov.deliver_params_unchanged s t).
  - apply end_block_ctl.
  - reflexivity.
Qed.

Lemma gparams_in_force ops : ∀ s, gparams (srun s ops) = in_force s (gparams s) ops.
Proof.
  unfold srun. induction ops as [|o ops IH]; intros s; cbn [foldl in_force]; [reflexivity|].
  rewrite IH, sstep_gparams. reflexivity.
Qed.

Definition no_commit (l : list sop) : Prop := Forall (λ o, o ≠ SCommit) l.

Lemma gparams_no_commit mid : no_commit mid → ∀ s, gparams (srun s mid) = gparams s.
Proof.
  unfold srun. induction 1 as [|o mid Ho _ IH]; intros s; cbn [foldl]; [reflexivity|].
  rewrite IH, sstep_gparams. destruct o; try reflexivity. contradiction.
Qed.

Lemma sstep_newparams s o :
  match o with
  | SBegin _ | SDeliver _ => newparams (sstep s o) = newparams s
  | SCommit => newparams (sstep s o) = None
  | SEnd =>
      newparams (sstep s o) = newparams s ∨
      ∃ k p w newp,
        fprops (base_of s) !! k = Some p ∧ p_apply p ≤ b_height (bctx s) ∧
        p_opttype p = PROPOSAL_GOVPARAMS ∧ p_major p = Some w ∧ o_params w = Some newp ∧
        newparams (sstep s o) = Some (merge_params (gparams s) newp)
  end.
Proof.
  destruct o as [hd|t| |]; cbn [sstep].
  - destruct (begin_block_control s hd _ _ (surjective_pairing _)) as [->|(_ & l & ->)]; reflexivity.
  - apply (InvGov.deliver_params_unchanged s t).
  - destruct (InvGov.end_block_params s) as (_ & _ & [[H _]|(k & p & w & newp & H1 & H2 & H3 & H4 & H5 & H6 & _)]).
    + left. exact H.
    + right. exists k, p, w, newp. auto 10.
  - reflexivity.
Qed.

(* C16, price: every successful delivery of every run -- no hypothesis on the run -- was accepted at
   the gas price of the parameter set in force in the state it was delivered in, with gas x price at
   least the minimum fee (and gas covering the intrinsic gas, for contract transactions); that set is
   [in_force] of the prefix: the genesis set if the prefix has no Commit, otherwise what the last
   Commit of the prefix handed over, and nothing after that Commit changed it.  In particular the
   price is constant between two Commits, hence within a block. *)
Theorem C16_run_price_in_force g ops pre t post s' gas :
  ops = pre ++ SDeliver t :: post →
  let s := srun (init_chain g) pre in
  deliver s t = (s', Ok gas) →
  t_price t = g_gasPrice (gparams s) ∧
  mul256 (g_minTrxGas (gparams s)) (g_gasPrice (gparams s)) ≤ fee_of t ∧
  (t_type t = TRX_CONTRACT → intrinsic_of t ≤ t_gas t) ∧
  gparams s = in_force (init_chain g) (gen_params g) pre ∧
  (no_commit pre → gparams s = gen_params g) ∧
  (∀ pre0 mid, pre = pre0 ++ mid → no_commit mid → gparams s = gparams (srun (init_chain g) pre0)) ∧
  (∀ pre0 mid, pre = pre0 ++ SCommit :: mid → no_commit mid →
     let sc := srun (init_chain g) pre0 in gparams s = default (gparams sc) (newparams sc)).
Proof.
  intros _ s Hd. destruct (deliver_ok_admission _ _ _ _ Hd) as (H1 & H2 & H3).
  split; [exact H1|]. split; [exact H2|]. split; [exact H3|].
  split; [apply (gparams_in_force pre (init_chain g))|].
  split; [intros Hn; apply (gparams_no_commit pre Hn (init_chain g))|]. split.
  - intros pre0 mid -> Hn. unfold s. rewrite srun_app. apply gparams_no_commit. exact Hn.
  - intros pre0 mid -> Hn sc. unfold s. rewrite srun_app. unfold srun at 1. cbn [foldl].
    fold (srun (sstep (srun (init_chain g) pre0) SCommit) mid). rewrite (gparams_no_commit mid Hn). reflexivity.
Qed.
Print Assumptions C16_run_price_in_force.

(* with well-formed genesis parameters and parameter documents that keep parameters well formed
   ([opts_ok], input-only: the submission check enforces no range, InvReach.params_ok_needs_opts_ok),
   the two fee bounds are products over Z *)
Theorem C16_run_admission_exact g ops pre t post s' gas :
  params_ok (gen_params g) → opts_ok ops → 0 ≤ t_gas t < two64 →
  ops = pre ++ SDeliver t :: post →
  let s := srun (init_chain g) pre in
  deliver s t = (s', Ok gas) →
  params_ok (gparams s) ∧
  t_price t = g_gasPrice (gparams s) ∧
  g_minTrxGas (gparams s) * g_gasPrice (gparams s) ≤ t_gas t * t_price t ∧
  (t_type t = TRX_CONTRACT → intrinsic_of t ≤ t_gas t).
Proof.
  intros Hg Hok Hgas E s Hd.
  assert (Hp : params_ok (gparams s)).
  { apply (params_ok_reachable g ops Hg Hok). exists (SDeliver t :: post). exact E. }
  destruct (deliver_ok_admission_exact _ _ _ _ Hd Hp Hgas) as [H1 H2].
  destruct (deliver_ok_admission _ _ _ _ Hd) as (_ & _ & H3). auto.
Qed.
Print Assumptions C16_run_admission_exact.

Lemma since_end_snoc (Q : list sop → Prop) pre o :
  (∃ pre0 mid, pre = pre0 ++ SEnd :: mid ∧ no_commit mid ∧ Q pre0) → o ≠ SCommit →
  ∃ pre0 mid, pre ++ [o] = pre0 ++ SEnd :: mid ∧ no_commit mid ∧ Q pre0.
Proof.
  intros (pre0 & mid & -> & Hnc & HQ) Ho. exists pre0, (mid ++ [o]).
  split; [rewrite <- app_assoc; reflexivity|]. split; [|exact HQ].
  apply Forall_app. split; [exact Hnc|]. constructor; [exact Ho|constructor].
Qed.

Lemma pending_origin g pre : ∀ m,
  newparams (srun (init_chain g) pre) = Some m →
  ∃ pre0 mid, pre = pre0 ++ SEnd :: mid ∧ no_commit mid ∧
    let se := srun (init_chain g) pre0 in
    ∃ k p w newp,
      fprops (base_of se) !! k = Some p ∧ p_apply p ≤ b_height (bctx se) ∧
      p_opttype p = PROPOSAL_GOVPARAMS ∧ p_major p = Some w ∧ o_params w = Some newp ∧
      m = merge_params (gparams se) newp.
Proof.
  induction pre as [|o pre IH] using rev_ind; intros m Hm; [discriminate Hm|].
  rewrite srun_snoc in Hm. pose proof (sstep_newparams (srun (init_chain g) pre) o) as Hn.
  destruct o as [hd|t| |].
  - rewrite Hn in Hm. apply since_end_snoc; [exact (IH m Hm)|discriminate].
  - rewrite Hn in Hm. apply since_end_snoc; [exact (IH m Hm)|discriminate].
  - destruct Hn as [Hn|(k & p & w & newp & H1 & H2 & H3 & H4 & H5 & H6)].
    + rewrite Hn in Hm. apply since_end_snoc; [exact (IH m Hm)|discriminate].
    + exists pre, []. split; [reflexivity|]. split; [constructor|]. cbv zeta.
      exists k, p, w, newp. rewrite Hm in H6. injection H6 as ->. auto 10.
  - rewrite Hn in Hm. discriminate Hm.
Qed.

(* C16 "across governance changes": the parameter set in force (hence the gas price and the minimum
   gas) changes at a Commit and nowhere else, and what the Commit switches in is the set an EndBlock
   of the run computed from a passed parameter proposal whose applying height had been reached *)
Theorem C16_run_price_hand_over g pre o :
  let s := srun (init_chain g) pre in
  gparams (sstep s o) ≠ gparams s →
  o = SCommit ∧ newparams s = Some (gparams (sstep s o)) ∧
  ∃ pre0 mid, pre = pre0 ++ SEnd :: mid ∧ no_commit mid ∧
    let se := srun (init_chain g) pre0 in
    ∃ k p w newp,
      fprops (base_of se) !! k = Some p ∧ p_apply p ≤ b_height (bctx se) ∧
      p_opttype p = PROPOSAL_GOVPARAMS ∧ p_major p = Some w ∧ o_params w = Some newp ∧
      gparams (sstep s o) = merge_params (gparams se) newp.
Proof.
  intros s Hne. rewrite sstep_gparams in Hne. rewrite sstep_gparams.
  destruct o as [hd|t| |]; cbn [hand_over] in *; try (contradiction Hne; reflexivity).
  split; [reflexivity|]. destruct (newparams s) as [m|] eqn:Em; [|contradiction Hne; reflexivity].
  cbn [default from_option id]. split; [reflexivity|]. apply (pending_origin g pre m Em).
Qed.
Print Assumptions C16_run_price_hand_over.

(* ================================================================== the fee sum of a block, modulo 2^256 *)
Definition fee_at (price : Z) (t : tx) (r : res Z) : list (addr * Z) :=
  match r with Ok gas => [(t_from t, gas * price)] | _ => [] end.
(* the same on the native path, where gas used is the gas limit *)
Definition fee_native (price : Z) (t : tx) (r : res Z) : list (addr * Z) :=
  match r with Ok _ => [(t_from t, t_gas t * price)] | _ => [] end.

Lemma fee_total_app l k : fee_total (l ++ k) = fee_total l + fee_total k.
Proof. unfold fee_total. apply sumZ_with_app. Qed.

Lemma fee1_result s t : fee1 s t = fee_at (g_gasPrice (gparams s)) t (deliver s t).2.
Proof. reflexivity. Qed.

Lemma add_wrap_mul acc g p : add256 (wrap256 acc) (mul256 g p) = wrap256 (acc + g * p).
Proof.
  unfold add256, mul256, wrap256. pose proof two256_pos.
  rewrite <- Z.add_mod by lia. reflexivity.
Qed.

Lemma delivers_fees txs : ∀ s acc,
  b_feesum (bctx s) = wrap256 acc →
  let s2 := srun s (map SDeliver txs) in
  b_feesum (bctx s2) = wrap256 (acc + fee_total (fees_of_txs s txs)) ∧
  gparams s2 = gparams s ∧ b_proposer (bctx s2) = b_proposer (bctx s) ∧ b_height (bctx s2) = b_height (bctx s) ∧
  fees_of_txs s txs = concat (zip_with (fee_at (g_gasPrice (gparams s))) txs (deliver_all s txs).2).
Proof.
  induction txs as [|t txs IH]; intros s acc Hacc; cbv zeta; cbn [map fees_of_txs deliver_all].
  - unfold srun, fee_total. cbn. rewrite Z.add_0_r. auto.
  - unfold srun. cbn [foldl sstep]. fold (srun (deliver s t).1 (map SDeliver txs)).
    rewrite fee1_result. destruct (deliver s t) as [s1 x] eqn:Ed. cbn [fst snd].
    destruct (deliver_bctx _ _ _ _ Ed) as (Hh & Hp & Hf & Hg & _).
    assert (Hacc1 : b_feesum (bctx s1) = wrap256 (acc + fee_total (fee_at (g_gasPrice (gparams s)) t x))).
    { rewrite Hf, Hacc. destruct x as [gas|e|pn]; unfold fee_total; cbn [fee_at sumZ_with foldr snd].
      - rewrite add_wrap_mul. f_equal. lia.
      - rewrite Z.add_0_r. reflexivity.
      - rewrite Z.add_0_r. reflexivity. }
    specialize (IH s1 _ Hacc1). cbv zeta in IH. destruct IH as (I1 & I2 & I3 & I4 & I5).
    destruct (deliver_all s1 txs) as [s2' xs] eqn:Ea. cbn [snd] in *.
    rewrite fee_total_app, I1. split; [f_equal; lia|]. split; [congruence|]. split; [congruence|]. split; [congruence|].
    cbn [zip_with concat]. rewrite I5, Hg. reflexivity.
Qed.

(* C16, a block of a well-bracketed run -- any transactions, EVM path included, no hypothesis on
   states: the block context at EndBlock carries the header's height and proposer, every delivery
   of the block was priced at the ONE gas price in force when the block began, and the fee sum
   EndBlock will pay is the sum of gas x price over the successful deliveries, modulo 2^256.
   [fees_of_block] lists that block right after the blocks of the prefix. *)
Theorem C16_run_block_fee_sum_mod g ops pre hd txs post :
  InvPanic.bracketed InvPanic.Idle 0 ops →
  ops = pre ++ SBegin hd :: map SDeliver txs ++ SEnd :: post →
  let s0 := srun (init_chain g) pre in
  let s1 := (begin_block s0 hd).1 in
  let s2 := srun s1 (map SDeliver txs) in
  s2 = srun (init_chain g) (pre ++ SBegin hd :: map SDeliver txs) ∧
  b_height (bctx s2) = h_height hd ∧ b_proposer (bctx s2) = h_proposer hd ∧ gparams s2 = gparams s0 ∧
  fees_of_txs s1 txs = concat (zip_with (fee_at (g_gasPrice (gparams s0))) txs (deliver_all s1 txs).2) ∧
  b_feesum (bctx s2) = wrap256 (fee_total (fees_of_txs s1 txs)) ∧
  fees_of_block g ops =
    fees_of_block g pre ++
    {| fb_height := h_height hd; fb_proposer := h_proposer hd; fb_fees := fees_of_txs s1 txs |}
      :: fees_from (end_block s2).1 [] post.
Proof.
  intros Hbr E s0 s1 s2.
  assert (Hh : h_height hd = last_height s0 + 1) by (rewrite E in Hbr; apply (bracketed_begin_height g pre hd _ Hbr)).
  assert (Eb : begin_block s0 hd = (s1, (begin_block s0 hd).2)) by (unfold s1; destruct (begin_block s0 hd); reflexivity).
  destruct (begin_block_feesum _ _ _ _ Eb Hh) as (Hf0 & Hp0 & Hh0).
  pose proof (begin_block_gparams s0 hd) as Hg1. fold s1 in Hg1.
  assert (Hacc : b_feesum (bctx s1) = wrap256 0) by (rewrite Hf0; reflexivity).
  destruct (delivers_fees txs s1 0 Hacc) as (I1 & I2 & I3 & I4 & I5). fold s2 in I1, I2, I3, I4.
  rewrite Z.add_0_l in I1.
  split.
  { unfold s2, s1, s0. rewrite srun_app. unfold srun at 3. cbn [foldl sstep]. reflexivity. }
  split; [congruence|]. split; [congruence|]. split; [congruence|].
  split; [rewrite I5, Hg1; reflexivity|]. split; [exact I1|].
  unfold fees_of_block. rewrite E. rewrite (fees_from_block (init_chain g) [] pre hd txs post).
  fold s0. fold s1. fold s2. rewrite I4, I3, Hh0, Hp0. reflexivity.
Qed.
Print Assumptions C16_run_block_fee_sum_mod.

(* ================================================================== closed runs: prefixes *)
Lemma bracketed_app_l pre : ∀ ph n post, InvPanic.bracketed ph n (pre ++ post) → InvPanic.bracketed ph n pre.
Proof.
  induction pre as [|o pre IH]; intros ph n post H; [exact I|].
  pose proof (IH _ _ _ (bracketed_tail _ _ _ _ H)) as Ht.
  destruct ph, o; cbn [app InvPanic.bracketed InvPanic.next_phase fst snd] in *; tauto.
Qed.

Lemma bracketed_app_r pre : ∀ ph n post, InvPanic.bracketed ph n (pre ++ post) →
  InvPanic.bracketed (InvPanic.end_phase ph n pre).1 (InvPanic.end_phase ph n pre).2 post.
Proof.
  induction pre as [|o pre IH]; intros ph n post H; [exact H|].
  cbn [InvPanic.end_phase]. apply IH, bracketed_tail, H.
Qed.

Definition in_block_op (o : sop) : Prop := match o with SDeliver _ | SEnd => True | _ => False end.

Lemma bracketed_first o post : InvPanic.bracketed InvPanic.Idle 0 (o :: post) → in_block_op o → False.
Proof. destruct o; cbn; tauto. Qed.

Lemma bracketed_adjacent pre0 o0 o post :
  InvPanic.bracketed InvPanic.Idle 0 (pre0 ++ o0 :: o :: post) → in_block_op o →
  match o0 with SBegin _ | SDeliver _ => True | _ => False end.
Proof.
  intros H Ho. apply bracketed_app_r in H.
  destruct (InvPanic.end_phase InvPanic.Idle 0 pre0).1, o0 as [hd0|t0| |]; cbn [InvPanic.bracketed] in H; try contradiction;
    try exact I; destruct o; cbn in *; tauto.
Qed.

Lemma hrun_app_inv pre : ∀ x post z, hrun x (pre ++ post) = Some z → ∃ y, hrun x pre = Some y ∧ hrun y post = Some z.
Proof.
  induction pre as [|o pre IH]; intros x post z H; cbn [app hrun] in *.
  - exists x. split; [reflexivity|exact H].
  - destruct (hstep x o) as [y|]; [|discriminate]. apply (IH _ _ _ H).
Qed.

Lemma hstep_in_block s p gh o y : hstep (s, p, gh) o = Some y → in_block_op o → p = POpen.
Proof. unfold hstep. destruct p, o; cbn; try discriminate; try tauto. Qed.

Lemma bal_of_small l B : 0 < B → (∀ a x, accts l !! a = Some x → 0 ≤ a_bal x < B) → ∀ a, 0 ≤ bal_of l a < B.
Proof.
  intros HB H a. unfold bal_of, acct_of. destruct (accts l !! a) as [x|] eqn:E; cbn [default from_option id].
  - apply (H a x E).
  - cbn. lia.
Qed.

(* the account the refund loop of EndBlock starts from, in numbers *)
Lemma fee_credited_bal s a :
  0 ≤ bal_of (work s) a < supply_bound → 0 ≤ b_feesum (bctx s) < supply_bound →
  a_bal (fee_credited s a) = bal_of (work s) a + (if decide (b_proposer (bctx s) = Some a) then b_feesum (bctx s) else 0).
Proof.
  intros Hb Hf. pose proof room_numbers as Hroom. pose proof supply_bound_lt as [Hsb _]. pose proof two256_double as H25.
  unfold fee_credited. fold (bal_of (work s) a).
  destruct (b_proposer (bctx s)) as [pa|]; [|rewrite decide_False by discriminate; unfold bal_of; lia].
  destruct (decide (pa = a)) as [->|Hne]; [|rewrite decide_False by congruence; unfold bal_of; lia].
  rewrite decide_True by reflexivity.
  destruct (0 <? sign256 (b_feesum (bctx s))) eqn:Es.
  - cbn [credit a_bal]. fold (bal_of (work s) a). apply add256_small. lia.
  - apply not_true_iff_false in Es. rewrite sign256_pos in Es by lia. unfold bal_of. lia.
Qed.

(* ================================================================== vocabulary of the totals *)
(* what the fee step of EndBlock adds to the balance of [a]: the balance the refund loop starts
   from ([fee_credited], InvStake.unfreeze_exact) minus the balance before EndBlock.  Together with
   InvUnbond.unbond_gain1 it accounts for the whole effect of an EndBlock on a balance
   ([end_block_gain_split]). *)
Definition fee_gain1 (a : addr) (s : state) (o : sop) : Z :=
  match o with
  | SEnd => match (end_block s).2 with Ok _ => a_bal (fee_credited s a) - bal_of (work s) a | _ => 0 end
  | _ => 0
  end.
Fixpoint fee_gain (a : addr) (s : state) (ops : list sop) : Z :=
  match ops with [] => 0 | o :: r => fee_gain1 a s o + fee_gain a (sstep s o) r end.

Lemma end_block_gain_split s a ups :
  (end_block s).2 = Ok ups →
  bal_of (work (end_block s).1) a = bal_of (work s) a + fee_gain1 a s SEnd + unbond_gain1 a s SEnd.
Proof. intros H. unfold fee_gain1, unbond_gain1. rewrite H. lia. Qed.

(* the fee credits of a run, one per EndBlock that answers in a block with a proposer:
   (height, proposer, amount credited) *)
Definition credits1 (s : state) (o : sop) : list (Z * addr * Z) :=
  match o, b_proposer (bctx s) with
  | SEnd, Some pa => match (end_block s).2 with
                     | Ok _ => [(b_height (bctx s), pa, fee_gain1 pa s SEnd)]
                     | _ => [] end
  | _, _ => []
  end.
Fixpoint credits (s : state) (ops : list sop) : list (Z * addr * Z) :=
  match ops with [] => [] | o :: r => credits1 s o ++ credits (sstep s o) r end.
Definition credit_total (cs : list (Z * addr * Z)) : Z := sumZ_with snd cs.

Definition credited_to (a : addr) (bs : list fblock) : Z :=
  sumZ_with (λ b, if decide (fb_proposer b = Some a) then fee_total (fb_fees b) else 0) bs.
Definition fees_with_proposer (bs : list fblock) : Z :=
  sumZ_with (λ b, match fb_proposer b with Some _ => fee_total (fb_fees b) | None => 0 end) bs.
Definition fees_without_proposer (bs : list fblock) : Z :=
  sumZ_with (λ b, match fb_proposer b with Some _ => 0 | None => fee_total (fb_fees b) end) bs.

(* every fee of the run, in order: what the senders are charged *)
Fixpoint fees_flat (s : state) (ops : list sop) : list (addr * Z) :=
  match ops with
  | [] => []
  | o :: r => match o with SDeliver t => fee1 s t | _ => [] end ++ fees_flat (sstep s o) r
  end.

(* on a well-bracketed list every fee lands in exactly one block (or in the block still open) *)
Lemma fees_flat_blocks ops : ∀ ph n s cur,
  InvPanic.bracketed ph n ops → (ph ≠ InvPanic.InBlock → cur = []) →
  fee_total cur + fee_total (fees_flat s ops) =
  sumZ_with (λ b, fee_total (fb_fees b)) (fees_from s cur ops) + fee_total (open_fees s cur ops).
Proof.
  assert (Hnil : fee_total [] = 0) by reflexivity.
  assert (Hsn : ∀ F : fblock → Z, sumZ_with F [] = 0) by reflexivity.
  assert (Hs1 : ∀ (F : fblock → Z) b, sumZ_with F [b] = F b) by (intros F b; unfold sumZ_with; cbn; lia).
  induction ops as [|o r IH]; intros ph n s cur Hbr Hcur; cbn [fees_flat fees_from open_fees].
  - rewrite Hnil, Hsn. lia.
  - rewrite fee_total_app, sumZ_with_app.
    destruct ph, o as [hd|t| |]; cbn [InvPanic.bracketed] in Hbr; try contradiction; cbn [open_step].
    + destruct Hbr as (_ & _ & Hbr). rewrite (Hcur ltac:(discriminate)).
      pose proof (IH _ _ (sstep s (SBegin hd)) [] Hbr ltac:(reflexivity)) as H.
      rewrite ?Hnil, ?Hsn in *. lia.
    + destruct Hbr as (_ & Hbr).
      pose proof (IH _ _ (sstep s (SDeliver t)) (cur ++ fee1 s t) Hbr ltac:(intros H; exfalso; apply H; reflexivity)) as H.
      rewrite fee_total_app in H. rewrite ?Hsn. lia.
    + pose proof (IH _ _ (sstep s SEnd) [] Hbr ltac:(reflexivity)) as H.
      rewrite Hs1. cbn [fb_fees]. rewrite ?Hnil in *. lia.
    + rewrite (Hcur ltac:(discriminate)).
      pose proof (IH _ _ (sstep s SCommit) [] Hbr ltac:(reflexivity)) as H.
      rewrite ?Hnil, ?Hsn in *. lia.
Qed.

Lemma fees_split_proposer bs :
  sumZ_with (λ b, fee_total (fb_fees b)) bs = fees_with_proposer bs + fees_without_proposer bs.
Proof.
  unfold fees_with_proposer, fees_without_proposer, sumZ_with.
  induction bs as [|b bs IH]; cbn [foldr]; [lia|]. destruct (fb_proposer b); lia.
Qed.

(* A delivery that does not succeed leaves the working ledgers as they were, up to the empty
   receiver account [find_or_new] may have added, so it moves no balance.
   (InvClosed.deliver_fail_no_effect_small gives more -- [same_obs] -- but asks for
   [InvFail.payload_wf], a condition on the payload whatever the type of the transaction.) *)
Lemma deliver_fail_balances s t s' r :
  deliver s t = (s', r) → (∀ gas, r ≠ Ok gas) →
  tx_wf t → InvFee.payload_wf t → params_ok (gparams s) → bal_range (work s) →
  bal_of (work s) (t_from t) < two255 →
  ∀ a, bal_of (work s') a = bal_of (work s) a.
Proof.
  intros Hd Hnok Hwf Hpl Hpar Hr Hlt a.
  destruct (deliver_fail_work s t s' r Hd Hnok Hwf Hpl Hpar Hr Hlt) as [->| ->];
    [reflexivity|apply bal_of_find_or_new].
Qed.

(* what the successful deliveries of a run move into and out of the account [a] besides fees
   (transferred / staked amounts out, transfers / withdrawn rewards in) *)
Definition moved1 (a : addr) (s : state) (o : sop) : Z :=
  match o with
  | SDeliver t => match (deliver s t).2 with
                  | Ok _ => tx_in t a - (if decide (a = t_from t) then tx_out t else 0)
                  | _ => 0 end
  | _ => 0
  end.
Fixpoint moved (a : addr) (s : state) (ops : list sop) : Z :=
  match ops with [] => 0 | o :: r => moved1 a s o + moved a (sstep s o) r end.
Definition charged_to (a : addr) (fees : list (addr * Z)) : Z :=
  sumZ_with (λ x : addr * Z, if decide (x.1 = a) then x.2 else 0) fees.

Lemma charged_to_app a l k : charged_to a (l ++ k) = charged_to a l + charged_to a k.
Proof. apply sumZ_with_app. Qed.

Section closed.
  Variables (g : genesis) (ops : list sop).
  Hypothesis Hg : genesis_ok g.
  Hypothesis Hbr : InvPanic.bracketed InvPanic.Idle 0 ops.
  Hypothesis Hfresh : hashes_fresh ops.
  Hypothesis Htx : txs_ok ops.
  Hypothesis Hbound : supply (work (init_chain g)) + requested ops < supply_bound.

  Lemma closed_prefix pre post : ops = pre ++ post →
    InvPanic.bracketed InvPanic.Idle 0 pre ∧ hashes_fresh pre ∧ txs_ok pre ∧
    supply (work (init_chain g)) + requested pre < supply_bound.
  Proof.
    intros E. split; [rewrite E in Hbr; eapply bracketed_app_l; exact Hbr|].
    split; [rewrite E in Hfresh; eapply hashes_fresh_app_l; exact Hfresh|].
    pose proof Htx as Htx'. rewrite E in Htx'. apply Forall_app in Htx' as [H1 H2].
    split; [exact H1|]. rewrite E, requested_app in Hbound. pose proof (requested_nonneg post H2). lia.
  Qed.

  Lemma closed_tx pre t post : ops = pre ++ SDeliver t :: post → tx_wf t ∧ InvFee.payload_wf t ∧ t_evm t = None.
  Proof.
    intros E. pose proof Htx as Htx'. rewrite E in Htx'. apply Forall_app in Htx' as [_ H2].
    apply Forall_cons in H2 as [H2 _]. exact H2.
  Qed.

  Lemma closed_answers pre o post : ops = pre ++ o :: post → InvPanic.step_answers (srun (init_chain g) pre) o.
  Proof.
    intros E. destruct (closed_run_inputs g ops Hg Hbr Hfresh Htx Hbound) as (Hans & _).
    rewrite E in Hans. apply (InvPanic.run_answers_at pre _ _ _ Hans).
  Qed.

  Lemma closed_at pre post : ops = pre ++ post →
    let s := srun (init_chain g) pre in
    params_ok (gparams s) ∧ ranges_ok (work s) ∧ ∀ a, 0 ≤ bal_of (work s) a < supply_bound.
  Proof.
    intros E s. destruct (closed_state_facts_along g ops Hg Hbr Hfresh Htx Hbound pre _ E) as (Hp & Hr & _ & Hsmall).
    exact (conj Hp (conj Hr (bal_of_small _ _ supply_bound_pos Hsmall))).
  Qed.

  (* inside an open block the collected fees stay below the supply bound (C02 at the prefix) *)
  Lemma closed_feesum_before pre o post :
    ops = pre ++ o :: post → in_block_op o →
    0 ≤ b_feesum (bctx (srun (init_chain g) pre)) < supply_bound.
  Proof.
    intros E Ho.
    assert (E1 : ops = (pre ++ [o]) ++ post) by (rewrite <- app_assoc; exact E).
    destruct (closed_prefix _ _ E1) as (Hbr1 & Hf1 & Htx1 & Hb1).
    assert (E0 : ops = pre ++ (o :: post)) by exact E.
    destruct (closed_prefix _ _ E0) as (Hbr0 & Hf0 & Htx0 & Hb0).
    destruct (closed_run_inputs g _ Hg Hbr1 Hf1 Htx1 Hb1) as (_ & (s1 & p1 & gh1 & Hrun1 & _) & _).
    apply hrun_app_inv in Hrun1 as ([[s p] gh] & Hrun0 & Hst). cbn [hrun] in Hst.
    destruct (hstep (s, p, gh) o) as [y|] eqn:Ey; [|discriminate].
    pose proof (hstep_in_block _ _ _ _ _ Ey Ho) as ->.
    pose proof (hrun_minted _ _ _ _ _ _ _ Hrun0) as Hm. cbn [ghost0 gh_withdrawn] in Hm.
    pose proof (minted_le_requested _ Htx0 (init_chain g)) as Hle0.
    destruct (C02_closed g pre s POpen gh Hrun0 Hg (fresh_run_reachable g _ Hf0) Htx0 (bracketed_opts_ok _ _ _ Hbr0) ltac:(lia))
      as (-> & Heq & Hr & _ & Hw & Hsl & Hbn).
    destruct (closed_reach_ok g ops Hg Hbr Hfresh Htx Hbound pre _ E0) as (_ & _ & Hpw & _).
    pose proof (supply_nonneg _ Hr Hpw) as Hs0.
    unfold C02_equation in Heq. cbn [pending] in Heq. pose proof InvPanic.apP_pos as Hap.
    assert (Hsl' : 0 ≤ amountPerPower * gh_slashed gh) by (apply Z.mul_nonneg_nonneg; lia).
    split; [apply feesum_run; cbn; pose proof two256_pos; lia|]. lia.
  Qed.

  (* ================================================================ one successful delivery of a closed run *)
  (* C16, the sender's charge.  Hypotheses on the inputs only.  A successful delivery of the run took
     the native path and used its whole gas limit; the fee is the product gas limit x price in force
     over Z; the sender could pay fee + amount; the block's fee sum grows by exactly the fee; and
     EVERY balance changes by exactly (what the transaction credits) - (fee and what the transaction
     takes, for the sender): nothing wraps, no room hypothesis is left. *)
  Theorem C16_run_sender_charge_sec pre t post s' gas :
    ops = pre ++ SDeliver t :: post →
    let s := srun (init_chain g) pre in
    deliver s t = (s', Ok gas) →
    let fee := t_gas t * g_gasPrice (gparams s) in
    native s t ∧ gas = t_gas t ∧ t_price t = g_gasPrice (gparams s) ∧
    fee1 s t = [(t_from t, fee)] ∧ fee_of t = fee ∧ 0 ≤ fee ∧
    fee + t_amount t ≤ bal_of (work s) (t_from t) ∧
    b_feesum (bctx s') = b_feesum (bctx s) + fee ∧
    (∀ a, bal_of (work s') a =
          bal_of (work s) a + tx_in t a - (if decide (a = t_from t) then fee + tx_out t else 0)).
  Proof.
    intros E s Hd fee.
    destruct (closed_tx _ _ _ E) as (Hwf & Hpl & Hevm).
    destruct (closed_at _ _ E) as (Hp & Hr & Hbal). fold s in Hp, Hr, Hbal.
    pose proof (native_of_ok _ _ _ _ Hd Hevm) as Hn.
    destruct (deliver_ok_admission _ _ _ _ Hd) as (Hprice & _).
    pose proof Hwf as (Hamt & _ & Hgas & _). pose proof Hp as (Hgp & _).
    assert (Hfee : fee_of t = fee).
    { rewrite fee_of_exact by (rewrite ?Hprice; assumption). unfold fee. rewrite Hprice. lia. }
    destruct (deliver_ok_funds _ _ _ _ Hd Hp Hwf) as (Hfund & _ & _).
    pose proof (fee_of_range t) as Hfr.
    destruct (deliver_native_balances _ _ _ _ Hd Hn Hwf Hpl (ranges_ok_bal_range _ Hr)) as (Hgq & _ & Hb).
    pose proof room_numbers as Hroom. pose proof supply_bound_lt as [Hsb _]. pose proof two256_double as H25.
    assert (Hreq : withdrawn_of t ≤ requested ops) by (rewrite E; apply requested_elem; rewrite <- E; exact Htx).
    pose proof (withdrawn_of_nonneg _ Hpl) as Hwn.
    assert (H0 : 0 ≤ supply (work (init_chain g))).
    { apply supply_nonneg; [apply init_chain_bal_range; apply Hg|apply init_chain_powers_ok; apply Hg]. }
    assert (Hrooms : ∀ a, room_for (work s) t a).
    { intros a. apply room_for_bound; [|exact Hwn|pose proof (Hbal a); lia].
      intros _ _ _. pose proof (Hbal a). pose proof (Hbal (t_from t)). lia. }
    pose proof (closed_feesum_before pre (SDeliver t) post E I) as Hfs. fold s in Hfs.
    split; [exact Hn|]. split; [exact Hgq|]. split; [exact Hprice|].
    split; [unfold fee1; rewrite Hd; cbn [snd]; rewrite Hgq; reflexivity|].
    split; [exact Hfee|]. split; [lia|]. split; [lia|]. split.
    - rewrite (deliver_native_feesum _ _ _ _ Hd Hn), Hfee. apply add256_small.
      pose proof (Hbal (t_from t)). lia.
    - intros a. rewrite (Hb a (Hrooms a)), Hfee. reflexivity.
  Qed.

  Lemma closed_deliver_fee pre t post :
    ops = pre ++ SDeliver t :: post →
    let s := srun (init_chain g) pre in
    b_feesum (bctx (deliver s t).1) = b_feesum (bctx s) + fee_total (fee1 s t) ∧
    Forall (λ x : addr * Z, x.1 = t_from t ∧ x.2 = t_gas t * g_gasPrice (gparams s) ∧ 0 ≤ x.2) (fee1 s t).
  Proof.
    intros E s. destruct (deliver s t) as [s' r] eqn:Ed. cbn [fst].
    destruct r as [gas|e|pn].
    2,3: unfold fee1; rewrite Ed, (deliver_feesum _ _ _ _ Ed); unfold fee_total; cbn; split; [lia|constructor].
    destruct (C16_run_sender_charge_sec pre t post s' gas E Ed) as (_ & _ & _ & Hf1 & _ & H0 & _ & Hfs & _).
    fold s in Hf1, Hfs. rewrite Hf1. unfold fee_total. cbn [sumZ_with foldr snd].
    split; [lia|]. repeat constructor. exact H0.
  Qed.

  Lemma closed_open_feesum pre : ∀ o post,
    ops = pre ++ o :: post → in_block_op o →
    b_feesum (bctx (srun (init_chain g) pre)) = fee_total (open_fees (init_chain g) [] pre).
  Proof.
    induction pre as [|o0 pre0 IH] using rev_ind; intros o post E Ho.
    - exfalso. rewrite E in Hbr. exact (bracketed_first _ _ Hbr Ho).
    - assert (E0 : ops = pre0 ++ o0 :: o :: post) by (rewrite E, <- app_assoc; reflexivity).
      pose proof Hbr as Hadj. rewrite E0 in Hadj. apply bracketed_adjacent in Hadj; [|exact Ho].
      rewrite srun_snoc, open_fees_app. cbn [open_fees].
      destruct o0 as [hd|t| |]; try contradiction; cbn [sstep open_step].
      + assert (Hh : h_height hd = last_height (srun (init_chain g) pre0) + 1).
        { rewrite E0 in Hbr. apply (bracketed_begin_height g pre0 hd _ Hbr). }
        destruct (begin_block (srun (init_chain g) pre0) hd) as [s1 r1] eqn:Eb. cbn [fst].
        destruct (begin_block_feesum _ _ _ _ Eb Hh) as (-> & _). reflexivity.
      + destruct (closed_deliver_fee pre0 t _ E0) as [Hf _]. cbv zeta in Hf.
        rewrite Hf, fee_total_app, (IH (SDeliver t) (o :: post) E0 I). reflexivity.
  Qed.

  (* ================================================================ one block of a closed run *)
  Lemma closed_fees_of_txs txs : ∀ pre1 post1,
    ops = pre1 ++ map SDeliver txs ++ post1 →
    let s := srun (init_chain g) pre1 in
    fees_of_txs s txs = concat (zip_with (fee_native (g_gasPrice (gparams s))) txs (deliver_all s txs).2) ∧
    Forall (λ x : addr * Z, 0 ≤ x.2) (fees_of_txs s txs).
  Proof.
    induction txs as [|t txs IH]; intros pre1 post1 E s; cbn [fees_of_txs deliver_all map].
    - split; [reflexivity|constructor].
    - cbn [map app] in E.
      destruct (closed_deliver_fee pre1 t _ E) as [_ Hall]. fold s in Hall.
      assert (E1 : ops = (pre1 ++ [SDeliver t]) ++ map SDeliver txs ++ post1) by (rewrite <- app_assoc; exact E).
      destruct (IH _ _ E1) as [I1 I2]. rewrite srun_snoc in I1, I2. fold s in I1, I2. cbn [sstep] in I1, I2.
      assert (Hf1 : fee1 s t = fee_native (g_gasPrice (gparams s)) t (deliver s t).2).
      { unfold fee1 in *. destruct (deliver s t) as [s1 x]. cbn [snd] in *. destruct x as [gas|e|pn]; try reflexivity.
        apply Forall_cons in Hall as [(_ & Hx & _) _]. cbn [snd] in Hx. cbn [fee_native]. rewrite Hx. reflexivity. }
      pose proof (proj1 (InvGov.deliver_params_unchanged s t)) as Hgp. cbv zeta in Hgp.
      destruct (deliver s t) as [s1 x] eqn:Ed. cbn [fst snd] in *.
      destruct (deliver_all s1 txs) as [s2 xs] eqn:Ea. cbn [snd zip_with concat] in *.
      split; [rewrite Hf1, I1, Hgp; reflexivity|].
      apply Forall_app. split; [|exact I2].
      eapply Forall_impl; [exact Hall|]. intros y (_ & _ & H). exact H.
  Qed.

  (* ================================================================ deliveries that do not succeed *)
  Lemma closed_no_panic pre t post pn :
    ops = pre ++ SDeliver t :: post → (deliver (srun (init_chain g) pre) t).2 ≠ Panic pn.
  Proof. intros E. apply (closed_answers pre (SDeliver t) post E). Qed.

  Lemma closed_failed pre t post s' r :
    ops = pre ++ SDeliver t :: post →
    let s := srun (init_chain g) pre in
    deliver s t = (s', r) → (∀ gas, r ≠ Ok gas) →
    fee1 s t = [] ∧ b_feesum (bctx s') = b_feesum (bctx s) ∧ (∀ a, bal_of (work s') a = bal_of (work s) a).
  Proof.
    intros E s Hd Hnok. destruct (closed_tx _ _ _ E) as (Hwf & Hpl & _).
    destruct (closed_at _ _ E) as (Hp & Hr & Hbal). fold s in Hp, Hr, Hbal. pose proof supply_bound_lt as [Hsb _].
    unfold fee1. rewrite (deliver_feesum _ _ _ _ Hd), Hd. cbn [snd]. split; [|split].
    1,2: destruct r as [gas|e|pn]; [destruct (Hnok gas eq_refl)|reflexivity..].
    apply (deliver_fail_balances s t s' r Hd Hnok Hwf Hpl Hp (ranges_ok_bal_range _ Hr)).
    pose proof (Hbal (t_from t)). lia.
  Qed.

  (* ================================================================ the fees of the whole run *)
  Lemma closed_fee_gain a : ∀ post pre, ops = pre ++ post →
    let s := srun (init_chain g) pre in
    let bs := fees_from s (open_fees (init_chain g) [] pre) post in
    fee_gain a s post = credited_to a bs ∧ credit_total (credits s post) = fees_with_proposer bs.
  Proof.
    induction post as [|o r IH]; intros pre E s bs.
    { split; reflexivity. }
    assert (E' : ops = (pre ++ [o]) ++ r) by (rewrite <- app_assoc; exact E).
    destruct (IH _ E') as [I1 I2]. rewrite srun_snoc, open_fees_app in I1, I2. cbn [open_fees] in I1, I2. fold s in I1, I2.
    unfold bs. cbn [fee_gain credits fees_from]. unfold credited_to, fees_with_proposer, credit_total in *.
    rewrite !sumZ_with_app, I1, I2.
    destruct o as [hd|t| |]; cbn [fee_gain1 credits1]; try (unfold sumZ_with; cbn; split; lia).
    destruct (closed_answers pre SEnd r E) as [ups Hups]. fold s in Hups. rewrite Hups.
    destruct (closed_at _ _ E) as (_ & _ & Hbal). fold s in Hbal.
    pose proof (closed_feesum_before pre SEnd r E I) as Hfs. fold s in Hfs.
    pose proof (closed_open_feesum pre SEnd r E I) as Hsum. fold s in Hsum.
    assert (Hgain : ∀ x, a_bal (fee_credited s x) - bal_of (work s) x =
                         if decide (b_proposer (bctx s) = Some x) then fee_total (open_fees (init_chain g) [] pre) else 0).
    { intros x. rewrite (fee_credited_bal s x (Hbal x) Hfs), Hsum. destruct (decide _); lia. }
    split.
    - rewrite Hgain. unfold sumZ_with. cbn [foldr fb_proposer fb_fees]. lia.
    - destruct (b_proposer (bctx s)) as [pa|] eqn:Ep; unfold sumZ_with; cbn [foldr fb_proposer fb_fees snd app].
      + rewrite Hgain. destruct (decide (Some pa = Some pa)); [lia|congruence].
      + lia.
  Qed.

  Lemma closed_ledger a : ∀ post pre, ops = pre ++ post →
    let s := srun (init_chain g) pre in
    bal_of (work (srun s post)) a =
      bal_of (work s) a + moved a s post - charged_to a (fees_flat s post) + fee_gain a s post + unbond_gain a s post.
  Proof.
    induction post as [|o r IH]; intros pre E s.
    { unfold srun, charged_to, sumZ_with. cbn. lia. }
    assert (E' : ops = (pre ++ [o]) ++ r) by (rewrite <- app_assoc; exact E).
    specialize (IH _ E'). cbv zeta in IH. rewrite srun_snoc in IH. fold s in IH.
    unfold srun at 1. cbn [foldl]. fold (srun (sstep s o) r). rewrite IH.
    cbn [moved fees_flat fee_gain unbond_gain]. rewrite charged_to_app.
    assert (Hstep : bal_of (work (sstep s o)) a =
              bal_of (work s) a + moved1 a s o
              - charged_to a (match o with SDeliver t => fee1 s t | _ => [] end) + fee_gain1 a s o + unbond_gain1 a s o); [|lia].
    destruct o as [hd|t| |]; cbn [sstep moved1 fee_gain1 unbond_gain1].
    - unfold bal_of, acct_of. rewrite InvNonce.begin_block_accts. unfold charged_to, sumZ_with. cbn [foldr]. lia.
    - destruct (deliver s t) as [s' x] eqn:Ed. cbn [fst snd]. destruct x as [gas|e|pn].
      2,3: destruct (closed_failed pre t r s' _ E Ed ltac:(discriminate)) as (Hf1 & _ & Hb); fold s in Hf1, Hb;
        rewrite Hf1, (Hb a); unfold charged_to, sumZ_with; cbn [foldr]; lia.
      destruct (C16_run_sender_charge_sec pre t r s' gas E Ed) as (_ & _ & _ & Hf1 & _ & _ & _ & _ & Hb).
      fold s in Hf1, Hb. rewrite Hf1, (Hb a). unfold charged_to, sumZ_with. cbn [foldr fst snd].
      destruct (decide (a = t_from t)) as [->|Hne].
      + destruct (decide (t_from t = t_from t)); [lia|congruence].
      + destruct (decide (t_from t = a)); [congruence|lia].
    - destruct (closed_answers pre SEnd r E) as [ups Hups]. fold s in Hups.
      rewrite (end_block_gain_split s a ups Hups). unfold fee_gain1, unbond_gain1, charged_to, sumZ_with.
      rewrite Hups. cbn [foldr]. lia.
    - unfold charged_to, sumZ_with. cbn [foldr commit work]. lia.
  Qed.
End closed.

(* ================================================================== the statements, hypotheses spelled out *)
(* The hypotheses of the closed theorems are those of InvReach.C02_closed_total, all on the inputs:
     genesis_ok g                  parameters in range, at most one genesis validator (the genesis
                                   hash collision, C11_collision_refuted), powers / balances in range
     InvPanic.bracketed Idle 0 ops Begin, Deliver*, End, Commit; block n+1 follows block n; Go-typed
                                   transaction fields; parameter documents keep parameters in range
     hashes_fresh ops              staking transactions carry pairwise distinct non-zero hashes
     txs_ok ops                    withdrawal requests are uint256; no EVM execution succeeds
                                   ([t_evm t = None]: the EVM effect is an oracle, see below)
     supply + requested < bound    genesis supply plus all requested withdrawals below 2^63 RIGO
   Nothing is assumed about intermediate states, about BeginBlock / EndBlock answering, or about
   balances not wrapping: all of that is derived. *)

(* C16 for one successful delivery of a run *)
Theorem C16_run_sender_charge g ops pre t post s' gas :
  genesis_ok g → InvPanic.bracketed InvPanic.Idle 0 ops → hashes_fresh ops → txs_ok ops →
  supply (work (init_chain g)) + requested ops < supply_bound →
  ops = pre ++ SDeliver t :: post →
  let s := srun (init_chain g) pre in
  deliver s t = (s', Ok gas) →
  let fee := t_gas t * g_gasPrice (gparams s) in
  native s t ∧ gas = t_gas t ∧ t_price t = g_gasPrice (gparams s) ∧
  fee1 s t = [(t_from t, fee)] ∧ fee_of t = fee ∧ 0 ≤ fee ∧
  fee + t_amount t ≤ bal_of (work s) (t_from t) ∧
  b_feesum (bctx s') = b_feesum (bctx s) + fee ∧
  (∀ a, bal_of (work s') a =
        bal_of (work s) a + tx_in t a - (if decide (a = t_from t) then fee + tx_out t else 0)).
Proof. intros Hg Hbr Hf Htx Hb. apply C16_run_sender_charge_sec; assumption. Qed.
Print Assumptions C16_run_sender_charge.

(* the readable instances: what the sender of each transaction type pays *)
Corollary C16_run_sender_charge_types g ops pre t post s' gas :
  genesis_ok g → InvPanic.bracketed InvPanic.Idle 0 ops → hashes_fresh ops → txs_ok ops →
  supply (work (init_chain g)) + requested ops < supply_bound →
  ops = pre ++ SDeliver t :: post →
  let s := srun (init_chain g) pre in
  deliver s t = (s', Ok gas) →
  let fee := t_gas t * g_gasPrice (gparams s) in
  let from := t_from t in
  (t_type t = TRX_TRANSFER → t_from t ≠ t_to t →
     bal_of (work s') from = bal_of (work s) from - fee - t_amount t ∧
     bal_of (work s') (t_to t) = bal_of (work s) (t_to t) + t_amount t) ∧
  (t_type t = TRX_TRANSFER → t_from t = t_to t → bal_of (work s') from = bal_of (work s) from - fee) ∧
  (t_type t = TRX_STAKING → bal_of (work s') from = bal_of (work s) from - fee - t_amount t) ∧
  (∀ req, t_type t = TRX_WITHDRAW → t_payload t = PWithdraw req →
     bal_of (work s') from = bal_of (work s) from - fee + req) ∧
  (t_type t ≠ TRX_TRANSFER → t_type t ≠ TRX_STAKING → t_type t ≠ TRX_WITHDRAW →
     bal_of (work s') from = bal_of (work s) from - fee) ∧
  (∀ a, a ≠ t_from t → (t_type t = TRX_TRANSFER → a ≠ t_to t) → bal_of (work s') a = bal_of (work s) a).
Proof.
  intros Hg Hbr Hf Htx Hb E s Hd fee from.
  destruct (C16_run_sender_charge g ops pre t post s' gas Hg Hbr Hf Htx Hb E Hd) as (_ & _ & _ & _ & _ & _ & _ & _ & H).
  fold s fee in H. unfold from.
  (* in each case the general equation, with [tx_in] and [tx_out] computed for the type *)
  split; [|split; [|split; [|split; [|split]]]].
  - intros Hty Hne. rewrite (H (t_from t)), (H (t_to t)). unfold tx_in, tx_out. rewrite Hty. cbn.
    repeat case_decide; try congruence; lia.
  - intros Hty Heq. rewrite (H (t_from t)). unfold tx_in, tx_out. rewrite Hty. cbn.
    repeat case_decide; try congruence; lia.
  - intros Hty. rewrite (H (t_from t)). unfold tx_in, tx_out. rewrite Hty. cbn.
    repeat case_decide; try congruence; lia.
  - intros req Hty Hpl. rewrite (H (t_from t)). unfold tx_in, tx_out. rewrite Hty, Hpl. cbn.
    repeat case_decide; try congruence; lia.
  - intros H1 H2 H8. rewrite (H (t_from t)). apply Z.eqb_neq in H1, H2, H8. unfold tx_in, tx_out. rewrite H1, H2, H8. cbn.
    repeat case_decide; try congruence; lia.
  - intros a Hna Hnt. rewrite (H a), decide_False by exact Hna.
    unfold tx_in. destruct (t_type t =? TRX_TRANSFER) eqn:E1.
    + apply Z.eqb_eq in E1. rewrite decide_False by exact (Hnt E1). lia.
    + destruct (t_type t =? TRX_WITHDRAW); [|lia]. destruct (t_payload t); try lia.
      rewrite decide_False by exact Hna. lia.
Qed.

(* a delivery of the run that does not succeed (Err or Panic) charges nothing *)
Theorem C16_run_failed_no_charge g ops pre t post s' r :
  genesis_ok g → InvPanic.bracketed InvPanic.Idle 0 ops → hashes_fresh ops → txs_ok ops →
  supply (work (init_chain g)) + requested ops < supply_bound →
  ops = pre ++ SDeliver t :: post →
  let s := srun (init_chain g) pre in
  deliver s t = (s', r) → (∀ gas, r ≠ Ok gas) →
  fee1 s t = [] ∧ b_feesum (bctx s') = b_feesum (bctx s) ∧ (∀ a, bal_of (work s') a = bal_of (work s) a).
Proof. intros Hg Hbr Hf Htx Hb. apply closed_failed; assumption. Qed.
Print Assumptions C16_run_failed_no_charge.

(* the link to C05: a FAILED delivery of the run changes nothing observable at all
   ([InvFail.payload_wf]: a withdrawal payload carries a uint256) *)
Theorem C16_run_failed_no_effect g ops pre t post s' e :
  genesis_ok g → InvPanic.bracketed InvPanic.Idle 0 ops → hashes_fresh ops → txs_ok ops →
  supply (work (init_chain g)) + requested ops < supply_bound →
  ops = pre ++ SDeliver t :: post → InvFail.payload_wf t →
  let s := srun (init_chain g) pre in
  deliver s t = (s', Err e) → same_obs (work s) (work s') ∧ same_ctl s s'.
Proof.
  intros Hg Hbr Hf Htx Hb E Hpw s Hd. destruct (closed_tx ops Htx _ _ _ E) as (Hwf & _ & _).
  apply (C05_closed_along g ops pre (SDeliver t :: post) t s' e Hg Hbr Hf Htx Hb E Hwf Hpw Hd).
Qed.
Print Assumptions C16_run_failed_no_effect.

(* ... and no delivery of the run panics, every BeginBlock and EndBlock answers *)
Theorem C16_run_no_panic g ops pre o post :
  genesis_ok g → InvPanic.bracketed InvPanic.Idle 0 ops → hashes_fresh ops → txs_ok ops →
  supply (work (init_chain g)) + requested ops < supply_bound →
  ops = pre ++ o :: post → InvPanic.step_answers (srun (init_chain g) pre) o.
Proof. intros Hg Hbr Hf Htx Hb. apply closed_answers; assumption. Qed.
Print Assumptions C16_run_no_panic.

(* C16, a whole block of a closed run.  Hypotheses on the inputs only.  With s2 the state after the
   deliveries and s3 the state after EndBlock:
   - every fee of the block is gas limit x the ONE price in force when the block began, >= 0;
   - the fee sum in the block context at EndBlock is their sum over Z (below the supply bound, so
     the sign test of AcctCtrler.EndBlock passes whenever the sum is positive);
   - EndBlock answers, and EVERY balance after it = balance before + (the fee sum, for the
     header's proposer) + the unbonding refunds owed to that account (C12): nobody but the proposer
     is credited fees, nobody is credited fees when the header names no proposer.
   A proposer without ledger entry is created by the credit ([bal_of] of a missing account is 0). *)
Theorem C16_run_block_credit g ops pre hd txs post :
  genesis_ok g → InvPanic.bracketed InvPanic.Idle 0 ops → hashes_fresh ops → txs_ok ops →
  supply (work (init_chain g)) + requested ops < supply_bound →
  ops = pre ++ SBegin hd :: map SDeliver txs ++ SEnd :: post →
  let s0 := srun (init_chain g) pre in
  let s1 := (begin_block s0 hd).1 in
  let s2 := srun s1 (map SDeliver txs) in
  let s3 := (end_block s2).1 in
  let fees := fees_of_txs s1 txs in
  let refunds a := sumZ (payout_amount <$> owned_by a (payouts1 s2 SEnd)) in
  fees = concat (zip_with (fee_native (g_gasPrice (gparams s0))) txs (deliver_all s1 txs).2) ∧
  Forall (λ x : addr * Z, 0 ≤ x.2) fees ∧
  b_feesum (bctx s2) = fee_total fees ∧ 0 ≤ fee_total fees < supply_bound ∧
  b_proposer (bctx s2) = h_proposer hd ∧ b_height (bctx s2) = h_height hd ∧
  (∃ ups, end_block s2 = (s3, Ok ups)) ∧
  (∀ a, bal_of (work s3) a =
        bal_of (work s2) a + (if decide (h_proposer hd = Some a) then fee_total fees else 0) + refunds a) ∧
  (∀ pa, h_proposer hd = Some pa → bal_of (work s3) pa = bal_of (work s2) pa + fee_total fees + refunds pa) ∧
  (h_proposer hd = None → ∀ a, bal_of (work s3) a = bal_of (work s2) a + refunds a).
Proof.
  intros Hg Hbr Hfresh Htx Hbound E s0 s1 s2 s3 fees refunds.
  destruct (C16_run_block_fee_sum_mod g ops pre hd txs post Hbr E) as (Hs2 & Hh & Hpr & Hgp & _ & _ & _).
  fold s0 s1 s2 in Hs2, Hh, Hpr, Hgp.
  set (pre2 := pre ++ SBegin hd :: map SDeliver txs) in *.
  assert (E2 : ops = pre2 ++ SEnd :: post) by (unfold pre2; rewrite <- app_assoc; exact E).
  assert (E1 : ops = (pre ++ [SBegin hd]) ++ map SDeliver txs ++ SEnd :: post) by (rewrite <- app_assoc; exact E).
  destruct (closed_fees_of_txs g ops Hg Hbr Hfresh Htx Hbound txs _ _ E1) as [F1 F2].
  rewrite srun_snoc in F1, F2. cbn [sstep] in F1, F2. fold s0 s1 in F1, F2. rewrite (begin_block_gparams s0 hd : gparams s1 = _) in F1.
  assert (Hsum : b_feesum (bctx s2) = fee_total fees).
  { rewrite Hs2, (closed_open_feesum g ops Hg Hbr Hfresh Htx Hbound pre2 SEnd post E2 I). unfold pre2.
    rewrite open_fees_app. cbn [open_fees open_step sstep]. fold s0 s1. destruct (fees_from_delivers txs s1 []) as [_ ->]. reflexivity. }
  pose proof (closed_feesum_before g ops Hg Hbr Hfresh Htx Hbound pre2 SEnd post E2 I) as Hfs.
  rewrite <- Hs2, Hsum in Hfs.
  pose proof (closed_answers g ops Hg Hbr Hfresh Htx Hbound pre2 SEnd post E2) as [ups Hups]. rewrite <- Hs2 in Hups.
  assert (Eend : end_block s2 = (s3, Ok ups)) by (rewrite <- Hups; apply surjective_pairing).
  destruct (closed_at g ops Hg Hbr Hfresh Htx Hbound _ _ E2) as (_ & _ & Hbal). rewrite <- Hs2 in Hbal.
  assert (Hall : ∀ a, bal_of (work s3) a =
            bal_of (work s2) a + (if decide (h_proposer hd = Some a) then fee_total fees else 0) + refunds a).
  { intros a. pose proof (payout_step_exact g ops Hg Hbr Hfresh Htx Hbound pre2 post a s3 ups E2) as Hex.
    cbv zeta in Hex. rewrite <- Hs2 in Hex. rewrite (Hex Eend).
    rewrite (fee_credited_bal s2 a (Hbal a)) by (rewrite Hsum; exact Hfs). rewrite Hpr, Hsum. reflexivity. }
  split; [exact F1|]. split; [exact F2|]. split; [exact Hsum|]. split; [exact Hfs|].
  split; [exact Hpr|]. split; [exact Hh|]. split; [exists ups; exact Eend|]. split; [exact Hall|]. split.
  - intros pa Hpa. rewrite (Hall pa). destruct (decide (h_proposer hd = Some pa)); [reflexivity|contradiction].
  - intros Hnone a. rewrite (Hall a). destruct (decide (h_proposer hd = Some a)); [congruence|lia].
Qed.
Print Assumptions C16_run_block_credit.

Lemma fees_flat_nonneg g ops :
  genesis_ok g → InvPanic.bracketed InvPanic.Idle 0 ops → hashes_fresh ops → txs_ok ops →
  supply (work (init_chain g)) + requested ops < supply_bound →
  ∀ post pre, ops = pre ++ post → Forall (λ x : addr * Z, 0 ≤ x.2) (fees_flat (srun (init_chain g) pre) post).
Proof.
  intros Hg Hbr Hf Htx Hb. induction post as [|o r IH]; intros pre E; cbn [fees_flat]; [constructor|].
  assert (E' : ops = (pre ++ [o]) ++ r) by (rewrite <- app_assoc; exact E).
  specialize (IH _ E'). rewrite srun_snoc in IH. apply Forall_app. split; [|exact IH].
  destruct o as [hd|t| |]; try constructor.
  destruct (closed_deliver_fee g ops Hg Hbr Hf Htx Hb pre t r E) as [_ H].
  eapply Forall_impl; [exact H|]. intros x (_ & _ & Hx). exact Hx.
Qed.

(* C16 over the whole run: fees are moved, never created.
   - per account, what the fee steps of the EndBlocks credit is the sum of the fee totals of the
     blocks that account proposed;
   - the credits of the run add up to the fees of the blocks that had a proposer;
   - every fee a sender was charged ([fees_flat]) is in exactly one block, so:
       charged = credited to proposers + fees of proposer-less blocks (paid to nobody: burned)
                 + fees of the block still open;
   - all of these are non-negative. *)
Theorem C16_run_total_fees g ops :
  genesis_ok g → InvPanic.bracketed InvPanic.Idle 0 ops → hashes_fresh ops → txs_ok ops →
  supply (work (init_chain g)) + requested ops < supply_bound →
  let s0 := init_chain g in
  (∀ a, fee_gain a s0 ops = credited_to a (fees_of_block g ops)) ∧
  credit_total (credits s0 ops) = fees_with_proposer (fees_of_block g ops) ∧
  fee_total (fees_flat s0 ops) =
    credit_total (credits s0 ops) + fees_without_proposer (fees_of_block g ops) + fee_total (open_fees s0 [] ops) ∧
  Forall (λ x : addr * Z, 0 ≤ x.2) (fees_flat s0 ops).
Proof.
  intros Hg Hbr Hf Htx Hb s0.
  assert (H1 : ∀ a, fee_gain a s0 ops = credited_to a (fees_of_block g ops) ∧
                    credit_total (credits s0 ops) = fees_with_proposer (fees_of_block g ops)).
  { intros a. apply (closed_fee_gain g ops Hg Hbr Hf Htx Hb a ops []). reflexivity. }
  split; [intros a; apply H1|]. split; [apply (H1 0%N)|]. split.
  - pose proof (fees_flat_blocks ops InvPanic.Idle 0 s0 [] Hbr ltac:(reflexivity)) as H.
    rewrite fees_split_proposer in H. destruct (H1 0%N) as [_ ->]. unfold fees_of_block. fold s0.
    change (fee_total []) with 0 in H. lia.
  - apply (fees_flat_nonneg g ops Hg Hbr Hf Htx Hb ops []). reflexivity.
Qed.
Print Assumptions C16_run_total_fees.

Corollary C16_run_fee_gain g ops a :
  genesis_ok g → InvPanic.bracketed InvPanic.Idle 0 ops → hashes_fresh ops → txs_ok ops →
  supply (work (init_chain g)) + requested ops < supply_bound →
  fee_gain a (init_chain g) ops = credited_to a (fees_of_block g ops).
Proof. intros Hg Hbr Hf Htx Hb. apply (C16_run_total_fees g ops Hg Hbr Hf Htx Hb). Qed.

(* C16 and C12 together, per account, over the whole run: the balance at the end is the genesis
   balance, plus what the transactions moved in and out, minus the fees the account was charged as a
   sender, plus the fees of the blocks it proposed, plus its unbonding refunds (characterised by
   InvUnbond.C12_history).  Over Z. *)
Theorem C16_run_account_ledger g ops a :
  genesis_ok g → InvPanic.bracketed InvPanic.Idle 0 ops → hashes_fresh ops → txs_ok ops →
  supply (work (init_chain g)) + requested ops < supply_bound →
  let s0 := init_chain g in
  bal_of (work (srun s0 ops)) a =
    bal_of (work s0) a + moved a s0 ops - charged_to a (fees_flat s0 ops)
    + credited_to a (fees_of_block g ops) + unbond_gain a s0 ops.
Proof.
  intros Hg Hbr Hf Htx Hb s0.
  pose proof (closed_ledger g ops Hg Hbr Hf Htx Hb a ops [] eq_refl) as H.
  destruct (closed_fee_gain g ops Hg Hbr Hf Htx Hb a ops [] eq_refl) as [Hfg _].
  subst s0. cbv zeta in H, Hfg. unfold fees_of_block.
  change (srun (init_chain g) []) with (init_chain g) in H, Hfg.
  change (open_fees (init_chain g) [] []) with (@nil (addr * Z)) in Hfg. lia.
Qed.
Print Assumptions C16_run_account_ledger.

(* ================================================================== the EVM path *)
(* [txs_ok] excludes successful EVM executions (their effect is an oracle).  What holds of them
   along runs without that hypothesis: admission and price ([C16_run_price_in_force]) and the fee
   sum of the block modulo 2^256 ([C16_run_block_fee_sum_mod]), both unconditional; and, on a
   recorded history on which the effect check passed (InvEvmClosed.v -- a verdict about the run,
   not a hypothesis on the inputs), the fee of a successful EVM-path delivery is gas USED x price
   with gas used within the limit, the touched accounts lose exactly that plus a non-negative burn,
   and no other balance moves *)
From Rigo Require AppRun EffectCheck InvEvmClosed.
Theorem C16_run_evm_charge_checked g rest senders pre t post s' gas :
  InvEvmClosed.no_init rest →
  EffectCheck.effects_hold senders AppRun.state0 (AppRun.AInit g :: rest) →
  InvEvmClosed.sops_of rest = pre ++ SDeliver t :: post →
  let s := srun (init_chain g) pre in
  deliver s t = (s', Ok gas) → ¬ native s t →
  ∃ e burn,
    t_evm t = Some e ∧ e_ok e = true ∧ gas = e_gas e ∧ 0 ≤ gas ≤ t_gas t ∧
    t_price t = g_gasPrice (gparams s) ∧
    fee1 s t = [(t_from t, gas * g_gasPrice (gparams s))] ∧
    b_feesum (bctx s') = add256 (b_feesum (bctx s)) (mul256 gas (g_gasPrice (gparams s))) ∧
    0 ≤ burn ∧ NoDup (InvEvmClosed.eff_addr <$> e_accts e) ∧
    sumZ_with (λ a, bal_of (work s) a - bal_of (work s') a) (InvEvmClosed.eff_addr <$> e_accts e)
      = gas * g_gasPrice (gparams s) + burn ∧
    (∀ a, a ∉ InvEvmClosed.eff_addr <$> e_accts e → bal_of (work s') a = bal_of (work s) a).
Proof.
  intros Hn Heff E s Hd Hnat.
  destruct (InvEvmClosed.C16_evm_cost_checked g rest senders pre t post s s' gas Hn Heff E eq_refl Hd Hnat)
    as (e & burn & H1 & H2 & H3 & H4 & H5 & H6 & H7 & H8 & H9).
  destruct (deliver_ok_admission _ _ _ _ Hd) as (Hp & _).
  exists e, burn. split; [exact H1|]. split; [exact H2|]. split; [exact H3|]. split; [exact H4|]. split; [exact Hp|].
  split; [unfold fee1; rewrite Hd; reflexivity|]. auto 10.
Qed.
Print Assumptions C16_run_evm_charge_checked.

(* ================================================================== the statements are not vacuous *)
(* Eight blocks on a chain with one genesis validator (account 1, power 100) and three holders.
   Gas price 10, minimum gas 10 at genesis.
     block 1 (proposer 2)  two transfers, gas limits 100 and 250
     block 2 (no proposer) empty; its EndBlock announces the validator
     block 3 (no proposer) the validator proposes a parameter document: gas price 20, minimum gas 50
                           (voting at heights 4..5, applying height 6)
     block 4 (proposer 1)  the validator votes for it
     blocks 5-7            empty: the proposal is frozen at 6, applied by the EndBlock of 7, and the
                           Commit of 7 hands the new parameters over
     block 8 (proposer 3)  a transfer at the OLD price 10: refused (E_PRICE); a transfer at the new
                           price with gas 40 < 50: refused (E_GAS); a transfer with gas 300 and a
                           delegation with gas 60 at price 20: charged 6000 and 1200 *)
Definition fx_genesis : genesis := {|
  gen_params := InvPanic.pr1;
  gen_holders := [(1%N, 1000 * amountPerPower); (2%N, 500 * amountPerPower); (3%N, 500 * amountPerPower)];
  gen_validators := [(1%N, 100)] |}.
Definition fx_tx (ty : Z) (from to : addr) (amount price gas nonce : Z) (pl : payload) (h : hash) : tx := {|
  t_type := ty; t_from := from; t_to := to; t_from_ok := true; t_to_ok := true; t_amount := amount;
  t_price := price; t_gas := gas; t_nonce := nonce; t_payload := pl; t_hash := h; t_sigok := true; t_evm := None |}.
Definition fx_hdr (h : Z) (p : option addr) : header :=
  {| h_height := h; h_proposer := p; h_votes := []; h_evidence := [] |}.
Definition fx_doc : params := {|
  g_version := 0; g_maxValidatorCnt := 0; g_minValidatorStake := 0; g_minDelegatorStake := 0;
  g_rewardPerPower := 0; g_lazyRewardBlocks := 0; g_lazyApplyingBlocks := 0; g_gasPrice := 20;
  g_minTrxGas := 50; g_maxTrxGas := 0; g_maxBlockGas := 0; g_minVotingPeriodBlocks := 0;
  g_maxVotingPeriodBlocks := 0; g_minSelfStakeRatio := 0; g_maxUpdatableStakeRatio := 0;
  g_maxIndividualStakeRatio := 0; g_slashRatio := 0; g_signedBlocksWindow := 0; g_minSignedBlocks := 0 |}.
Definition fx_prop : tx :=
  fx_tx TRX_PROPOSAL 1%N 0%N 0 10 100 0 (PProposal 4 1 6 PROPOSAL_GOVPARAMS [(1%N, Some fx_doc)] true) 77%N.
Definition fx_vote : tx := fx_tx TRX_VOTING 1%N 0%N 0 10 100 1 (PVoting 77%N 0) 78%N.
Definition fx_t1 : tx := fx_tx TRX_TRANSFER 2%N 3%N amountPerPower 10 100 0 PNone 101%N.
Definition fx_t2 : tx := fx_tx TRX_TRANSFER 3%N 2%N (2 * amountPerPower) 10 250 0 PNone 102%N.
Definition fx_old : tx := fx_tx TRX_TRANSFER 2%N 3%N amountPerPower 10 100 1 PNone 103%N.
Definition fx_low : tx := fx_tx TRX_TRANSFER 2%N 3%N amountPerPower 20 40 1 PNone 104%N.
Definition fx_new : tx := fx_tx TRX_TRANSFER 2%N 3%N amountPerPower 20 300 1 PNone 105%N.
Definition fx_stake : tx := fx_tx TRX_STAKING 3%N 1%N (5 * amountPerPower) 20 60 1 PNone 106%N.

Definition fx_pre8 : list sop :=
  [SBegin (fx_hdr 1 (Some 2%N)); SDeliver fx_t1; SDeliver fx_t2; SEnd; SCommit;
   SBegin (fx_hdr 2 None); SEnd; SCommit;
   SBegin (fx_hdr 3 None); SDeliver fx_prop; SEnd; SCommit;
   SBegin (fx_hdr 4 (Some 1%N)); SDeliver fx_vote; SEnd; SCommit;
   SBegin (fx_hdr 5 (Some 1%N)); SEnd; SCommit;
   SBegin (fx_hdr 6 (Some 1%N)); SEnd; SCommit;
   SBegin (fx_hdr 7 (Some 1%N)); SEnd; SCommit].
Definition fx_txs8 : list tx := [fx_old; fx_low; fx_new; fx_stake].
Definition fx_ops : list sop := fx_pre8 ++ SBegin (fx_hdr 8 (Some 3%N)) :: map SDeliver fx_txs8 ++ [SEnd; SCommit].

Ltac fz := repeat split; vm_compute; congruence.

Lemma fx_genesis_ok : genesis_ok fx_genesis.
Proof.
  split; [exact InvPanic.pr1_ok|]. split; [vm_compute; lia|]. split.
  - repeat apply Forall_cons_2; try apply Forall_nil_2; fz.
  - repeat apply Forall_cons_2; try apply Forall_nil_2; fz.
Qed.

Lemma fx_doc_ok : InvPanic.opt_ok fx_doc.
Proof.
  apply doc_ok_opt_ok, doc_fields_ok_doc_ok. unfold doc_fields_ok, unset_or. cbn.
  Local Transparent two64.
  repeat split; first [left; reflexivity|right; unfold two64; lia].
  Local Opaque two64.
Qed.

Lemma fx_prop_ok : InvPanic.tx_ok fx_prop.
Proof.
  split; [fz|]. split; [intros E; vm_compute in E; discriminate|].
  unfold InvPanic.payload_consistent, InvPanic.proposal_params_ok. cbn. split.
  - intros _. repeat constructor. eexists; reflexivity.
  - constructor; [|constructor]. intros np' E. cbn in E. injection E as <-. exact fx_doc_ok.
Qed.

Lemma fx_bracketed : InvPanic.bracketed InvPanic.Idle 0 fx_ops.
Proof.
  unfold fx_ops, fx_pre8, fx_txs8. cbn [app map InvPanic.bracketed].
  repeat match goal with
  | |- _ ∧ _ => split
  | |- InvPanic.tx_ok fx_prop => exact fx_prop_ok
  | |- InvPanic.tx_ok _ => apply InvPanic.tx_ok_plain; [fz|discriminate|discriminate]
  | |- _ = _ => reflexivity
  | |- _ → _ => let H := fresh in intros H; first [lia|exfalso; apply H; reflexivity]
  | |- True => exact I
  end.
Qed.

Lemma fx_hashes_fresh : hashes_fresh fx_ops.
Proof.
  unfold hashes_fresh. replace (stake_hashes fx_ops) with [106%N] by (vm_compute; reflexivity).
  apply NoDup_cons. split; [|apply NoDup_singleton]. intros H. apply elem_of_list_singleton in H. discriminate.
Qed.

Lemma fx_txs_ok : txs_ok fx_ops.
Proof. apply txs_okb_sound. vm_compute. reflexivity. Qed.

Lemma fx_bound : supply (work (init_chain fx_genesis)) + requested fx_ops < supply_bound.
Proof. vm_compute. reflexivity. Qed.

Fixpoint results (s : state) (ops : list sop) : list (res Z) :=
  match ops with
  | [] => []
  | o :: r => match o with SDeliver t => [(deliver s t).2] | _ => [] end ++ results (sstep s o) r
  end.

Lemma fx_fees_of_block :
  fees_of_block fx_genesis fx_ops =
    [ {| fb_height := 1; fb_proposer := Some 2%N; fb_fees := [(2%N, 100 * 10); (3%N, 250 * 10)] |};
      {| fb_height := 2; fb_proposer := None; fb_fees := [] |};
      {| fb_height := 3; fb_proposer := None; fb_fees := [(1%N, 100 * 10)] |};
      {| fb_height := 4; fb_proposer := Some 1%N; fb_fees := [(1%N, 100 * 10)] |};
      {| fb_height := 5; fb_proposer := Some 1%N; fb_fees := [] |};
      {| fb_height := 6; fb_proposer := Some 1%N; fb_fees := [] |};
      {| fb_height := 7; fb_proposer := Some 1%N; fb_fees := [] |};
      {| fb_height := 8; fb_proposer := Some 3%N; fb_fees := [(2%N, 300 * 20); (3%N, 60 * 20)] |} ].
Proof. vm_compute. reflexivity. Qed.

(* block 8 through the theorem: fee sum 7200, all of it to the proposer (account 3), nothing to
   anybody else *)
Example C16_run_example_block :
  let s0 := init_chain fx_genesis in
  let s1 := (begin_block (srun s0 fx_pre8) (fx_hdr 8 (Some 3%N))).1 in
  let s2 := srun s1 (map SDeliver fx_txs8) in
  let s3 := (end_block s2).1 in
  fees_of_txs s1 fx_txs8 = [(2%N, 300 * 20); (3%N, 60 * 20)] ∧
  b_feesum (bctx s2) = 7200 ∧ bal_of (work s3) 3%N = bal_of (work s2) 3%N + 7200 ∧
  bal_of (work s3) 2%N = bal_of (work s2) 2%N ∧ bal_of (work s3) 1%N = bal_of (work s2) 1%N.
Proof.
  intros s0 s1 s2 s3.
  destruct (C16_run_block_credit fx_genesis fx_ops fx_pre8 (fx_hdr 8 (Some 3%N)) fx_txs8 [SCommit]
              fx_genesis_ok fx_bracketed fx_hashes_fresh fx_txs_ok fx_bound eq_refl)
    as (_ & _ & Hsum & _ & _ & _ & _ & Hall & _).
  fold s0 s1 s2 s3 in Hsum, Hall.
  assert (Hfees : fees_of_txs s1 fx_txs8 = [(2%N, 300 * 20); (3%N, 60 * 20)]) by (vm_compute; reflexivity).
  rewrite Hfees in Hsum, Hall.
  assert (Hno : ∀ a, sumZ (payout_amount <$> owned_by a (payouts1 s2 SEnd)) = 0).
  { intros a. replace (payouts1 s2 SEnd) with (@nil (Z * stake)) by (vm_compute; reflexivity). reflexivity. }
  split; [exact Hfees|]. split; [exact Hsum|].
  rewrite (Hall 3%N), (Hall 2%N), (Hall 1%N), !Hno.
  change (h_proposer (fx_hdr 8 (Some 3%N))) with (Some 3%N).
  change (fee_total [(2%N, 300 * 20); (3%N, 60 * 20)]) with 7200.
  rewrite decide_True by reflexivity. rewrite !decide_False by discriminate. split; [lia|split; lia].
Qed.

(* the accepted transfer of block 8 through the theorem: gas limit 300 at the NEW price 20 *)
Example C16_run_example_transfer :
  let s0 := init_chain fx_genesis in
  let s := srun s0 (fx_pre8 ++ [SBegin (fx_hdr 8 (Some 3%N)); SDeliver fx_old; SDeliver fx_low]) in
  let s' := (deliver s fx_new).1 in
  (deliver s fx_new).2 = Ok 300 ∧ g_gasPrice (gparams s) = 20 ∧
  bal_of (work s') 2%N = bal_of (work s) 2%N - 300 * 20 - amountPerPower ∧
  bal_of (work s') 3%N = bal_of (work s) 3%N + amountPerPower.
Proof.
  intros s0 s s'.
  assert (E : fx_ops = (fx_pre8 ++ [SBegin (fx_hdr 8 (Some 3%N)); SDeliver fx_old; SDeliver fx_low])
                       ++ SDeliver fx_new :: [SDeliver fx_stake; SEnd; SCommit]) by reflexivity.
  assert (Hr : (deliver s fx_new).2 = Ok 300) by (vm_compute; reflexivity).
  assert (Hp : g_gasPrice (gparams s) = 20) by (vm_compute; reflexivity).
  assert (Ed : deliver s fx_new = (s', Ok 300)) by (unfold s'; rewrite <- Hr; destruct (deliver s fx_new); reflexivity).
  destruct (C16_run_sender_charge_types fx_genesis fx_ops _ fx_new _ s' 300
              fx_genesis_ok fx_bracketed fx_hashes_fresh fx_txs_ok fx_bound E Ed) as (H1 & _).
  destruct (H1 eq_refl ltac:(discriminate)) as [Ha Hc]. fold s0 s in Ha, Hc. rewrite Hp in Ha.
  split; [exact Hr|]. split; [exact Hp|]. split; [exact Ha|exact Hc].
Qed.

(* the account ledger of the whole run for account 2: two transfers out, one in, fees 1000 + 6000 as a
   sender, 3500 as the proposer of block 1 *)
Example C16_run_example_ledger :
  let s0 := init_chain fx_genesis in
  bal_of (work (srun s0 fx_ops)) 2%N =
    500 * amountPerPower + moved 2%N s0 fx_ops - charged_to 2%N (fees_flat s0 fx_ops) + 3500 + 0 ∧
  moved 2%N s0 fx_ops = - amountPerPower + 2 * amountPerPower - amountPerPower ∧
  charged_to 2%N (fees_flat s0 fx_ops) = 100 * 10 + 300 * 20 ∧
  credited_to 2%N (fees_of_block fx_genesis fx_ops) = 3500 ∧ unbond_gain 2%N s0 fx_ops = 0.
Proof.
  intros s0.
  assert (E1 : bal_of (work s0) 2%N = 500 * amountPerPower) by (vm_compute; reflexivity).
  assert (E2 : credited_to 2%N (fees_of_block fx_genesis fx_ops) = 3500) by (rewrite fx_fees_of_block; reflexivity).
  assert (E3 : unbond_gain 2%N s0 fx_ops = 0) by (vm_compute; reflexivity).
  split; [|split; [vm_compute; reflexivity|split; [vm_compute; reflexivity|split; assumption]]].
  pose proof (C16_run_account_ledger fx_genesis fx_ops 2%N fx_genesis_ok fx_bracketed fx_hashes_fresh fx_txs_ok fx_bound) as H.
  cbv zeta in H. fold s0 in H. rewrite H, E1, E2, E3. reflexivity.
Qed.

Example C16_run_example :
  let s0 := init_chain fx_genesis in
  (* the input hypotheses hold *)
  genesis_ok fx_genesis ∧ InvPanic.bracketed InvPanic.Idle 0 fx_ops ∧ hashes_fresh fx_ops ∧ txs_ok fx_ops ∧
  supply (work s0) + requested fx_ops < supply_bound ∧
  (* what happened: the old price and a gas limit below the new minimum are refused in block 8 *)
  results s0 fx_ops = [Ok 100; Ok 250; Ok 100; Ok 100; Err E_PRICE; Err E_GAS; Ok 300; Ok 60] ∧
  g_gasPrice (gparams s0) = 10 ∧ g_gasPrice (gparams (srun s0 fx_pre8)) = 20 ∧
  g_minTrxGas (gparams (srun s0 fx_pre8)) = 50 ∧
  (* 1: the blocks and their fees *)
  fees_of_block fx_genesis fx_ops =
    [ {| fb_height := 1; fb_proposer := Some 2%N; fb_fees := [(2%N, 100 * 10); (3%N, 250 * 10)] |};
      {| fb_height := 2; fb_proposer := None; fb_fees := [] |};
      {| fb_height := 3; fb_proposer := None; fb_fees := [(1%N, 100 * 10)] |};
      {| fb_height := 4; fb_proposer := Some 1%N; fb_fees := [(1%N, 100 * 10)] |};
      {| fb_height := 5; fb_proposer := Some 1%N; fb_fees := [] |};
      {| fb_height := 6; fb_proposer := Some 1%N; fb_fees := [] |};
      {| fb_height := 7; fb_proposer := Some 1%N; fb_fees := [] |};
      {| fb_height := 8; fb_proposer := Some 3%N; fb_fees := [(2%N, 300 * 20); (3%N, 60 * 20)] |} ] ∧
  (* 5: the credits, through the theorem: 3500 + 1000 + 7200 credited; the 1000 of block 3, which
     had no proposer, are paid to nobody *)
  credits s0 fx_ops = [(1, 2%N, 3500); (4, 1%N, 1000); (5, 1%N, 0); (6, 1%N, 0); (7, 1%N, 0); (8, 3%N, 7200)] ∧
  credit_total (credits s0 fx_ops) = fees_with_proposer (fees_of_block fx_genesis fx_ops) ∧
  fees_with_proposer (fees_of_block fx_genesis fx_ops) = 11700 ∧
  fees_without_proposer (fees_of_block fx_genesis fx_ops) = 1000 ∧
  fee_total (fees_flat s0 fx_ops) = 12700 ∧ open_fees s0 [] fx_ops = [].
Proof.
  intros s0.
  destruct (C16_run_total_fees fx_genesis fx_ops fx_genesis_ok fx_bracketed fx_hashes_fresh fx_txs_ok fx_bound)
    as (_ & Htot & Hflat & _). fold s0 in Htot, Hflat.
  (* after block 7 the document has been merged into the genesis parameters *)
  assert (Hp : gparams (srun s0 fx_pre8) = merge_params InvPanic.pr1 fx_doc) by (vm_compute; reflexivity).
  assert (Hopen : open_fees s0 [] fx_ops = []) by (vm_compute; reflexivity).
  split; [exact fx_genesis_ok|]. split; [exact fx_bracketed|]. split; [exact fx_hashes_fresh|].
  split; [exact fx_txs_ok|]. split; [exact fx_bound|].
  split; [vm_compute; reflexivity|]. split; [reflexivity|]. split; [rewrite Hp; reflexivity|].
  split; [rewrite Hp; reflexivity|]. split; [exact fx_fees_of_block|]. split; [vm_compute; reflexivity|].
  split; [exact Htot|]. rewrite Hflat, Htot, Hopen, fx_fees_of_block.
  split; [reflexivity|]. split; [reflexivity|]. split; reflexivity.
Qed.
Print Assumptions C16_run_example.
Print Assumptions C16_run_example_block.
Print Assumptions C16_run_example_transfer.
Print Assumptions C16_run_example_ledger.

(* a proposer without ledger entry is created by the credit: the branch "the proposer account does
   not exist" of [C16_run_block_credit], spelled out *)
Corollary C16_run_block_credit_new_proposer g ops pre hd txs post pa :
  genesis_ok g → InvPanic.bracketed InvPanic.Idle 0 ops → hashes_fresh ops → txs_ok ops →
  supply (work (init_chain g)) + requested ops < supply_bound →
  ops = pre ++ SBegin hd :: map SDeliver txs ++ SEnd :: post →
  let s1 := (begin_block (srun (init_chain g) pre) hd).1 in
  let s2 := srun s1 (map SDeliver txs) in
  let s3 := (end_block s2).1 in
  h_proposer hd = Some pa → accts (work s2) !! pa = None →
  bal_of (work s3) pa =
    fee_total (fees_of_txs s1 txs) + sumZ (payout_amount <$> owned_by pa (payouts1 s2 SEnd)).
Proof.
  intros Hg Hbr Hf Htx Hb E s1 s2 s3 Hpa Hnone.
  destruct (C16_run_block_credit g ops pre hd txs post Hg Hbr Hf Htx Hb E) as (_ & _ & _ & _ & _ & _ & _ & _ & H & _).
  cbv zeta in H. fold s1 s2 s3 in H. rewrite (H pa Hpa). unfold bal_of at 1, acct_of. rewrite Hnone. cbn. lia.
Qed.

(* ================================================================== why the list must be well bracketed *)
(* [srun] goes on after a BeginBlock that panicked (a live node halts there).  Such a BeginBlock
   leaves the state as it was, including the fee sum of the previous block in the block context, and
   the next EndBlock pays it to the proposer a second time: fees ARE created.  Every other input
   hypothesis holds on this list; only [bracketed] fails (the second header has height 5 after block 1). *)
Definition unbracketed_ops : list sop :=
  [SBegin (fx_hdr 1 (Some 2%N)); SDeliver fx_t1; SEnd; SCommit; SBegin (fx_hdr 5 (Some 2%N)); SEnd; SCommit].

Theorem C16_total_fees_needs_bracketed : ∃ g ops,
  genesis_ok g ∧ hashes_fresh ops ∧ txs_ok ops ∧
  supply (work (init_chain g)) + requested ops < supply_bound ∧
  ¬ InvPanic.bracketed InvPanic.Idle 0 ops ∧
  fees_flat (init_chain g) ops = [(2%N, 1000)] ∧
  credits (init_chain g) ops = [(1, 2%N, 1000); (1, 2%N, 1000)] ∧
  credit_total (credits (init_chain g) ops) ≠ fees_with_proposer (fees_of_block g ops).
Proof.
  exists fx_genesis, unbracketed_ops.
  split; [exact fx_genesis_ok|]. split.
  { unfold hashes_fresh. replace (stake_hashes unbracketed_ops) with (@nil hash) by reflexivity. apply NoDup_singleton. }
  split; [apply txs_okb_sound; vm_compute; reflexivity|].
  split; [vm_compute; reflexivity|]. split.
  { unfold unbracketed_ops. cbn [InvPanic.bracketed]. intros (_ & _ & _ & H & _). discriminate H. }
  split; [vm_compute; reflexivity|]. split; [vm_compute; reflexivity|]. vm_compute. discriminate.
Qed.
Print Assumptions C16_total_fees_needs_bracketed.
