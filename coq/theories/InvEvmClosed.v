(* The EVM-path theorems (C04, C16, C02) with the abstract contract about the observed effect
   replaced by the CHECKED boolean of EffectCheck.v.

   The harness evaluates [check_effects c] on every recorded history; [check_effects_sound] turns
   "the check returned []" into [effects_hold senders state0 (c_ops c)].  Here that fact is
   connected to the hypotheses under which the EVM-path theorems are stated:

   bridge                   [sops_of]: the harness's operation list ([aop], AppRun.v) after its AInit
                            is a [sop] list; [arun_srun], [effects_hold_sops], [effects_hold_split]
   C04_checked              no (sender, nonce) pair succeeds twice in a checked history.
                            [hist_ok] of InvNonce.v asks for the nonce contract on EVERY EVM-path
                            delivery, also the failing ones, which the check does not look at
                            ([C04_checked_hist_ok_refuted]); [hist_ok'] asks for it on the successful
                            ones only and [nonce_used_once'] is the history theorem under it
   C16_evm_cost_checked     gas used, fee sum and the exact loss of the touched accounts
   C02_checked              C02_history_evm with [covered] derived from the check and [run_ok]
                            discharged by InvReach.run_ok_reachable
   examples                 a one-block history with a contract creation on which the boolean check
                            evaluates to [] and the conclusions are instantiated *)
From Rigo Require Import Base.
From stdpp Require Import gmap sorting.
From Rigo Require Import Spec SpecProps SpecFacts AppRun InvFail InvNonce EffectCheck.
From Rigo Require InvFee InvSupply InvStake InvReach.
Local Open Scope Z_scope.

(* ================================================================== aop lists and sop lists *)
Definition sop_of (o : aop) : option sop :=
  match o with
  | AInit _ => None
  | ABegin h => Some (SBegin h)
  | ADeliver t => Some (SDeliver t)
  | AEnd => Some SEnd
  | ACommit => Some SCommit
  end.
Definition sops_of (ops : list aop) : list sop := omap sop_of ops.

Definition not_init (o : aop) : bool := match o with AInit _ => false | _ => true end.
Definition no_init (ops : list aop) : Prop := forallb not_init ops = true.

Lemma no_init_cons o r : no_init (o :: r) ↔ not_init o = true ∧ no_init r.
Proof. unfold no_init. cbn [forallb]. rewrite andb_true_iff. reflexivity. Qed.

Lemma sops_of_cons o r : sops_of (o :: r) = match sop_of o with Some x => x :: sops_of r | None => sops_of r end.
Proof. reflexivity. Qed.

Lemma astate_sstep s o : not_init o = true → ∃ x, sop_of o = Some x ∧ astate s o = sstep s x.
Proof. destruct o as [g|h|t| |]; intros H; [discriminate H|..]; eexists; split; reflexivity. Qed.

Lemma arun_srun_from rest : no_init rest → ∀ s, foldl astate s rest = srun s (sops_of rest).
Proof.
  induction rest as [|o rest IH]; intros Hn s; [reflexivity|].
  apply no_init_cons in Hn as [Ho Hn]. destruct (astate_sstep s o Ho) as (x & Hx & Hs).
  rewrite sops_of_cons, Hx. cbn [foldl]. rewrite Hs. unfold srun. cbn [foldl]. apply (IH Hn).
Qed.

(* the state the model reaches on a case = the run of the sop list from the genesis state *)
Theorem arun_srun g rest :
  no_init rest → foldl astate state0 (AInit g :: rest) = srun (init_chain g) (sops_of rest).
Proof. intros Hn. cbn [foldl astate]. apply arun_srun_from. exact Hn. Qed.

Definition eff_ok (senders : list addr) (s : state) (o : sop) : Prop :=
  match o with SDeliver t => effect_contract senders s t | _ => True end.

Lemma effects_hold_sops_from senders rest : no_init rest → ∀ s,
  effects_hold senders s rest → run_ok (eff_ok senders) s (sops_of rest).
Proof.
  induction rest as [|o rest IH]; intros Hn s H; [exact I|].
  apply no_init_cons in Hn as [Ho Hn]. cbn [effects_hold] in H. destruct H as [H1 H2].
  destruct (astate_sstep s o Ho) as (x & Hx & Hs).
  rewrite sops_of_cons, Hx. cbn [run_ok]. split.
  - destruct o as [g|h|t| |]; [discriminate Ho|..]; injection Hx as <-; first [exact I | exact H1].
  - rewrite <- Hs. apply (IH Hn). exact H2.
Qed.

Theorem effects_hold_sops senders g rest :
  no_init rest → effects_hold senders state0 (AInit g :: rest) →
  run_ok (eff_ok senders) (init_chain g) (sops_of rest).
Proof. intros Hn [_ H]. apply effects_hold_sops_from; [exact Hn|exact H]. Qed.

Lemma run_ok_split P s pre o post : run_ok P s (pre ++ o :: post) → P (srun s pre) o.
Proof. intros H. apply run_ok_app in H as [_ H]. cbn [run_ok] in H. apply H. Qed.

(* every delivery of a checked history obeys the contract in the state it starts from *)
Theorem effects_hold_split senders g rest :
  no_init rest → effects_hold senders state0 (AInit g :: rest) →
  ∀ pre t post, sops_of rest = pre ++ SDeliver t :: post →
                effect_contract senders (srun (init_chain g) pre) t.
Proof.
  intros Hn H pre t post E. pose proof (effects_hold_sops senders g rest Hn H) as Hr.
  rewrite E in Hr. apply (run_ok_split _ _ _ _ _ Hr).
Qed.

Lemma senders_of_sops rest i t : sops_of rest !! i = Some (SDeliver t) → t_from t ∈ senders_of rest.
Proof.
  revert i. induction rest as [|o rest IH]; intros i H; [discriminate H|].
  unfold senders_of. cbn [omap]. fold (senders_of rest). rewrite sops_of_cons in H.
  destruct o as [g|h|t'| |]; cbn [sop_of] in H.
  - apply (IH i H).
  - destruct i as [|i]; [discriminate H|]. apply (IH i H).
  - destruct i as [|i]; [injection H as ->; apply elem_of_list_here|].
    apply elem_of_list_further. apply (IH i H).
  - destruct i as [|i]; [discriminate H|]. apply (IH i H).
  - destruct i as [|i]; [discriminate H|]. apply (IH i H).
Qed.

Lemma senders_of_init g rest : senders_of (AInit g :: rest) = senders_of rest.
Proof. reflexivity. Qed.

Lemma is_ok_delivered s t : is_ok (deliver s t).2 = true ↔ delivered s t.
Proof.
  unfold delivered. destruct (deliver s t).2 as [g|e|p]; cbn; split.
  - intros _. exists g. reflexivity.
  - reflexivity.
  - discriminate.
  - intros [g H]. discriminate.
  - discriminate.
  - intros [g H]. discriminate.
Qed.

Lemma run_ok_impl2 (P Q R : state → sop → Prop) :
  (∀ s o, P s o → Q s o → R s o) → ∀ ops s, run_ok P s ops → run_ok Q s ops → run_ok R s ops.
Proof.
  intros HPQ. induction ops as [|o ops IH]; intros s HP HQ; [exact I|].
  destruct HP as [HP1 HP2]. destruct HQ as [HQ1 HQ2]. split; [apply HPQ; assumption|].
  apply IH; assumption.
Qed.

(* ================================================================== C04 on a checked history *)
(* no successful transaction of [a] carries the last nonce 2^64 - 1 (second clause of [hist_ok]) *)
Definition no_wrap (a : addr) (s : state) (o : sop) : Prop :=
  match o with
  | SDeliver t => t_from t = a → delivered s t → t_nonce t < two64 - 1
  | _ => True
  end.

(* [hist_ok] with the EVM nonce contract demanded of the SUCCESSFUL EVM-path deliveries only: a
   delivery that does not succeed changes no nonce whatever effect it carries
   (InvNonce.deliver_not_ok_nonce needs no hypothesis) *)
Definition hist_ok' (a : addr) (s : state) (o : sop) : Prop :=
  match o with
  | SDeliver t =>
      (evm_path s t = true → delivered s t → evm_effect_nonce_ok t ∧ evm_effect_mono_at a s t) ∧
      (t_from t = a → delivered s t → t_nonce t < two64 - 1)
  | _ => True
  end.

Lemma hist_ok_weaken a s o : hist_ok a s o → hist_ok' a s o.
Proof.
  destruct o as [hd|t| |]; try (intros _; exact I).
  intros [H1 H2]. split; [intros Hp _; apply H1; exact Hp|exact H2].
Qed.

Local Opaque two256 two255 two64 two63.

(* [nonce_used_once] under the weaker per-step hypothesis: [hist_ok'] is literally what the
   history argument of InvNonce.v asks of a step *)
Theorem nonce_used_once' s0 ops i j t1 t2 :
  run_ok (hist_ok' (t_from t1)) s0 ops →
  (i < j)%nat → ops !! i = Some (SDeliver t1) → ops !! j = Some (SDeliver t2) →
  delivered (srun s0 (take i ops)) t1 → delivered (srun s0 (take j ops)) t2 →
  t_from t2 = t_from t1 → t_nonce t2 = t_nonce t1 → False.
Proof.
  intros Hrun Hij Hi Hj Hd1 Hd2 Hfrom.
  exact (nonce_used_once_at (t_from t1) (hist_ok' (t_from t1)) (λ s t H, H) s0 ops i j t1 t2 Hrun Hij Hi Hj Hd1 Hd2 eq_refl Hfrom).
Qed.
Print Assumptions nonce_used_once'.

Lemma eff_ok_hist_ok' senders a s o : a ∈ senders → eff_ok senders s o → no_wrap a s o → hist_ok' a s o.
Proof.
  intros Ha. destruct o as [hd|t| |]; try (intros _ _; exact I).
  cbn [eff_ok no_wrap hist_ok']. intros Hc Hw. split; [|exact Hw].
  intros Hp Hd. apply is_ok_delivered in Hd. destruct (Hc Hp Hd) as (_ & Hn & Hm).
  split; [exact Hn|apply Hm; exact Ha].
Qed.

Theorem C04_checked_run_ok' g rest senders a :
  no_init rest → effects_hold senders state0 (AInit g :: rest) →
  a ∈ senders → run_ok (no_wrap a) (init_chain g) (sops_of rest) →
  run_ok (hist_ok' a) (init_chain g) (sops_of rest).
Proof.
  intros Hn He Ha Hw.
  apply (run_ok_impl2 (eff_ok senders) (no_wrap a)); [|apply effects_hold_sops; assumption|exact Hw].
  intros s o. apply eff_ok_hist_ok'. exact Ha.
Qed.

(* C04 on a checked history: the check passed ([effects_hold], from [check_effects c = []]), the
   sender is one the check watches, no successful transaction of that sender carries the last
   nonce: then no two deliveries with its address and the same nonce both succeed *)
Theorem C04_checked g rest senders i j t1 t2 :
  no_init rest → effects_hold senders state0 (AInit g :: rest) →
  t_from t1 ∈ senders →
  run_ok (no_wrap (t_from t1)) (init_chain g) (sops_of rest) →
  (i < j)%nat → sops_of rest !! i = Some (SDeliver t1) → sops_of rest !! j = Some (SDeliver t2) →
  delivered (srun (init_chain g) (take i (sops_of rest))) t1 →
  delivered (srun (init_chain g) (take j (sops_of rest))) t2 →
  t_from t2 = t_from t1 → t_nonce t2 = t_nonce t1 → False.
Proof.
  intros Hn He Ha Hw. apply nonce_used_once'. apply (C04_checked_run_ok' g rest senders); assumption.
Qed.
Print Assumptions C04_checked.

(* the same from the verdict of the check on a recorded case: the watched senders are all senders
   of the case, so nothing is asked about them *)
Theorem C04_checked_case c g rest i j t1 t2 :
  c_ops c = AInit g :: rest → no_init rest → check_effects c = [] →
  run_ok (no_wrap (t_from t1)) (init_chain g) (sops_of rest) →
  (i < j)%nat → sops_of rest !! i = Some (SDeliver t1) → sops_of rest !! j = Some (SDeliver t2) →
  delivered (srun (init_chain g) (take i (sops_of rest))) t1 →
  delivered (srun (init_chain g) (take j (sops_of rest))) t2 →
  t_from t2 = t_from t1 → t_nonce t2 = t_nonce t1 → False.
Proof.
  intros Hc Hn Hchk Hw Hij Hi. apply check_effects_sound in Hchk. rewrite Hc in Hchk.
  apply (C04_checked g rest (senders_of (AInit g :: rest)) i j t1 t2 Hn Hchk); [|exact Hw|exact Hij|exact Hi].
  rewrite senders_of_init. apply (senders_of_sops rest i t1 Hi).
Qed.
Print Assumptions C04_checked_case.

(* an input-only form of the no-wrap hypothesis *)
Definition nonce_below_last (a : addr) (o : sop) : Prop :=
  match o with SDeliver t => t_from t = a → t_nonce t < two64 - 1 | _ => True end.
Lemma no_wrap_inputs a ops : Forall (nonce_below_last a) ops → ∀ s, run_ok (no_wrap a) s ops.
Proof.
  induction 1 as [|o ops Ho _ IH]; intros s; [exact I|]. split; [|apply IH].
  destruct o as [hd|t| |]; try exact I. intros E _. apply Ho. exact E.
Qed.

(* ================================================================== C16 on a checked history *)
Lemma evm_path_of_eq s t : InvFee.evm_path_of t (acct_of (work s) (t_to t)) = evm_path s t.
Proof. unfold InvFee.evm_path_of. rewrite evm_path_spec. reflexivity. Qed.

Lemma native_evm_path s t : InvFee.native s t ↔ evm_path s t = false.
Proof. unfold InvFee.native. rewrite evm_path_of_eq. reflexivity. Qed.

Lemma not_native_evm_path s t : ¬ InvFee.native s t ↔ evm_path s t = true.
Proof. rewrite native_evm_path. destruct (evm_path s t); split; congruence. Qed.

Definition eff_addr (x : addr * Z * Z) : addr := x.1.1.

Lemma evm_fold_bal xs : ∀ l, NoDup (eff_addr <$> xs) →
  (∀ x, x ∈ xs → bal_of (foldl InvSupply.evm_write l xs) (eff_addr x) = x.1.2) ∧
  (∀ a, a ∉ eff_addr <$> xs → bal_of (foldl InvSupply.evm_write l xs) a = bal_of l a).
Proof.
  induction xs as [|[[a0 b0] n0] xs IH]; intros l Hnd.
  - split; [intros x Hx; inversion Hx|reflexivity].
  - rewrite fmap_cons in Hnd. apply NoDup_cons in Hnd as [Hnotin Hnd]. cbn [eff_addr fst snd] in Hnotin.
    cbn [foldl]. destruct (IH (InvSupply.evm_write l (a0, b0, n0)) Hnd) as [IH1 IH2]. split.
    + intros x Hx. apply elem_of_cons in Hx as [->|Hx]; [|apply IH1; exact Hx].
      cbn [eff_addr fst snd]. rewrite IH2 by exact Hnotin.
      unfold InvSupply.evm_write. rewrite bal_of_set_acct. rewrite decide_True by reflexivity. reflexivity.
    + intros a Ha. rewrite fmap_cons in Ha. apply not_elem_of_cons in Ha as [Hne Ha]. cbn [eff_addr fst snd] in Hne.
      rewrite IH2 by exact Ha. unfold InvSupply.evm_write. rewrite bal_of_set_acct.
      rewrite decide_False by congruence. reflexivity.
Qed.

Lemma deliver_evm_balances s t s' g e :
  deliver s t = (s', Ok g) → ¬ InvFee.native s t → t_evm t = Some e → NoDup (eff_addr <$> e_accts e) →
  (∀ x, x ∈ e_accts e → bal_of (work s') (eff_addr x) = x.1.2) ∧
  (∀ a, a ∉ eff_addr <$> e_accts e → bal_of (work s') a = bal_of (work s) a).
Proof.
  intros Hd Hn Hevm Hnd.
  apply InvFee.deliver_ok_inv in Hd as (sender & lim' & _ & _ & _ & _ & Hd). cbv zeta in Hd.
  rewrite InvFee.receiver_of_eq in Hd. unfold InvFee.native in Hn.
  destruct (InvFee.evm_path_of t (acct_of (work s) (t_to t))); [|contradiction Hn; reflexivity].
  destruct Hd as (l' & He & ->). cbn [work with_bctx with_work] in *.
  change (work (with_lim (InvFee.pre_state s t) lim')) with ((find_or_new (work s) (t_to t)).1) in He.
  unfold evm_execute in He. rewrite Hevm in He. destruct (e_ok e); [|discriminate]. cbn [negb] in He.
  set (l0 := (find_or_new (work s) (t_to t)).1) in *.
  change (foldl _ l0 (e_accts e)) with (foldl InvSupply.evm_write l0 (e_accts e)) in He.
  destruct (evm_fold_bal (e_accts e) l0 Hnd) as (H1 & H2).
  set (l1 := foldl InvSupply.evm_write l0 (e_accts e)) in *.
  assert (Hc : ∀ a, bal_of l' a = bal_of l1 a).
  { destruct (e_created e) as [c|]; injection He as <- _; intros a; [|reflexivity].
    rewrite bal_of_set_acct. destruct (decide (c = a)) as [->|_]; reflexivity. }
  split.
  - intros x Hx. rewrite Hc. apply H1. exact Hx.
  - intros a Ha. rewrite Hc, (H2 a Ha). unfold l0, bal_of. rewrite find_or_new_acct_of. reflexivity.
Qed.

(* C16 on the EVM path of a checked history.  A delivery of the history that takes the EVM path
   and succeeds with gas [gas]: gas used is within the limit, the fee sum grows by gas x price, and
   the touched accounts (listed once) lose in total exactly gas x price + burn with burn >= 0;
   no other balance moves *)
Theorem C16_evm_cost_checked g rest senders pre t post s s' gas :
  no_init rest → effects_hold senders state0 (AInit g :: rest) →
  sops_of rest = pre ++ SDeliver t :: post → s = srun (init_chain g) pre →
  deliver s t = (s', Ok gas) → ¬ InvFee.native s t →
  ∃ e burn,
    t_evm t = Some e ∧ e_ok e = true ∧ gas = e_gas e ∧ 0 ≤ gas ≤ t_gas t ∧
    b_feesum (bctx s') = add256 (b_feesum (bctx s)) (mul256 gas (g_gasPrice (gparams s))) ∧
    0 ≤ burn ∧ NoDup (eff_addr <$> e_accts e) ∧
    sumZ_with (λ a, bal_of (work s) a - bal_of (work s') a) (eff_addr <$> e_accts e)
      = gas * g_gasPrice (gparams s) + burn ∧
    (∀ a, a ∉ eff_addr <$> e_accts e → bal_of (work s') a = bal_of (work s) a).
Proof.
  intros Hn Heff Hsplit -> Hd Hnat.
  pose proof (effects_hold_split senders g rest Hn Heff pre t post Hsplit) as Hc.
  set (s := srun (init_chain g) pre) in *.
  assert (Hok : is_ok (deliver s t).2 = true) by (rewrite Hd; reflexivity).
  destruct (Hc (proj1 (not_native_evm_path s t) Hnat) Hok) as ((e & burn & He & Hfee) & _ & _).
  destruct (InvFee.deliver_evm_gas _ _ _ _ Hd Hnat) as (e' & He' & Heok & Hg & Hfs & Hrange).
  rewrite He in He'. injection He' as <-.
  pose proof (Hrange burn Hfee) as Hgr.
  destruct Hfee as (Hnd & _ & _ & Hburn & Hsum).
  change (NoDup (eff_addr <$> e_accts e)) in Hnd.
  destruct (deliver_evm_balances _ _ _ _ _ Hd Hnat He Hnd) as (Hb1 & Hb2).
  exists e, burn. split; [exact He|]. split; [exact Heok|]. split; [exact Hg|]. split; [exact Hgr|].
  split; [rewrite Hg; exact Hfs|]. split; [exact Hburn|]. split; [exact Hnd|]. split; [|exact Hb2].
  rewrite InvSupply.sumZ_with_fmap.
  rewrite (sumZ_with_ext _ (λ x : addr * Z * Z, (-1) * (x.1.2 - bal_of (work s) x.1.1))).
  - rewrite InvSupply.sumZ_with_scale, Hsum, Hg. lia.
  - intros x Hx. rewrite (Hb1 x Hx). unfold eff_addr. lia.
Qed.
Print Assumptions C16_evm_cost_checked.

(* ================================================================== C02 on a checked history *)
(* delivered transactions carry Go-typed fields (the [tx_wf] / [payload_wf] part of [covered]);
   unlike [txs_ok] nothing is asked about [t_evm] *)
Definition tx_typed (o : sop) : Prop :=
  match o with SDeliver t => tx_wf t ∧ InvFee.payload_wf t | _ => True end.
Definition txs_typed (ops : list sop) : Prop := Forall tx_typed ops.

(* the burn the boolean contract finds is the one the history theorem accounts *)
Lemma checked_burn s t e burn :
  evm_path s t = true → t_evm t = Some e →
  InvFee.evm_effect_fee_ok (work s) t (g_gasPrice (gparams s)) e burn → burn = InvSupply.evm_burn s t.
Proof.
  intros Hp He (_ & _ & _ & _ & Hsum). unfold InvSupply.evm_burn. rewrite evm_path_of_eq, Hp, He. lia.
Qed.

Lemma checked_covered senders s t :
  tx_wf t → InvFee.payload_wf t → effect_contract senders s t → delivered s t → InvSupply.deliver_covered s t.
Proof.
  intros Hwf Hpl Hc Hd. split; [exact Hwf|]. split; [exact Hpl|].
  destruct (evm_path s t) eqn:Hp.
  - right. right. apply is_ok_delivered in Hd. destruct (Hc Hp Hd) as ((e & burn & He & Hfee) & _ & _).
    exists e. split; [exact He|]. rewrite <- (checked_burn s t e burn Hp He Hfee). exact Hfee.
  - left. apply native_evm_path. exact Hp.
Qed.

Lemma checked_covered_ok senders ops : ∀ s,
  txs_typed ops → run_ok (eff_ok senders) s ops → InvSupply.covered_ok s ops.
Proof.
  induction ops as [|o ops IH]; intros s Htx Hc; [exact I|].
  apply Forall_cons in Htx as [Ho Htx]. destruct Hc as [Hc Hcs]. split; [|apply IH; assumption].
  destruct o as [hd|t| |]; try exact I. destruct Ho as [Hwf Hpl].
  split; [exact Hwf|]. split; [exact Hpl|]. intros g Hg.
  apply (checked_covered senders); try assumption. exists g. exact Hg.
Qed.

(* C02_history_evm with [covered] replaced by: the check passed on this history, and the delivered
   transactions carry Go-typed fields.  [run_ok] at the prefixes is kept here; [C02_checked] below
   discharges it. *)
Theorem C02_checked_run g rest senders s p gh :
  no_init rest → effects_hold senders state0 (AInit g :: rest) →
  InvSupply.hrunE (init_chain g, InvSupply.PIdle, InvSupply.ghost0) (sops_of rest) = Some (s, p, gh) →
  (∀ pre, pre `prefix_of` sops_of rest → InvSupply.run_ok (srun (init_chain g) pre)) →
  txs_typed (sops_of rest) →
  InvFee.bal_range (work (init_chain g)) →
  supply (work (init_chain g)) + InvSupply.gh_withdrawn gh < InvSupply.supply_bound →
  s = srun (init_chain g) (sops_of rest) ∧
  InvSupply.C02_equation g s p gh ∧
  InvFee.bal_range (work s) ∧
  (∀ a, 0 ≤ bal_of (work s) a < InvSupply.supply_bound) ∧
  0 ≤ InvSupply.gh_withdrawn gh ∧ 0 ≤ InvSupply.gh_slashed gh ∧ 0 ≤ InvSupply.gh_burned gh.
Proof.
  intros Hn Heff Hrun Hok Htx Hr0 Hbound.
  apply InvSupply.C02_history_evm_ok; try assumption.
  apply (checked_covered_ok senders); [exact Htx|]. apply effects_hold_sops; assumption.
Qed.
Print Assumptions C02_checked_run.

(* ... and with the hypothesis about the run discharged (InvReach.run_ok_reachable needs nothing of
   [t_evm]): every remaining hypothesis is about the inputs -- the genesis document, the staking
   hashes, the parameter documents, Go-typed transaction fields -- plus the verdict of the check and
   the bound on the total ever minted *)
Theorem C02_checked g rest senders s p gh :
  no_init rest → effects_hold senders state0 (AInit g :: rest) →
  InvSupply.hrunE (init_chain g, InvSupply.PIdle, InvSupply.ghost0) (sops_of rest) = Some (s, p, gh) →
  InvReach.genesis_ok g → InvReach.hashes_fresh (sops_of rest) → InvReach.opts_ok (sops_of rest) →
  txs_typed (sops_of rest) →
  supply (work (init_chain g)) + InvSupply.gh_withdrawn gh < InvSupply.supply_bound →
  s = srun (init_chain g) (sops_of rest) ∧
  InvSupply.C02_equation g s p gh ∧
  InvFee.bal_range (work s) ∧
  (∀ a, 0 ≤ bal_of (work s) a < InvSupply.supply_bound) ∧
  0 ≤ InvSupply.gh_withdrawn gh ∧ 0 ≤ InvSupply.gh_slashed gh ∧ 0 ≤ InvSupply.gh_burned gh.
Proof.
  intros Hn Heff Hrun Hg Hh Ho Htx Hbound.
  apply (C02_checked_run g rest senders s p gh Hn Heff Hrun); [|exact Htx| |exact Hbound].
  - apply InvReach.run_ok_reachable; [exact Hg| |exact Ho]. apply InvReach.fresh_run_reachable. exact Hh.
  - apply InvReach.init_chain_bal_range. apply Hg.
Qed.
Print Assumptions C02_checked.

(* ================================================================== examples: the hypotheses are satisfiable *)
(* a recorded case of one block: a contract creation (InvNonce.tx_evm: 60000 gas at price 10, the
   sender's nonce 0 -> 1, contract account 99 created), the same transaction replayed, EndBlock, Commit *)
Definition ex_hd1 : header := {| h_height := 1; h_proposer := Some 1%N; h_votes := []; h_evidence := [] |}.
Definition ex_rest : list aop := [ABegin ex_hd1; ADeliver tx_evm; ADeliver tx_evm; AEnd; ACommit].
Definition ex_case : acase := {| c_wa := []; c_wh := []; c_ops := AInit gen0 :: ex_rest; c_obs := [] |}.
Definition ex_s1 : state := srun (init_chain gen0) [SBegin ex_hd1].

Lemma ex_check : check_effects ex_case = [].
Proof. vm_compute. reflexivity. Qed.

(* the check does look at an effect in this case: one successful EVM-path delivery *)
Lemma ex_count : count_effects [ex_case] = 1.
Proof. vm_compute. reflexivity. Qed.

Lemma ex_effects_hold : effects_hold (senders_of (AInit gen0 :: ex_rest)) state0 (AInit gen0 :: ex_rest).
Proof. apply (check_effects_sound ex_case). exact ex_check. Qed.

Lemma ex_no_init : no_init ex_rest.
Proof. reflexivity. Qed.

Lemma ex_sops : sops_of ex_rest = [SBegin ex_hd1; SDeliver tx_evm; SDeliver tx_evm; SEnd; SCommit].
Proof. reflexivity. Qed.

Lemma ex_evm_path : evm_path ex_s1 tx_evm = true.
Proof. reflexivity. Qed.

(* C04: the first delivery succeeds, hence (by the theorem) the replay does not *)
Example C04_checked_example :
  check_effects ex_case = [] ∧
  evm_path (srun (init_chain gen0) (take 1 (sops_of ex_rest))) tx_evm = true ∧
  delivered (srun (init_chain gen0) (take 1 (sops_of ex_rest))) tx_evm ∧
  ¬ delivered (srun (init_chain gen0) (take 2 (sops_of ex_rest))) tx_evm.
Proof.
  split; [exact ex_check|]. split; [reflexivity|].
  assert (Hd1 : delivered (srun (init_chain gen0) (take 1 (sops_of ex_rest))) tx_evm).
  { exists 60000. vm_compute. reflexivity. }
  split; [exact Hd1|]. intros Hd2.
  apply (C04_checked_case ex_case gen0 ex_rest 1 2 tx_evm tx_evm eq_refl ex_no_init ex_check); try reflexivity;
    try assumption; [|lia].
  apply no_wrap_inputs. rewrite ex_sops.
  repeat (apply Forall_cons; split; [first [exact I | intros _; vm_compute; reflexivity]|]). apply Forall_nil. exact I.
Qed.

(* C16: the conclusion of the theorem for the contract creation *)
Example C16_evm_cost_checked_example :
  check_effects ex_case = [] ∧
  ∃ s' e burn,
    deliver ex_s1 tx_evm = (s', Ok 60000) ∧ ¬ InvFee.native ex_s1 tx_evm ∧
    t_evm tx_evm = Some e ∧ 0 ≤ 60000 ≤ t_gas tx_evm ∧
    b_feesum (bctx s') = add256 (b_feesum (bctx ex_s1)) (mul256 60000 (g_gasPrice (gparams ex_s1))) ∧
    0 ≤ burn ∧
    sumZ_with (λ a, bal_of (work ex_s1) a - bal_of (work s') a) (eff_addr <$> e_accts e)
      = 60000 * g_gasPrice (gparams ex_s1) + burn.
Proof.
  split; [exact ex_check|].
  assert (Hr : (deliver ex_s1 tx_evm).2 = Ok 60000) by (vm_compute; reflexivity).
  destruct (deliver ex_s1 tx_evm) as [s' r] eqn:Ed. cbn [snd] in Hr. subst r.
  assert (Hnat : ¬ InvFee.native ex_s1 tx_evm) by (apply not_native_evm_path; exact ex_evm_path).
  destruct (C16_evm_cost_checked gen0 ex_rest _ [SBegin ex_hd1] tx_evm [SDeliver tx_evm; SEnd; SCommit] ex_s1 s' 60000
              ex_no_init ex_effects_hold eq_refl eq_refl Ed Hnat)
    as (e & burn & He & _ & _ & Hg & Hfs & Hb & _ & Hsum & _).
  exists s', e, burn. auto 10.
Qed.

(* C02: the list is a history, it ends idle with nothing withdrawn, slashed or burnt, and the
   theorem gives: the supply after the block is the genesis supply *)
Lemma ex_genesis_ok : InvReach.genesis_ok gen0.
Proof.
  split; [exact pr0_ok|]. split; [cbn; lia|].
  split; repeat (apply Forall_cons; split; [InvFee.zclosed|]); apply Forall_nil; exact I.
Qed.

Lemma ex_tx_wf : tx_wf tx_evm.
Proof. InvFee.zclosed. Qed.

Example C02_checked_example :
  check_effects ex_case = [] ∧
  ∃ s, InvSupply.hrunE (init_chain gen0, InvSupply.PIdle, InvSupply.ghost0) (sops_of ex_rest)
         = Some (s, InvSupply.PIdle, InvSupply.ghost0) ∧
       s = srun (init_chain gen0) (sops_of ex_rest) ∧
       supply (work s) = supply (work (init_chain gen0)) ∧
       (∀ a, 0 ≤ bal_of (work s) a < InvSupply.supply_bound).
Proof.
  split; [exact ex_check|].
  assert (E : InvSupply.hrunE (init_chain gen0, InvSupply.PIdle, InvSupply.ghost0) (sops_of ex_rest)
              = Some (srun (init_chain gen0) (sops_of ex_rest), InvSupply.PIdle, InvSupply.ghost0))
    by (apply InvSupply.hrunE_eval; vm_compute; reflexivity).
  exists (srun (init_chain gen0) (sops_of ex_rest)). split; [exact E|].
  destruct (C02_checked gen0 ex_rest _ _ InvSupply.PIdle InvSupply.ghost0 ex_no_init ex_effects_hold E ex_genesis_ok)
    as (Hs & Heq & _ & Hbal & _).
  - rewrite ex_sops. unfold InvReach.hashes_fresh. cbn. apply NoDup_singleton.
  - rewrite ex_sops.
    repeat (apply Forall_cons; split; [first [exact I | intros Hty; discriminate Hty]|]). apply Forall_nil. exact I.
  - rewrite ex_sops.
    repeat (apply Forall_cons; split;
            [first [exact I | split; [exact ex_tx_wf|intros req Hty; discriminate Hty]]|]).
    apply Forall_nil. exact I.
  - vm_compute. reflexivity.
  - split; [exact Hs|]. split; [|exact Hbal].
    unfold InvSupply.C02_equation in Heq.
    cbn [InvSupply.pending InvSupply.ghost0 InvSupply.gh_withdrawn InvSupply.gh_slashed InvSupply.gh_burned] in Heq. lia.
Qed.

(* ================================================================== [run_ok (hist_ok a)] does not follow from the check *)
(* [hist_ok] asks for the nonce contract of every EVM-path delivery, the check (rightly) looks at
   the successful ones only.  A contract transaction with a stale nonce fails at validation and
   changes nothing, whatever effect record it carries; here the record says "sender's nonce := 1"
   for a transaction of nonce 5. *)
Definition tx_evm_stale : tx := {|
  t_type := TRX_CONTRACT; t_from := 2%N; t_to := 0%N; t_from_ok := true; t_to_ok := true; t_amount := 0;
  t_price := 10; t_gas := 100000; t_nonce := 5; t_payload := PContract 53000; t_hash := 79%N; t_sigok := true;
  t_evm := Some {| e_ok := true; e_gas := 60000; e_created := Some 99%N;
                   e_accts := [(2%N, 500 * amountPerPower - 600000, 1); (99%N, 0, 1)] |} |}.

Theorem C04_checked_hist_ok_refuted : ∃ g rest senders t1,
  no_init rest ∧ effects_hold senders state0 (AInit g :: rest) ∧ t_from t1 ∈ senders ∧
  run_ok (no_wrap (t_from t1)) (init_chain g) (sops_of rest) ∧
  ¬ run_ok (hist_ok (t_from t1)) (init_chain g) (sops_of rest).
Proof.
  exists gen0, [ABegin ex_hd1; ADeliver tx_evm_stale], [2%N], tx_evm_stale.
  split; [reflexivity|]. split.
  { apply (check_effects_from_sound [2%N] _ state0 0%nat). vm_compute. reflexivity. }
  split; [apply elem_of_list_here|]. split.
  { apply no_wrap_inputs. repeat (apply Forall_cons; split; [first [exact I | intros _; vm_compute; reflexivity]|]).
    apply Forall_nil. exact I. }
  intros [_ [[H _] _]]. destruct (H eq_refl) as [Hn _].
  specialize (Hn _ eq_refl). vm_compute in Hn. discriminate Hn.
Qed.
Print Assumptions C04_checked_hist_ok_refuted.

Print Assumptions C04_checked_example.
Print Assumptions C16_evm_cost_checked_example.
Print Assumptions C02_checked_example.
