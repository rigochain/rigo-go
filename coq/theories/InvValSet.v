(* InvValSet.v — property C10 of Spec.v: the validator updates returned by EndBlock.

   The pure validator-set theory (selection, the update diff, Tendermint's application of updates)
   is in Sorting.v / ValSet.v over value snapshots [ValSet.dg]; this file connects it to the
   executable application model:
     V1  Spec.val_updates = ValSet.updates, hence the per-block well-formedness of the updates;
     V2  Spec.sort_power is THE power-order listing; the selection made by begin_block/end_block;
     V3  histories: folding the updates of a run of blocks.  *)
From Rigo Require Import Base.
From stdpp Require Import gmap sorting.
From Rigo Require Import Spec SpecProps SpecFacts.
From Rigo Require Sorting ValSet InvFail InvStake.
Local Open Scope Z_scope.
Local Opaque two256 two255 two64 two63.

Lemma foldl_fold_left {A B} (f : A → B → A) (l : list B) (a : A) : foldl f a l = fold_left f l a.
Proof. revert a; induction l as [|x l IH]; intros a; simpl; [reflexivity | apply IH]. Qed.

Lemma filter_map_comm {A B} (f : A → B) (p : B → bool) l :
  List.filter p (map f l) = map f (List.filter (λ x, p (f x)) l).
Proof. induction l as [|x l IH]; simpl; [reflexivity|]. destruct (p (f x)); simpl; rewrite IH; reflexivity. Qed.

Lemma elem_of_List_filter {A} (p : A → bool) l x : x ∈ List.filter p l ↔ x ∈ l ∧ p x = true.
Proof. rewrite !elem_of_list_In. apply filter_In. Qed.

(* ================================================================== 1. (V1) val_updates is ValSet.updates *)
(* an announced validator (address, power) as a value snapshot: only the address and the total
   power are looked at by [ValSet.updates] *)
Definition to_dg (x : addr * Z) : ValSet.dg := ValSet.mk_dg x.1 0 x.2 0.

Lemma vals_to_dg l : ValSet.vals (map to_dg l) = l.
Proof. unfold ValSet.vals. induction l as [|[a p] l IH]; simpl; [reflexivity | rewrite IH; reflexivity]. Qed.

Lemma addrs_to_dg l : map ValSet.d_addr (map to_dg l) = l.*1.
Proof. rewrite map_map. reflexivity. Qed.

Lemma removals_to_dg l : ValSet.removals (map to_dg l) = map (λ x : addr * Z, (x.1, 0)) l.
Proof. unfold ValSet.removals. rewrite map_map. reflexivity. Qed.

(* the fuel of end_block (one more than the two lengths) is enough; no sortedness is needed for
   the two functions to agree *)
Theorem val_updates_bridge fuel : ∀ old new,
  (length old + length new < fuel)%nat →
  val_updates fuel old new = ValSet.updates (map to_dg old) (map to_dg new).
Proof.
  induction fuel as [|f IH]; intros old new Hf; [lia|].
  destruct old as [|[a p] o'].
  { simpl. rewrite ValSet.updates_nil_l, vals_to_dg. reflexivity. }
  destruct new as [|[b q] n'].
  { cbn [val_updates]. rewrite ValSet.updates_nil_r, removals_to_dg. reflexivity. }
  cbn [val_updates map]. rewrite ValSet.updates_cons. cbn [to_dg ValSet.d_addr ValSet.d_total fst snd].
  simpl in Hf.
  destruct (N.compare_spec a b) as [E|L|G].
  - subst b. rewrite N.ltb_irrefl, N.eqb_refl.
    rewrite (IH o' n') by lia. destruct (p =? q); reflexivity.
  - rewrite (proj2 (N.ltb_lt a b) L). rewrite (IH o' ((b, q) :: n')) by (simpl; lia). reflexivity.
  - assert (H1 : (a <? b)%N = false) by (apply N.ltb_ge; lia).
    assert (H2 : (a =? b)%N = false) by (apply N.eqb_neq; lia).
    rewrite H1, H2. rewrite (IH ((a, p) :: o') n') by (simpl; lia). reflexivity.
Qed.

(* ------------------------------------------------------------------ sort_addr *)
Global Instance key_le_total {A} : Total (@key_le A).
Proof. intros x y. unfold key_le. lia. Qed.
Global Instance key_le_trans {A} : Transitive (@key_le A).
Proof. intros x y z. unfold key_le. lia. Qed.

Lemma sort_addr_perm l : sort_addr l ≡ₚ l.
Proof. apply merge_sort_Permutation. Qed.

Lemma sort_addr_length l : length (sort_addr l) = length l.
Proof. apply Permutation_length, sort_addr_perm. Qed.

Lemma key_sorted_strict {A} (k : list (N * A)) :
  StronglySorted key_le k → NoDup k.*1 → StronglySorted N.lt k.*1.
Proof.
  induction 1 as [|x k Hs IH Hf]; intros Hnd; [constructor|].
  rewrite fmap_cons in Hnd |- *.
  apply NoDup_cons in Hnd as [Hx Hnd]. constructor; [apply IH, Hnd|].
  rewrite Forall_forall in Hf. rewrite Forall_forall. intros a Ha.
  apply elem_of_list_fmap in Ha as (y & -> & Hy).
  pose proof (Hf y Hy) as Hle. unfold key_le in Hle.
  assert (x.1 ≠ y.1) by (intros E; apply Hx; rewrite E; apply elem_of_list_fmap; eauto). lia.
Qed.

Lemma sorted_items_strict {A} (m : gmap N A) : StronglySorted N.lt (sorted_items m).*1.
Proof.
  apply key_sorted_strict.
  - apply StronglySorted_merge_sort; apply _.
  - apply NoDup_keys_sorted_items.
Qed.

Theorem sort_addr_sorted l : NoDup l.*1 → ValSet.addr_sorted (map to_dg (sort_addr l)).
Proof.
  intros Hnd. unfold ValSet.addr_sorted. rewrite addrs_to_dg. apply key_sorted_strict.
  - apply StronglySorted_merge_sort; apply _.
  - rewrite sort_addr_perm. exact Hnd.
Qed.

Lemma to_dg_total (Q : Z → Prop) l :
  (∀ a p, (a, p) ∈ l → Q p) → ∀ d, In d (map to_dg (sort_addr l)) → Q (ValSet.d_total d).
Proof.
  intros HQ d Hd. apply in_map_iff in Hd as ([a p] & <- & Hx). simpl.
  apply (HQ a). rewrite <- sort_addr_perm. apply elem_of_list_In, Hx.
Qed.

(* ------------------------------------------------------------------ the per-call theorem *)
Section Updates.
  Variables old new : list (addr * Z).
  Variable fuel : nat.
  Hypothesis Hold : NoDup old.*1.
  Hypothesis Hnew : NoDup new.*1.
  Hypothesis Hfuel : (length old + length new < fuel)%nat.
  Let ups := val_updates fuel (sort_addr old) (sort_addr new).

  Lemma ups_bridge : ups = ValSet.updates (map to_dg (sort_addr old)) (map to_dg (sort_addr new)).
  Proof. apply val_updates_bridge. rewrite !sort_addr_length. exact Hfuel. Qed.

  Theorem val_updates_nodup : NoDup ups.*1.
  Proof.
    rewrite ups_bridge. apply NoDup_ListNoDup. apply ValSet.updates_nodup; apply sort_addr_sorted; assumption.
  Qed.

  Theorem val_updates_removals : (∀ a p, (a, p) ∈ new → 0 < p) → ∀ a, (a, 0) ∈ ups → a ∈ old.*1.
  Proof.
    intros Hpos a Ha. rewrite ups_bridge in Ha. apply elem_of_list_In in Ha.
    apply ValSet.updates_removals_in_old in Ha; [|apply (to_dg_total (λ p, 0 < p)), Hpos].
    rewrite addrs_to_dg in Ha. rewrite <- sort_addr_perm. apply elem_of_list_In, Ha.
  Qed.

  Theorem val_updates_nonneg : (∀ a p, (a, p) ∈ new → 0 ≤ p) → ∀ a p, (a, p) ∈ ups → 0 ≤ p.
  Proof.
    intros Hpos a p Ha. rewrite ups_bridge in Ha. apply elem_of_list_In in Ha.
    eapply ValSet.updates_nonneg; [apply (to_dg_total (λ p, 0 ≤ p)), Hpos | exact Ha].
  Qed.

  Theorem val_updates_apply : (∀ a p, (a, p) ∈ new → p ≠ 0) →
    ValSet.apply_updates (sort_addr old) ups = sort_addr new.
  Proof.
    intros Hnz. rewrite ups_bridge.
    rewrite <- (vals_to_dg (sort_addr old)) at 1. rewrite <- (vals_to_dg (sort_addr new)) at 2.
    apply ValSet.updates_apply; [apply sort_addr_sorted, Hold | apply sort_addr_sorted, Hnew |].
    exact (to_dg_total (λ p, p ≠ 0) new Hnz).
  Qed.

  (* all of it: Tendermint's own checks accept the list and the result is the new set *)
  Theorem val_updates_wellformed : (∀ a p, (a, p) ∈ new → 0 < p) →
    ValSet.tm_apply_updates (sort_addr old) ups = Some (sort_addr new).
  Proof.
    intros Hpos. rewrite ups_bridge.
    rewrite <- (vals_to_dg (sort_addr old)) at 1. rewrite <- (vals_to_dg (sort_addr new)) at 2.
    apply ValSet.updates_wellformed; [apply sort_addr_sorted, Hold | apply sort_addr_sorted, Hnew |].
    apply (to_dg_total (λ p, 0 < p)), Hpos.
  Qed.
End Updates.
Print Assumptions val_updates_bridge.
Print Assumptions val_updates_wellformed.

(* ================================================================== 2. (V2) the power order and the selection *)
Definition dg_of (d : delegatee) : ValSet.dg :=
  ValSet.mk_dg (d_addr d) (d_self d) (d_total d) (length (d_stakes d)).

Lemma power_less_dg a b : power_less a b = ValSet.power_lt (dg_of a) (dg_of b).
Proof.
  unfold power_less, ValSet.power_lt. cbn [dg_of ValSet.d_total ValSet.d_nstakes ValSet.d_addr].
  destruct (d_total a =? d_total b); cbn [negb]; [|reflexivity].
  destruct (Nat.eqb (length (d_stakes a)) (length (d_stakes b))); reflexivity.
Qed.

(* PowerOrderDelegatees.Less is a strict order, total on delegatees with distinct addresses *)
Lemma power_less_irrefl a : power_less a a = false.
Proof. rewrite power_less_dg. apply ValSet.power_lt_irrefl. Qed.
Lemma power_less_trans a b c : power_less a b = true → power_less b c = true → power_less a c = true.
Proof. rewrite !power_less_dg. apply ValSet.power_lt_trans. Qed.
Lemma power_less_total a b : d_addr a ≠ d_addr b → power_less a b = true ∨ power_less b a = true.
Proof. rewrite !power_less_dg. intros H. apply ValSet.power_lt_total. exact H. Qed.
Lemma power_less_asym a b : power_less a b = true → power_less b a = false.
Proof. apply Rigo.Sorting.lt_asym; [apply power_less_irrefl | apply power_less_trans]. Qed.

Global Instance power_leP_total : Total power_leP.
Proof.
  intros x y. unfold power_leP, power_le. destruct (power_less y x) eqn:E; [|left; exact I].
  right. rewrite (power_less_asym _ _ E). exact I.
Qed.

Notation power_ltP := (λ a b : delegatee, power_less a b = true).
Notation go_sorted_power := (Rigo.Sorting.go_sorted delegatee power_less).

Definition distinct_addrs (l : list delegatee) : Prop := NoDup (d_addr <$> l).

Lemma distinct_addrs_NoDup l : distinct_addrs l → List.NoDup l.
Proof. intros H. apply NoDup_ListNoDup. eapply NoDup_fmap_1. exact H. Qed.

Lemma distinct_addrs_total l : distinct_addrs l → Rigo.Sorting.total_on delegatee power_less l.
Proof.
  intros Hd a b Ha Hb Hne. apply power_less_total. intros E. apply Hne.
  apply elem_of_list_In in Ha, Hb. exact (InvStake.NoDup_fmap_inj d_addr l a b Hd Ha Hb E).
Qed.

Lemma sort_power_perm l : sort_power l ≡ₚ l.
Proof. apply merge_sort_Permutation. Qed.

Lemma power_leP_ge a b : power_leP a b → Rigo.Sorting.geP delegatee power_less a b.
Proof.
  unfold power_leP, power_le, Rigo.Sorting.geP. destruct (power_less b a); [intros [] | reflexivity].
Qed.

(* what sort.IsSorted checks holds of the model's merge sort ... *)
Lemma sort_power_go_sorted l : go_sorted_power (sort_power l).
Proof.
  unfold Rigo.Sorting.go_sorted. rewrite <- (list_fmap_id (sort_power l)).
  apply (Sorted_fmap id power_leP); [exact power_leP_ge | apply Sorted_merge_sort, _].
Qed.

(* ... and on distinct addresses there is only one such listing: any correct sort (Go's unstable
   sort.Sort, the insertion sort of ValSet.v, the merge sort of Spec.v) returns the same list *)
Theorem sort_power_unique l l' :
  distinct_addrs l → l' ≡ₚ l → go_sorted_power l' → l' = sort_power l.
Proof.
  intros Hd Hp Hs.
  pose proof (Rigo.Sorting.sort_unique delegatee power_less power_less_irrefl power_less_trans) as U.
  rewrite (U l l' (distinct_addrs_NoDup l Hd) (distinct_addrs_total l Hd) Hp Hs).
  symmetry. apply U; [apply distinct_addrs_NoDup, Hd | apply distinct_addrs_total, Hd | apply sort_power_perm | apply sort_power_go_sorted].
Qed.

Lemma distinct_addrs_perm l l' : l ≡ₚ l' → distinct_addrs l → distinct_addrs l'.
Proof. unfold distinct_addrs. intros Hp. rewrite Hp. auto. Qed.

Theorem sort_power_sorted l : distinct_addrs l → StronglySorted power_ltP (sort_power l).
Proof.
  intros Hd.
  apply (Rigo.Sorting.go_sorted_strong delegatee power_less power_less_trans).
  - apply distinct_addrs_NoDup. eapply distinct_addrs_perm; [symmetry; apply sort_power_perm | exact Hd].
  - apply distinct_addrs_total. eapply distinct_addrs_perm; [symmetry; apply sort_power_perm | exact Hd].
  - apply sort_power_go_sorted.
Qed.

Lemma dg_addrs l : map ValSet.d_addr (map dg_of l) = d_addr <$> l.
Proof. rewrite map_map. reflexivity. Qed.

Lemma distinct_dg l : distinct_addrs l → ValSet.distinct (map dg_of l).
Proof. intros H. unfold ValSet.distinct. rewrite dg_addrs. apply NoDup_ListNoDup, H. Qed.

Theorem sort_power_dg l : distinct_addrs l → map dg_of (sort_power l) = ValSet.sort_power (map dg_of l).
Proof.
  intros Hd. apply ValSet.select_unique.
  - apply distinct_dg, Hd.
  - apply Permutation_map, sort_power_perm.
  - apply (Sorted_fmap dg_of power_leP); [|apply Sorted_merge_sort, _].
    intros a b H. unfold Rigo.Sorting.geP. rewrite <- power_less_dg. exact (power_leP_ge a b H).
Qed.

(* ------------------------------------------------------------------ what begin_block / end_block select *)
Definition dels_key_ok (l : ledgers) : Prop := ∀ a d, dels l !! a = Some d → d_addr d = a.
Definition totals_ok (l : ledgers) : Prop := ∀ a d, dels l !! a = Some d → 0 ≤ d_self d ≤ d_total d.

(* the delegatees of a ledger state in key order: what iterating the committed tree delivers *)
Definition committed_dels (l : ledgers) : list delegatee := snd <$> sorted_items (dels l).
Definition eligible (g : params) (l : ledgers) : list delegatee :=
  List.filter (λ d, min_power g <=? d_self d) (committed_dels l).
Definition ranked (g : params) (l : ledgers) : list delegatee := sort_power (eligible g l).
Definition selection (g : params) (l : ledgers) : list delegatee :=
  take (Z.to_nat (g_maxValidatorCnt g)) (ranked g l).
Definition sel_vals (g : params) (l : ledgers) : list (addr * Z) :=
  map (λ d, (d_addr d, d_total d)) (selection g l).

Lemma elem_of_committed_dels l d : d ∈ committed_dels l ↔ ∃ a, dels l !! a = Some d.
Proof.
  unfold committed_dels. rewrite elem_of_list_fmap. split.
  - intros ([a d'] & -> & H). exists a. apply elem_of_sorted_items, H.
  - intros (a & H). exists (a, d). split; [reflexivity | apply elem_of_sorted_items, H].
Qed.

Lemma committed_dels_addrs l : dels_key_ok l → d_addr <$> committed_dels l = (sorted_items (dels l)).*1.
Proof.
  intros Hk. unfold committed_dels. rewrite <- list_fmap_compose. apply Forall_fmap_ext, Forall_forall.
  intros [a d] Hx. apply elem_of_sorted_items in Hx. exact (Hk a d Hx).
Qed.

Lemma committed_dels_distinct l : dels_key_ok l → distinct_addrs (committed_dels l).
Proof.
  intros Hk. unfold distinct_addrs. rewrite (committed_dels_addrs l Hk). apply NoDup_keys_sorted_items.
Qed.

Lemma distinct_addrs_filter p l : distinct_addrs l → distinct_addrs (List.filter p l).
Proof.
  intros H. apply NoDup_fmap_2_strong.
  - intros x y [Hx _]%elem_of_List_filter [Hy _]%elem_of_List_filter. exact (InvStake.NoDup_fmap_inj d_addr l x y H Hx Hy).
  - apply NoDup_ListNoDup, List.NoDup_filter, distinct_addrs_NoDup, H.
Qed.

Lemma eligible_distinct g l : dels_key_ok l → distinct_addrs (eligible g l).
Proof. intros Hk. apply distinct_addrs_filter, committed_dels_distinct, Hk. Qed.

Lemma elem_of_eligible g l d : d ∈ eligible g l ↔ (∃ a, dels l !! a = Some d) ∧ min_power g ≤ d_self d.
Proof. unfold eligible. rewrite elem_of_List_filter, elem_of_committed_dels, Z.leb_le. reflexivity. Qed.

Lemma ranked_distinct g l : dels_key_ok l → distinct_addrs (ranked g l).
Proof. intros Hk. eapply distinct_addrs_perm; [symmetry; apply sort_power_perm | apply eligible_distinct, Hk]. Qed.

Lemma distinct_addrs_take n l : distinct_addrs l → distinct_addrs (take n l).
Proof.
  unfold distinct_addrs. rewrite <- (take_drop n l) at 1. rewrite fmap_app. intros H.
  apply NoDup_app in H as [H _]. exact H.
Qed.

Lemma selection_distinct g l : dels_key_ok l → distinct_addrs (selection g l).
Proof. intros Hk. apply distinct_addrs_take, ranked_distinct, Hk. Qed.

Lemma sel_vals_addrs g l : (sel_vals g l).*1 = d_addr <$> selection g l.
Proof.
  unfold sel_vals. generalize (selection g l) as k. induction k as [|d k IH]; [reflexivity|].
  cbn [map]. rewrite !fmap_cons, IH. reflexivity.
Qed.

Lemma sel_vals_nodup g l : dels_key_ok l → NoDup (sel_vals g l).*1.
Proof. intros Hk. rewrite sel_vals_addrs. apply selection_distinct, Hk. Qed.

Lemma elem_of_sel_vals g l a p : (a, p) ∈ sel_vals g l ↔ ∃ d, d ∈ selection g l ∧ d_addr d = a ∧ d_total d = p.
Proof.
  unfold sel_vals. rewrite elem_of_list_In, in_map_iff. split.
  - intros (d & [= <- <-] & H). exists d. rewrite elem_of_list_In. auto.
  - intros (d & H & <- & <-). exists d. rewrite <- elem_of_list_In. auto.
Qed.

(* (V2) the selection, characterised without reference to any sorting algorithm: it consists of
   eligible delegatees of [l] (own power at least the minimum), has min(#eligible, maxValidatorCnt)
   members, is listed in strictly descending power order (total power, then number of stakes, then
   address), and every eligible delegatee left out ranks strictly after every selected one; the
   announced power is the total power. *)
Theorem selection_spec g l :
  dels_key_ok l → 0 ≤ g_maxValidatorCnt g →
  (∀ d, d ∈ selection g l → dels l !! d_addr d = Some d ∧ min_power g ≤ d_self d) ∧
  distinct_addrs (selection g l) ∧
  StronglySorted power_ltP (selection g l) ∧
  Z.of_nat (length (selection g l)) = Z.min (Z.of_nat (length (eligible g l))) (g_maxValidatorCnt g) ∧
  (∀ d e, d ∈ selection g l → dels l !! d_addr e = Some e → min_power g ≤ d_self e →
          e ∉ selection g l → power_less d e = true) ∧
  sel_vals g l = map (λ d, (d_addr d, d_total d)) (selection g l).
Proof.
  intros Hk Hmax.
  pose proof (sort_power_sorted _ (eligible_distinct g l Hk)) as Hss. fold (ranked g l) in Hss.
  assert (Hsplit : ranked g l = selection g l ++ drop (Z.to_nat (g_maxValidatorCnt g)) (ranked g l))
    by (symmetry; apply take_drop).
  split; [|split; [|split; [|split; [|split]]]].
  - intros d Hd. assert (Hr : d ∈ ranked g l) by (rewrite Hsplit; apply elem_of_app; left; exact Hd).
    unfold ranked in Hr. rewrite sort_power_perm in Hr. apply elem_of_eligible in Hr as [(a & Ha) Hm].
    split; [|exact Hm]. rewrite (Hk _ _ Ha). exact Ha.
  - apply selection_distinct, Hk.
  - rewrite Hsplit in Hss. eapply StronglySorted_app_inv_l, Hss.
  - unfold selection. rewrite take_length. unfold ranked.
    rewrite (Permutation_length (sort_power_perm (eligible g l))). lia.
  - intros d e Hd He Hm Hn. rewrite Hsplit in Hss.
    eapply (elem_of_StronglySorted_app _ _ _ d e Hss Hd).
    assert (Hr : e ∈ ranked g l).
    { unfold ranked. rewrite sort_power_perm. apply elem_of_eligible. split; [eauto | exact Hm]. }
    rewrite Hsplit in Hr. apply elem_of_app in Hr as [Hr|Hr]; [contradiction | exact Hr].
  - reflexivity.
Qed.

(* any correct sort of the eligible delegatees gives the same selection *)
Theorem selection_unique g l l' :
  dels_key_ok l → l' ≡ₚ eligible g l → go_sorted_power l' →
  take (Z.to_nat (g_maxValidatorCnt g)) l' = selection g l.
Proof.
  intros Hk Hp Hs. unfold selection, ranked.
  rewrite (sort_power_unique (eligible g l) l' (eligible_distinct g l Hk) Hp Hs). reflexivity.
Qed.

(* the same selection in the vocabulary of ValSet.v, so that its theorems (select_top,
   select_subset, select_length, select_resort, ...) apply to the model's selection *)
Theorem selection_dg g l :
  dels_key_ok l → 0 ≤ g_maxValidatorCnt g →
  ValSet.select (g_maxValidatorCnt g) (ValSet.eligible (min_power g) (map dg_of (committed_dels l)))
  = Some (map dg_of (selection g l)) ∧
  sel_vals g l = ValSet.vals (map dg_of (selection g l)).
Proof.
  intros Hk Hmax. split.
  - rewrite ValSet.select_some by exact Hmax. f_equal.
    unfold ValSet.eligible. rewrite filter_map_comm. cbn [dg_of ValSet.d_self].
    fold (eligible g l). rewrite <- (sort_power_dg _ (eligible_distinct g l Hk)).
    rewrite map_length. unfold selection, ranked. rewrite firstn_map.
    f_equal. rewrite <- (Permutation_length (sort_power_perm (eligible g l))).
    set (k := sort_power (eligible g l)).
    destruct (Z.le_ge_cases (Z.of_nat (length k)) (g_maxValidatorCnt g)) as [Hle|Hge].
    + rewrite Z.min_l by exact Hle. rewrite Nat2Z.id. rewrite !firstn_all2; [reflexivity | lia | lia].
    + rewrite Z.min_r by lia. reflexivity.
  - unfold sel_vals, ValSet.vals. rewrite map_map. reflexivity.
Qed.
Print Assumptions sort_power_unique.
Print Assumptions selection_spec.
Print Assumptions selection_dg.

(* ================================================================== 3. what the operations do to the validator bookkeeping *)
Definition lstep (l l' : ledgers) : Prop := lparams l' = lparams l ∧ (dels_key_ok l → dels_key_ok l').

Lemma lstep_keys l l' : lstep l l' → dels_key_ok l → dels_key_ok l'.  Proof. intros H. apply H. Qed.
Lemma lstep_refl l : lstep l l. Proof. split; auto. Qed.
Lemma lstep_trans l1 l2 l3 : lstep l1 l2 → lstep l2 l3 → lstep l1 l3.
Proof. intros [H1 H2] [H3 H4]; split; [congruence | auto]. Qed.

Lemma lstep_same l l' : lparams l' = lparams l → dels l' = dels l → lstep l l'.
Proof. intros Hp Hd. split; [exact Hp|]. unfold dels_key_ok. rewrite Hd. auto. Qed.
Lemma lstep_keeps f l l' : keeps f l l' → f_lparams f → f_dels f → lstep l l'.
Proof. intros H Hp Hd. apply lstep_same; [exact (keeps_lparams _ _ _ H Hp) | exact (keeps_dels _ _ _ H Hd)]. Qed.
Lemma lstep_insert l l' a d :
  lparams l' = lparams l → dels l' = <[a := d]> (dels l) → (dels_key_ok l → d_addr d = a) → lstep l l'.
Proof.
  intros Hp Hd Ha. split; [exact Hp|]. intros Hk b x. rewrite Hd, lookup_insert_Some.
  intros [[<- <-]|[_ H]]; [apply Ha, Hk | eapply Hk, H].
Qed.
Lemma lstep_delete l l' a : lparams l' = lparams l → dels l' = delete a (dels l) → lstep l l'.
Proof. intros Hp Hd. split; [exact Hp|]. intros Hk b x. rewrite Hd, lookup_delete_Some. intros [_ H]. eapply Hk, H. Qed.

Lemma del_stake_addr d h : d_addr (del_stake d h) = d_addr d.
Proof. unfold del_stake. destruct (find_stake h (d_stakes d)); reflexivity. Qed.

(* ------------------------------------------------------------------ deliver *)
Lemma stake_execute_lstep s l t l' : stake_execute s l t = Ok l' → lstep l l'.
Proof.
  intros H. pose proof (keeps_lparams _ _ _ (stake_execute_keeps _ _ _ _ H) I) as Hp.
  apply InvStake.stake_execute_inv in H
    as [(_ & d & Hd & HD & _)|[(_ & d & hs & b & s0 & Hd & _ & _ & _ & HD & _)|(_ & _ & HD & _)]].
  - apply (lstep_insert _ _ _ _ Hp HD). intros Hk.
    destruct Hd as [Hd|(_ & _ & ->)]; [exact (Hk _ _ Hd) | reflexivity].
  - unfold InvStake.unstake_result in HD. cbn [fst] in HD.
    destruct (d_total _ =? 0); [exact (lstep_delete _ _ _ Hp HD)|].
    apply (lstep_insert _ _ _ _ Hp HD). intros Hk.
    destruct (d_self _ =? 0); cbn [del_all_stakes fst d_addr]; rewrite del_stake_addr; exact (Hk _ _ Hd).
  - exact (lstep_same _ _ Hp HD).
Qed.

Definition ctl_kept (s s' : state) : Prop :=
  committed s' = committed s ∧ gparams s' = gparams s ∧ newparams s' = newparams s ∧
  alldels s' = alldels s ∧ lastvals s' = lastvals s ∧ last_height s' = last_height s ∧
  b_height (bctx s') = b_height (bctx s).

Lemma deliver_frame s t : ctl_kept s (deliver s t).1 ∧ lstep (work s) (work (deliver s t).1).
Proof.
  split.
  { destruct (deliver s t) as [s' r] eqn:E.
    destruct (InvFail.deliver_control _ _ _ _ E) as (l & x & fee & n & ->). repeat split. }
  apply (InvFail.deliver_preserves (lstep (work s))); [| | | | |apply lstep_refl].
  - intros l a x H. apply (lstep_trans _ _ _ H), (lstep_keeps _ _ _ (keeps_set_acct l a x)); exact I.
  - intros s0 l t0 l' H E. apply (lstep_trans _ _ _ H), (lstep_keeps _ _ _ (gov_execute_keeps _ _ _ _ E)); exact I.
  - intros l t0 l' H E. apply (lstep_trans _ _ _ H), (lstep_keeps _ _ _ (acct_execute_keeps _ _ _ E)); exact I.
  - intros s0 l t0 l' H E. exact (lstep_trans _ _ _ H (stake_execute_lstep _ _ _ _ E)).
  - intros l t0 l' g H E. apply (lstep_trans _ _ _ H), (lstep_keeps _ _ _ (evm_execute_keeps _ _ _ _ E)); exact I.
Qed.

Definition delivers (s : state) (txs : list tx) : state := foldl (λ s t, (deliver s t).1) s txs.

Lemma ctl_kept_refl s : ctl_kept s s. Proof. repeat split. Qed.
Lemma ctl_kept_trans s1 s2 s3 : ctl_kept s1 s2 → ctl_kept s2 s3 → ctl_kept s1 s3.
Proof. unfold ctl_kept. intros (?&?&?&?&?&?&?) (?&?&?&?&?&?&?). repeat split; congruence. Qed.

Lemma delivers_frame txs : ∀ s, ctl_kept s (delivers s txs) ∧ lstep (work s) (work (delivers s txs)).
Proof.
  induction txs as [|t txs IH]; intros s; [split; [apply ctl_kept_refl | apply lstep_refl]|].
  unfold delivers. simpl. fold (delivers (deliver s t).1 txs).
  destruct (deliver_frame s t) as [H1 H2]. destruct (IH (deliver s t).1) as [H3 H4].
  split; [eapply ctl_kept_trans | eapply lstep_trans]; eassumption.
Qed.

(* ------------------------------------------------------------------ begin_block *)
Lemma begin_block_keys s hd : dels_key_ok (work s) → dels_key_ok (work (begin_block s hd).1).
Proof.
  intros Hk. apply InvStake.begin_block_ind.
  - intros l l' [HD _] H. unfold dels_key_ok. rewrite HD. exact H.
  - exact Hk.
  - intros l a d _ H Hd. apply (lstep_keys l); [|exact H].
    eapply (lstep_insert _ _ a); [reflexivity..|]. intros _. exact (H _ _ Hd).
  - intros l a d m H Hd. apply (lstep_keys l); [|exact H].
    eapply (lstep_insert _ _ a); [reflexivity..|]. intros _. exact (H _ _ Hd).
  - intros l a d _ H _. apply (lstep_keys l); [|exact H]. apply (lstep_delete _ _ a); reflexivity.
Qed.

Lemma begin_block_frame s hd :
  let s' := (begin_block s hd).1 in
  committed s' = committed s ∧ gparams s' = gparams s ∧ newparams s' = newparams s ∧
  lastvals s' = lastvals s ∧ last_height s' = last_height s ∧ lstep (work s) (work s').
Proof.
  cbv zeta. pose proof (begin_block_keys s hd) as Hk.
  destruct (begin_block s hd) as [s' r] eqn:H. cbn [fst] in Hk |- *.
  pose proof (keeps_lparams _ _ _ (begin_block_keeps _ _ _ _ H) I) as Hp.
  destruct (begin_block_control _ _ _ _ H) as [->|(_ & l & ->)]; do 5 (split; [reflexivity|]); exact (conj Hp Hk).
Qed.

Lemma begin_block_ok s hd r : (begin_block s hd).2 = Ok r →
  h_height hd = last_height s + 1 ∧
  alldels (begin_block s hd).1 = ranked (gparams s) (base_of s) ∧
  b_height (bctx (begin_block s hd).1) = h_height hd.
Proof.
  destruct (begin_block s hd) as [s' r0] eqn:H. cbn [fst snd]. intros ->. apply begin_block_cases in H.
  inversion H as [|Hh _|l issued Hh _ _| |]; subst; (split; [exact Hh|split; reflexivity]).
Qed.

(* ------------------------------------------------------------------ end_block and commit *)
(* the parameter record of the working ledgers and the pending in-memory copy move together *)
Lemma apply_proposals_params s base l h l' np : apply_proposals s base l h = Ok (l', np) →
  lparams l = default (gparams s) (newparams s) → lparams l' = default (gparams s) np.
Proof.
  rewrite apply_proposals_eq. intros H H0.
  apply (foldl_res_inv (λ x, lparams x.1 = default (gparams s) x.2) _ _ (res_stuck_apply _ _)) with (a := (l, newparams s)) in H;
    [exact H| |exact H0].
  intros [l1 n1] kp [l2 n2] _ H1. cbn [fst snd apply_step]. destruct (p_apply _ <=? h); [|intros [= <- <-]; exact H1].
  destruct (fprops l1 !! kp.1); [|discriminate].
  destruct (p_major kp.2) as [o|]; [|intros [= <- <-]; exact H1].
  destruct (p_opttype _ =? _); [|intros [= <- <-]; exact H1].
  destruct (o_params o); [|discriminate]. intros [= <- <-]. reflexivity.
Qed.

Lemma end_block_ok s s' ups : end_block s = (s', Ok ups) →
  committed s' = committed s ∧ gparams s' = gparams s ∧ alldels s' = alldels s ∧ bctx s' = bctx s ∧
  last_height s' = last_height s ∧ dels (work s') = dels (work s) ∧
  (lparams (work s) = default (gparams s) (newparams s) → lparams (work s') = default (gparams s) (newparams s')) ∧
  0 ≤ g_maxValidatorCnt (gparams s) ∧
  lastvals s' = map (λ d, (d_addr d, d_total d)) (take (Z.to_nat (g_maxValidatorCnt (gparams s))) (alldels s)) ∧
  ups = val_updates (S (length (lastvals s) + length (lastvals s'))) (sort_addr (lastvals s)) (sort_addr (lastvals s')).
Proof.
  intros H. pose proof (end_block_keeps _ _ _ H) as K. apply end_block_cases in H.
  inversion H as [r Hr|l1 l2 np l3 l4 H1 H2 H3 H4 Hm]; subst.
  { destruct (Hr ups). reflexivity. }
  do 5 (split; [reflexivity|]). split; [exact (keeps_dels _ _ _ K I)|]. split; [|repeat split; exact Hm].
  intros H0. cbn [ended work newparams].
  rewrite (keeps_lparams _ _ _ (unfreeze_keeps _ _ _ _ H4) I), (keeps_lparams _ _ _ (proposer_paid_keeps _ _ _ H3) I).
  apply (apply_proposals_params _ _ _ _ _ _ H2). rewrite (keeps_lparams _ _ _ (freeze_proposals_keeps _ _ _ _ H1) I). exact H0.
Qed.

Lemma end_block_keeps s : committed (end_block s).1 = committed s ∧ dels (work (end_block s).1) = dels (work s).
Proof.
  destruct (end_block s) as [s' r] eqn:E. cbn [fst]. split.
  - apply end_block_cases in E. destruct E; reflexivity.
  - exact (keeps_dels _ _ _ (SpecFacts.end_block_keeps _ _ _ E) I).
Qed.

(* ================================================================== 4. blocks and the boundary invariant *)
Definition block_ops (hd : header) (txs : list tx) : list sop := [SBegin hd] ++ map SDeliver txs ++ [SEnd; SCommit].

(* one well-bracketed block in which BeginBlock and EndBlock answer without error; the result is
   the state after the commit and the validator updates EndBlock returned *)
Definition do_block (s : state) (hd : header) (txs : list tx) : option (state * list (addr * Z)) :=
  match (begin_block s hd).2 with
  | Ok _ =>
      let s2 := delivers (begin_block s hd).1 txs in
      match (end_block s2).2 with
      | Ok ups => Some (commit (end_block s2).1, ups)
      | _ => None
      end
  | _ => None
  end.

Lemma srun_delivers s txs : srun s (map SDeliver txs) = delivers s txs.
Proof. revert s. induction txs as [|t txs IH]; intros s; [reflexivity|]. simpl. apply IH. Qed.

(* do_block is the run of [block_ops] in which BeginBlock and EndBlock answer Ok *)
Lemma do_block_srun s hd txs s' ups : do_block s hd txs = Some (s', ups) →
  srun s (block_ops hd txs) = s' ∧
  sstep_ok s (SBegin hd) = true ∧ sstep_ok (delivers (begin_block s hd).1 txs) SEnd = true ∧
  (end_block (delivers (begin_block s hd).1 txs)).2 = Ok ups.
Proof.
  unfold do_block, block_ops, sstep_ok. destruct ((begin_block s hd).2) as [r| |] eqn:Eb; try discriminate.
  cbv zeta. destruct ((end_block _).2) as [u| |] eqn:Ee; try discriminate. intros [= <- <-].
  split; [|auto]. rewrite !srun_app. simpl. rewrite srun_delivers. reflexivity.
Qed.

(* the version the last EndBlock looked at (the one before the last committed one) *)
Definition prev_version (s : state) : option ledgers :=
  let n := length (committed s) in if (n <? 2)%nat then None else committed s !! (n - 2)%nat.
(* what the validator record must be after a commit: the selection EndBlock of the last block made *)
Definition announced (s : state) : list (addr * Z) :=
  match prev_version s with Some prev => sel_vals (lparams prev) prev | None => [] end.

Record boundary_ok (s : state) : Prop := {
  bo_keys_work : dels_key_ok (work s);
  bo_keys_comm : ∀ l, l ∈ committed s → dels_key_ok l;
  bo_newparams : newparams s = None;
  bo_params : lparams (work s) = gparams s;
  bo_height : last_height s = Z.of_nat (length (committed s));
  bo_last : committed s ≠ [] → last (committed s) = Some (work s);
  bo_lastvals : lastvals s = announced s }.

(* ------------------------------------------------------------------ genesis *)
Lemma empty_key_ok p : dels_key_ok (empty_ledgers p).
Proof. intros a d. simpl. rewrite lookup_empty. discriminate. Qed.

Lemma init_chain_work g : lstep (empty_ledgers (gen_params g)) (work (init_chain g)).
Proof.
  unfold init_chain. cbn [work].
  apply (foldl_inv _ (lstep _)).
  { intros l v _ H. apply (lstep_trans _ _ _ H). eapply (lstep_insert _ _ v.1); [reflexivity..|]. intros _. reflexivity. }
  apply (foldl_inv _ (lstep _)).
  { intros l v _ H. apply (lstep_trans _ _ _ H), (lstep_keeps _ _ _ (find_or_new_keeps l v.1)); exact I. }
  apply (foldl_inv _ (lstep _)); [|apply lstep_refl].
  intros l h _ H. apply (lstep_trans _ _ _ H), (lstep_keeps _ _ _ (keeps_set_acct _ _ _)); exact I.
Qed.

Theorem init_chain_boundary g : boundary_ok (init_chain g).
Proof.
  destruct (init_chain_work g) as [Hp Hk].
  constructor.
  - apply Hk, empty_key_ok.
  - intros l Hl. inversion Hl.
  - reflexivity.
  - rewrite Hp. reflexivity.
  - reflexivity.
  - intros H. contradiction H. reflexivity.
  - reflexivity.
Qed.

(* ------------------------------------------------------------------ one block *)
Lemma sel_vals_empty g p : sel_vals g (empty_ledgers p) = [].
Proof.
  unfold sel_vals, selection, ranked, eligible, committed_dels, sorted_items. simpl.
  rewrite map_to_list_empty. cbn. rewrite take_nil. reflexivity.
Qed.

Lemma base_of_boundary s : boundary_ok s →
  (committed s = [] ∧ base_of s = empty_ledgers (gparams s)) ∨ (committed s ≠ [] ∧ base_of s = work s).
Proof.
  intros Hb. unfold base_of. destruct (committed s) as [|l0 c] eqn:Ec.
  - left. auto.
  - right. split; [discriminate|]. rewrite <- Ec. rewrite (bo_last s Hb) by (rewrite Ec; discriminate). reflexivity.
Qed.

Lemma base_key_ok s : boundary_ok s → dels_key_ok (base_of s).
Proof.
  intros Hb. destruct (base_of_boundary s Hb) as [[_ ->]|[_ ->]]; [apply empty_key_ok | apply (bo_keys_work s Hb)].
Qed.

Lemma block_body_frame s hd r txs : (begin_block s hd).2 = Ok r →
  let s2 := delivers (begin_block s hd).1 txs in
  committed s2 = committed s ∧ gparams s2 = gparams s ∧ newparams s2 = newparams s ∧ lastvals s2 = lastvals s ∧
  alldels s2 = ranked (gparams s) (base_of s) ∧ b_height (bctx s2) = last_height s + 1 ∧
  lstep (work s) (work s2).
Proof.
  intros Eb. cbv zeta.
  destruct (begin_block_ok s hd r Eb) as (Hh & Hall & Hbh).
  destruct (begin_block_frame s hd) as (B1 & B2 & B3 & B4 & _ & B6).
  destruct (delivers_frame txs (begin_block s hd).1) as [(D1 & D2 & D3 & D4 & D5 & _ & D7) D8].
  do 6 (split; [congruence|]). exact (lstep_trans _ _ _ B6 D8).
Qed.

Lemma do_block_inv s hd txs s' ups : boundary_ok s → do_block s hd txs = Some (s', ups) →
  boundary_ok s' ∧
  committed s' = committed s ++ [work s'] ∧
  0 ≤ g_maxValidatorCnt (gparams s) ∧
  lastvals s' = sel_vals (gparams s) (base_of s) ∧
  ups = val_updates (S (length (lastvals s) + length (lastvals s'))) (sort_addr (lastvals s)) (sort_addr (lastvals s')).
Proof.
  intros Hb. unfold do_block.
  destruct ((begin_block s hd).2) as [r| |] eqn:Eb; try discriminate. cbv zeta.
  destruct (block_body_frame s hd r txs Eb) as (C2 & G2 & N2 & V2 & A2 & H2 & [P2 K2]).
  set (s2 := delivers (begin_block s hd).1 txs) in *.
  destruct (end_block s2) as [s3 r3] eqn:Ee. cbn [fst snd]. destruct r3 as [u| |]; try discriminate.
  intros [= <- <-].
  destruct (end_block_ok s2 s3 u Ee) as (E1 & E2 & _ & E4 & _ & E6 & E7 & E8 & E9 & E10).
  assert (Hlv : lastvals s3 = sel_vals (gparams s) (base_of s)).
  { rewrite E9, G2, A2. reflexivity. }
  assert (Hk3 : dels_key_ok (work s3)).
  { unfold dels_key_ok. rewrite E6. apply K2, (bo_keys_work s Hb). }
  assert (Hc : committed (commit s3) = committed s ++ [work (commit s3)]).
  { cbn. congruence. }
  split; [|split; [exact Hc|split; [rewrite <- G2; exact E8|split; [exact Hlv|]]]].
  2:{ cbn [commit lastvals]. rewrite E10, V2. reflexivity. }
  constructor.
  - exact Hk3.
  - intros l. rewrite Hc. rewrite elem_of_app, elem_of_list_singleton. intros [Hl| ->].
    + apply (bo_keys_comm s Hb), Hl.
    + exact Hk3.
  - reflexivity.
  - cbn. rewrite E2. apply E7. rewrite P2, N2, (bo_newparams s Hb), G2. cbn. apply (bo_params s Hb).
  - cbn. rewrite app_length, E1, C2. cbn. rewrite E4, H2, (bo_height s Hb). lia.
  - intros _. rewrite Hc. apply last_snoc.
  - cbn [commit lastvals]. rewrite Hlv. unfold announced, prev_version. rewrite Hc, app_length. cbn [length].
    destruct (base_of_boundary s Hb) as [[Hn Hbase]|[Hn Hbase]].
    + rewrite Hn. cbn. rewrite Hbase. apply sel_vals_empty.
    + assert (Hlen : (1 ≤ length (committed s))%nat) by (destruct (committed s); [contradiction | simpl; lia]).
      destruct (length (committed s) + 1 <? 2)%nat eqn:E2'; [apply Nat.ltb_lt in E2'; lia|].
      rewrite lookup_app_l by lia.
      replace (length (committed s) + 1 - 2)%nat with (pred (length (committed s))) by lia.
      rewrite <- last_lookup, (bo_last s Hb Hn), Hbase, (bo_params s Hb). reflexivity.
Qed.

Definition sel_positive (s : state) : Prop := ∀ d, d ∈ selection (gparams s) (base_of s) → 0 < d_total d.

(* sufficient for [sel_positive]: the minimum validator stake is at least one unit of power and
   the totals bookkeeping of the committed delegatees holds (InvStake.v proves the latter for
   reachable states: [delegatee_ok] and non-negative stake powers give [totals_ok]) *)
Lemma sel_positive_of_totals s :
  boundary_ok s → 1 ≤ min_power (gparams s) → totals_ok (base_of s) → sel_positive s.
Proof.
  intros Hb Hm Ht d Hd.
  assert (0 ≤ g_maxValidatorCnt (gparams s) ∨ g_maxValidatorCnt (gparams s) < 0) as [Hc|Hc] by lia.
  - destruct (selection_spec (gparams s) (base_of s) (base_key_ok s Hb) Hc) as (H1 & _).
    destruct (H1 d Hd) as [Hin Hself]. pose proof (Ht _ _ Hin). lia.
  - unfold selection in Hd. rewrite Z2Nat.nonpos in Hd by lia. inversion Hd.
Qed.

Lemma totals_ok_of_bookkeeping l :
  (∀ a d, dels l !! a = Some d → delegatee_ok a d) → (∀ s, s ∈ bonded_stakes l → 0 ≤ s_power s) → totals_ok l.
Proof.
  intros Hok Hr a d Hd. destruct (Hok a d Hd) as (_ & Ht & Hs & _). rewrite Ht, Hs.
  apply InvStake.sum_power_of_bounds. intros st Hst. apply Hr, InvStake.elem_of_bonded. eauto.
Qed.

Local Transparent two63 two64.
Lemma min_power_pos g : amountPerPower ≤ g_minValidatorStake g < two63 * amountPerPower → 1 ≤ min_power g.
Proof.
  intros [H1 H2]. unfold min_power, power_of, amount_to_power.
  assert (Hq : 1 ≤ g_minValidatorStake g / amountPerPower < two63).
  { unfold amountPerPower in *. split.
    - apply Z.div_le_lower_bound; lia.
    - apply Z.div_lt_upper_bound; lia. }
  assert (Hw : wrap64 ((g_minValidatorStake g / amountPerPower) mod two64) = g_minValidatorStake g / amountPerPower).
  { rewrite Z.mod_small; [apply wrap64_small; unfold in64|]; unfold two63, two64 in *; lia. }
  rewrite Hw. destruct (_ <? 0) eqn:E; [apply Z.ltb_lt in E; lia|]. simpl. lia.
Qed.
Local Opaque two63 two64.

(* (V1) at the level of a block: the updates EndBlock returns are well-formed for the consensus
   engine, and applying them to the previously announced set gives the new selection *)
Theorem C10_block s hd txs s' ups :
  boundary_ok s → sel_positive s → do_block s hd txs = Some (s', ups) →
  lastvals s' = sel_vals (gparams s) (base_of s) ∧
  ValSet.tm_apply_updates (sort_addr (lastvals s)) ups = Some (sort_addr (lastvals s')) ∧
  ValSet.apply_updates (sort_addr (lastvals s)) ups = sort_addr (lastvals s') ∧
  NoDup ups.*1 ∧ (∀ a, (a, 0) ∈ ups → a ∈ (lastvals s).*1) ∧ (∀ a p, (a, p) ∈ ups → 0 ≤ p).
Proof.
  intros Hb Hpos Hd. destruct (do_block_inv s hd txs s' ups Hb Hd) as (Hb' & _ & _ & Hlv & Hups).
  assert (Hold : NoDup (lastvals s).*1).
  { rewrite (bo_lastvals s Hb). unfold announced, prev_version.
    destruct (_ <? 2)%nat; [constructor|]. destruct (committed s !! _) as [prev|] eqn:E; [|constructor].
    apply sel_vals_nodup, (bo_keys_comm s Hb). eapply elem_of_list_lookup_2, E. }
  assert (Hnew : NoDup (lastvals s').*1) by (rewrite Hlv; apply sel_vals_nodup, base_key_ok, Hb).
  assert (Hp : ∀ a p, (a, p) ∈ lastvals s' → 0 < p).
  { intros a p. rewrite Hlv, elem_of_sel_vals. intros (d & Hd' & _ & <-). apply Hpos, Hd'. }
  assert (Hf : (length (lastvals s) + length (lastvals s') < S (length (lastvals s) + length (lastvals s')))%nat) by lia.
  split; [exact Hlv|]. rewrite Hups.
  pose proof (val_updates_wellformed _ _ _ Hold Hnew Hf Hp) as Hw.
  split; [exact Hw|]. split.
  { unfold ValSet.tm_apply_updates in Hw. destruct (ValSet.tm_check _ _); [injection Hw as Hw; exact Hw | discriminate]. }
  split; [apply val_updates_nodup; assumption|]. split.
  - apply val_updates_removals; assumption.
  - apply val_updates_nonneg; try assumption. intros a p H. pose proof (Hp a p H). lia.
Qed.
Print Assumptions C10_block.

(* ================================================================== 5. (V3) histories *)
Definition blocks := list (header * list tx).

Fixpoint run_blocks (s : state) (bs : blocks) : option (state * list (list (addr * Z))) :=
  match bs with
  | [] => Some (s, [])
  | b :: r =>
      match do_block s b.1 b.2 with
      | Some (s', u) => match run_blocks s' r with Some (sf, us) => Some (sf, u :: us) | None => None end
      | None => None
      end
  end.

Definition ops_of (bs : blocks) : list sop := concat (map (λ b, block_ops b.1 b.2) bs).

Fixpoint block_starts (s : state) (bs : blocks) : list state :=
  match bs with [] => [] | b :: r => s :: block_starts (srun s (block_ops b.1 b.2)) r end.

Lemma run_blocks_srun bs : ∀ s sf us, run_blocks s bs = Some (sf, us) → srun s (ops_of bs) = sf ∧ length us = length bs.
Proof.
  induction bs as [|b r IH]; intros s sf us; cbn [run_blocks].
  { intros [= <- <-]. auto. }
  destruct (do_block s b.1 b.2) as [[s' u]|] eqn:Ed; [|discriminate].
  destruct (run_blocks s' r) as [[sf' us']|] eqn:Er; [|discriminate]. intros [= <- <-].
  apply do_block_srun in Ed as [Ed _]. apply IH in Er as [Er El].
  unfold ops_of. cbn [map concat]. rewrite srun_app, Ed. split; [exact Er | simpl; congruence].
Qed.

Lemma tm_run_fold upss : ∀ s r, ValSet.tm_run s upss = Some r → fold_left ValSet.apply_updates upss s = r.
Proof.
  induction upss as [|u upss IH]; intros s r; simpl; [intros [= <-]; reflexivity|].
  unfold ValSet.tm_apply_updates. destruct (ValSet.tm_check s u); [|discriminate]. apply IH.
Qed.

(* the boundary invariant holds after every block of a run (no hypothesis on the powers) *)
Lemma run_blocks_boundary bs : ∀ s sf upss,
  boundary_ok s → run_blocks s bs = Some (sf, upss) →
  boundary_ok sf ∧ length (committed sf) = (length (committed s) + length bs)%nat.
Proof.
  induction bs as [|b r IH]; intros s sf upss Hb; cbn [run_blocks].
  { intros [= <- <-]. split; [exact Hb | simpl; lia]. }
  destruct (do_block s b.1 b.2) as [[s' u]|] eqn:Ed; [|discriminate].
  destruct (run_blocks s' r) as [[sf' us']|] eqn:Er; [|discriminate]. intros [= <- <-].
  destruct (do_block_inv _ _ _ _ _ Hb Ed) as (Hb' & Hc & _).
  destruct (IH s' sf' us' Hb' Er) as (Hbf & Hlen).
  split; [exact Hbf|]. rewrite Hlen, Hc, app_length. simpl. lia.
Qed.

Lemma history_from bs : ∀ s sf upss,
  boundary_ok s → run_blocks s bs = Some (sf, upss) → Forall sel_positive (block_starts s bs) →
  boundary_ok sf ∧ length (committed sf) = (length (committed s) + length bs)%nat ∧
  ValSet.tm_run (sort_addr (lastvals s)) upss = Some (sort_addr (lastvals sf)).
Proof.
  induction bs as [|b r IH]; intros s sf upss Hb; cbn [run_blocks block_starts].
  { intros [= <- <-] _. split; [exact Hb|]. split; [simpl; lia | reflexivity]. }
  destruct (do_block s b.1 b.2) as [[s' u]|] eqn:Ed; [|discriminate].
  destruct (run_blocks s' r) as [[sf' us']|] eqn:Er; [|discriminate]. intros [= <- <-] Hpos.
  apply Forall_cons in Hpos as [Hp Hpos].
  destruct (do_block_srun _ _ _ _ _ Ed) as [Hs _]. rewrite Hs in Hpos.
  destruct (do_block_inv _ _ _ _ _ Hb Ed) as (Hb' & Hc & _).
  destruct (C10_block _ _ _ _ _ Hb Hp Ed) as (_ & Ht & _).
  destruct (IH s' sf' us' Hb' Er Hpos) as (Hbf & Hlen & Hrun).
  split; [exact Hbf|]. split.
  - rewrite Hlen, Hc, app_length. simpl. lia.
  - cbn [ValSet.tm_run]. rewrite Ht. exact Hrun.
Qed.

(* (V3) For a run of blocks from genesis in which every BeginBlock and EndBlock answers Ok:
   - the validator record after block n is [] for n = 1 (block 1 runs on an empty committed tree)
     and for n >= 2 the selection from committed version n-1 under that version's parameters
     (which are the parameters in force during block n);
   - Tendermint's validator-set update, started from the EMPTY set and fed the updates of blocks
     1..n in order, accepts every one of them and ends with exactly that record. *)
Theorem C10_history g bs sf upss :
  run_blocks (init_chain g) bs = Some (sf, upss) →
  Forall sel_positive (block_starts (init_chain g) bs) →
  srun (init_chain g) (ops_of bs) = sf ∧
  length (committed sf) = length bs ∧
  lastvals sf = announced sf ∧
  ValSet.tm_run [] upss = Some (sort_addr (lastvals sf)) ∧
  fold_left ValSet.apply_updates upss [] = sort_addr (lastvals sf).
Proof.
  intros Hr Hpos.
  destruct (history_from bs _ _ _ (init_chain_boundary g) Hr Hpos) as (Hb & Hlen & Hrun).
  split; [apply (run_blocks_srun bs _ _ _ Hr)|]. split; [exact Hlen|]. split; [apply (bo_lastvals sf Hb)|].
  change (sort_addr (lastvals (init_chain g))) with (@nil (addr * Z)) in Hrun.
  split; [exact Hrun | apply tm_run_fold, Hrun].
Qed.

(* the first clause of [C10_history], spelled out *)
Corollary C10_selection_at g bs sf upss :
  run_blocks (init_chain g) bs = Some (sf, upss) →
  Forall sel_positive (block_starts (init_chain g) bs) →
  ((length bs < 2)%nat → lastvals sf = []) ∧
  (∀ prev, (2 ≤ length bs)%nat → committed sf !! (length bs - 2)%nat = Some prev →
     lastvals sf = map (λ d, (d_addr d, d_total d)) (selection (lparams prev) prev)).
Proof.
  intros Hr Hpos. destruct (C10_history g bs sf upss Hr Hpos) as (_ & Hlen & Ha & _).
  rewrite Ha. unfold announced, prev_version. rewrite Hlen. split.
  - intros H. apply Nat.ltb_lt in H. rewrite H. reflexivity.
  - intros prev H Hp. destruct (length bs <? 2)%nat eqn:E; [apply Nat.ltb_lt in E; lia|]. rewrite Hp. reflexivity.
Qed.

(* ------------------------------------------------------------------ starting from the genesis validator set *)
Notation key_strict l := (StronglySorted N.lt (l.*1)).

Lemma sort_addr_strict l : NoDup l.*1 → key_strict (sort_addr l).
Proof.
  intros Hnd. apply key_sorted_strict; [apply StronglySorted_merge_sort; apply _ | rewrite sort_addr_perm; exact Hnd].
Qed.

(* announcing a whole set over a set it covers replaces that set *)
Lemma apply_cover (new : list (addr * Z)) : ∀ G,
  key_strict G → key_strict new → (∀ a, a ∈ G.*1 → a ∈ new.*1) → (∀ a p, (a, p) ∈ new → p ≠ 0) →
  ValSet.apply_updates G new = new.
Proof.
  induction new as [|[a p] new IH]; intros G HG HN Hsub Hnz.
  { destruct G as [|[k v] r]; [reflexivity|]. exfalso. specialize (Hsub k). rewrite fmap_cons in Hsub.
    assert (H : k ∈ ([] : list (addr * Z)).*1) by (apply Hsub; left). inversion H. }
  rewrite fmap_cons in HN. apply StronglySorted_inv in HN as [HN' Hlt]. rewrite Forall_forall in Hlt. cbn [fst] in Hlt.
  assert (Hp : p ≠ 0) by (apply (Hnz a); left).
  rewrite ValSet.apply_updates_cons, (ValSet.apply_put_nz _ _ _ Hp).
  assert (Hhead : ∀ b, In b (map fst new) → (a < b)%N).
  { intros b Hb. apply Hlt. apply elem_of_list_In. exact Hb. }
  assert (Hnz' : ∀ b q, (b, q) ∈ new → q ≠ 0) by (intros b q H; apply (Hnz b); right; exact H).
  destruct G as [|[k v] r].
  { cbn [ValSet.set_put]. rewrite ValSet.apply_updates_head by exact Hhead. f_equal.
    apply IH; [constructor | exact HN' | intros x Hx; inversion Hx | exact Hnz']. }
  rewrite fmap_cons in HG. apply StronglySorted_inv in HG as [HG' Hgt]. rewrite Forall_forall in Hgt. cbn [fst] in Hgt.
  assert (Hk : k ∈ ((a, p) :: new).*1) by (apply Hsub; rewrite fmap_cons; left).
  rewrite fmap_cons in Hk. cbn [fst] in Hk.
  cbn [ValSet.set_put].
  destruct (N.compare_spec a k) as [E|L|G'].
  - subst k. rewrite ValSet.apply_updates_head by exact Hhead. f_equal.
    apply IH; [exact HG' | exact HN' | | exact Hnz'].
    intros x Hx. pose proof (Hgt x Hx) as Hax.
    assert (Hx' : x ∈ ((a, p) :: new).*1) by (apply Hsub; rewrite fmap_cons; right; exact Hx).
    rewrite fmap_cons in Hx'. apply elem_of_cons in Hx' as [->|Hx']; [cbn in Hax; lia | exact Hx'].
  - rewrite ValSet.apply_updates_head by exact Hhead. f_equal.
    apply IH; [rewrite fmap_cons; constructor; [exact HG' | rewrite Forall_forall; exact Hgt] | exact HN' | | exact Hnz'].
    intros x Hx. assert (Hx' : x ∈ ((a, p) :: new).*1) by (apply Hsub, Hx).
    rewrite fmap_cons in Hx'. apply elem_of_cons in Hx' as [->|Hx']; [|exact Hx'].
    exfalso. rewrite fmap_cons in Hx. cbn [fst] in Hx. apply elem_of_cons in Hx as [->|Hx]; [lia|].
    pose proof (Hgt _ Hx). lia.
  - exfalso. apply elem_of_cons in Hk as [->|Hk]; [lia|]. pose proof (Hlt _ Hk). lia.
Qed.

(* INTENDED (property text): for every run, the fold of the updates over the GENESIS validator
   set equals the current selection.  That is false of the model and of the Go code (see
   [C10_genesis_leaver_refuted] below): EndBlock never diffs against the genesis set; block 1
   announces nothing and block 2 announces the whole selection S_2, so genesis validators that
   are not in S_2 are never removed.  With the hypothesis that S_2 covers the genesis set it is
   true from block 2 on: *)
Theorem C10_history_genesis g b1 b2 rest s2 u12 sf upss :
  NoDup (gen_validators g).*1 →
  run_blocks (init_chain g) [b1; b2] = Some (s2, u12) →
  (∀ a, a ∈ (gen_validators g).*1 → a ∈ (lastvals s2).*1) →
  run_blocks (init_chain g) (b1 :: b2 :: rest) = Some (sf, upss) →
  Forall sel_positive (block_starts (init_chain g) (b1 :: b2 :: rest)) →
  fold_left ValSet.apply_updates upss (sort_addr (gen_validators g)) = sort_addr (lastvals sf).
Proof.
  intros Hnd H12 Hcover Hrun Hpos. pose proof (init_chain_boundary g) as Hb0.
  cbn [run_blocks] in H12, Hrun.
  destruct (do_block (init_chain g) b1.1 b1.2) as [[s1 u1]|] eqn:Ed1; [|discriminate].
  destruct (do_block s1 b2.1 b2.2) as [[s2' u2]|] eqn:Ed2; [|discriminate].
  injection H12 as <- <-.
  destruct (run_blocks s2' rest) as [[sf' us]|] eqn:Er; [|discriminate]. injection Hrun as <- <-.
  cbn [block_starts] in Hpos. apply Forall_cons in Hpos as [Hp0 Hpos]. apply Forall_cons in Hpos as [Hp1 Hpos].
  destruct (do_block_srun _ _ _ _ _ Ed1) as [Hs1 _]. rewrite Hs1 in Hp1, Hpos.
  destruct (do_block_srun _ _ _ _ _ Ed2) as [Hs2 _]. rewrite Hs2 in Hpos.
  destruct (do_block_inv _ _ _ _ _ Hb0 Ed1) as (Hb1 & _ & _ & Hlv1 & Hu1).
  destruct (do_block_inv _ _ _ _ _ Hb1 Ed2) as (Hb2 & _ & _ & Hlv2 & Hu2).
  assert (Hl1 : lastvals s1 = []).
  { rewrite Hlv1. destruct (base_of_boundary _ Hb0) as [[_ ->]|[Hn _]]; [apply sel_vals_empty | contradiction Hn; reflexivity]. }
  assert (Hu1' : u1 = []) by (rewrite Hu1, Hl1; reflexivity).
  assert (Hu2' : u2 = sort_addr (lastvals s2')) by (rewrite Hu2, Hl1; reflexivity).
  destruct (history_from rest s2' sf' us Hb2 Er Hpos) as (_ & _ & Ht).
  cbn [fold_left]. rewrite Hu1', Hu2'. rewrite ValSet.apply_updates_nil.
  rewrite apply_cover.
  - apply tm_run_fold, Ht.
  - apply sort_addr_strict, Hnd.
  - apply sort_addr_strict. rewrite Hlv2. apply sel_vals_nodup, base_key_ok, Hb1.
  - intros a. rewrite !sort_addr_perm. apply Hcover.
  - intros a p. rewrite sort_addr_perm, Hlv2, elem_of_sel_vals. intros (d & Hd & _ & <-).
    pose proof (Hp1 d Hd). lia.
Qed.
Print Assumptions C10_history.
Print Assumptions C10_history_genesis.

(* ================================================================== 6. concrete runs: examples and the refutation *)
Definition sel_positiveb (s : state) : bool := forallb (λ d, 0 <? d_total d) (selection (gparams s) (base_of s)).
Lemma sel_positiveb_ok s : sel_positiveb s = true → sel_positive s.
Proof.
  unfold sel_positiveb, sel_positive. rewrite forallb_forall. intros H d Hd.
  apply Z.ltb_lt, H, elem_of_list_In, Hd.
Qed.

(* [run_blocks] that checks, in the same pass, the positivity hypothesis at the start of every block *)
Fixpoint run_checked (s : state) (bs : blocks) : option (state * list (list (addr * Z))) :=
  match bs with
  | [] => Some (s, [])
  | b :: r =>
      if sel_positiveb s then
        match do_block s b.1 b.2 with
        | Some (s', u) => match run_checked s' r with Some (sf, us) => Some (sf, u :: us) | None => None end
        | None => None
        end
      else None
  end.

Lemma run_checked_ok bs : ∀ s r,
  run_checked s bs = Some r → run_blocks s bs = Some r ∧ Forall sel_positive (block_starts s bs).
Proof.
  induction bs as [|b bs IH]; intros s r; cbn [run_checked run_blocks block_starts]; [intros ->; auto|].
  destruct (sel_positiveb s) eqn:Ep; [|discriminate].
  destruct (do_block s b.1 b.2) as [[s' u]|] eqn:Ed; [|discriminate].
  destruct (run_checked s' bs) as [[sf us]|] eqn:Er; [|discriminate]. intros <-.
  destruct (IH _ _ Er) as [-> Hp]. destruct (do_block_srun _ _ _ _ _ Ed) as [-> _].
  split; [reflexivity|]. constructor; [apply sel_positiveb_ok, Ep | exact Hp].
Qed.

(* A closed run is evaluated once per example: [f] names what the example needs of the final state
   and of the updates, only that small value is computed and compared, and the final state itself
   stays a variable. *)
Definition run_view {A} (run : option (state * list (list (addr * Z))))
    (f : state → list (list (addr * Z)) → A) : option A :=
  match run with Some (sf, us) => Some (f sf us) | None => None end.
Lemma run_view_some {A} run (f : state → list (list (addr * Z)) → A) v :
  run_view run f = Some v → ∃ sf us, run = Some (sf, us) ∧ f sf us = v.
Proof. destruct run as [[sf us]|]; [intros [= <-]; eauto | discriminate]. Qed.

Definition run_state (s : state) (bs : blocks) : state := (default (s, []) (run_blocks s bs)).1.
Definition run_updates (s : state) (bs : blocks) : list (list (addr * Z)) := (default (s, []) (run_blocks s bs)).2.
Definition run_okb (s : state) (bs : blocks) : bool := match run_blocks s bs with Some _ => true | None => false end.
Lemma run_blocks_proj s bs : run_okb s bs = true → run_blocks s bs = Some (run_state s bs, run_updates s bs).
Proof. unfold run_okb, run_state, run_updates. destruct (run_blocks s bs) as [[a b]|]; [reflexivity | discriminate]. Qed.
Lemma run_proj_eq s bs sf us : run_blocks s bs = Some (sf, us) → run_state s bs = sf ∧ run_updates s bs = us.
Proof. unfold run_state, run_updates. intros ->. auto. Qed.

Definition ex_params : params := {|
  g_version := 1; g_maxValidatorCnt := 5; g_minValidatorStake := amountPerPower; g_minDelegatorStake := 0;
  g_rewardPerPower := 0; g_lazyRewardBlocks := 2; g_lazyApplyingBlocks := 1; g_gasPrice := 1; g_minTrxGas := 1;
  g_maxTrxGas := 1000; g_maxBlockGas := 100000; g_minVotingPeriodBlocks := 1; g_maxVotingPeriodBlocks := 10;
  g_minSelfStakeRatio := 0; g_maxUpdatableStakeRatio := 100; g_maxIndividualStakeRatio := 100; g_slashRatio := 50;
  g_signedBlocksWindow := 100; g_minSignedBlocks := 1 |}.
(* two genesis validators (powers 10 and 20), three funded accounts *)
Definition ex_genesis : genesis := {|
  gen_params := ex_params;
  gen_holders := [(1%N, 1000); (2%N, 1000); (3%N, 5 * amountPerPower + 1000)];
  gen_validators := [(1%N, 10); (2%N, 20)] |}.
Definition ex_hd (h : Z) : header := {| h_height := h; h_proposer := None; h_votes := []; h_evidence := [] |}.
(* a validator unstakes its genesis stake (hash 0) *)
Definition ex_unstake (a : addr) (nonce : Z) : tx := {|
  t_type := TRX_UNSTAKING; t_from := a; t_to := a; t_from_ok := true; t_to_ok := true; t_amount := 0;
  t_price := 1; t_gas := 1; t_nonce := nonce; t_payload := PUnstake 0%N true; t_hash := 100%N; t_sigok := true;
  t_evm := None |}.
Definition ex_stake (a : addr) (amt nonce : Z) (h : hash) : tx := {|
  t_type := TRX_STAKING; t_from := a; t_to := a; t_from_ok := true; t_to_ok := true; t_amount := amt;
  t_price := 1; t_gas := 1; t_nonce := nonce; t_payload := PNone; t_hash := h; t_sigok := true; t_evm := None |}.

Lemma ex_genesis_nodup : NoDup (gen_validators ex_genesis).*1.
Proof. cbn. apply NoDup_cons. split; [rewrite elem_of_list_singleton; discriminate | apply NoDup_singleton]. Qed.

(* block 2: account 3 stakes 5 units on itself; block 3: validator 1 unstakes *)
Definition good_blocks : blocks :=
  [(ex_hd 1, []); (ex_hd 2, [ex_stake 3%N (5 * amountPerPower) 0 77%N]); (ex_hd 3, [ex_unstake 1%N 0]);
   (ex_hd 4, []); (ex_hd 5, [])].

Example val_updates_wellformed_ex :
  let old := [(3%N, 5); (1%N, 10); (2%N, 20)] in let new := [(2%N, 25); (4%N, 7); (3%N, 5)] in
  val_updates 7 (sort_addr old) (sort_addr new) = [(1%N, 0); (2%N, 25); (4%N, 7)] ∧
  ValSet.tm_apply_updates (sort_addr old) (val_updates 7 (sort_addr old) (sort_addr new)) = Some (sort_addr new).
Proof.
  intros old new. split; [vm_compute; reflexivity|].
  apply val_updates_wellformed.
  - apply NoDup_ListNoDup, ValSet.Examples.nodupb_sound. reflexivity.
  - apply NoDup_ListNoDup, ValSet.Examples.nodupb_sound. reflexivity.
  - simpl. lia.
  - intros a p H. apply elem_of_list_In in H. simpl in H.
    destruct H as [[= <- <-]|[[= <- <-]|[[= <- <-]|[]]]]; lia.
Qed.

Example C10_history_ex :
  ∃ sf upss,
    run_blocks (init_chain ex_genesis) good_blocks = Some (sf, upss) ∧
    Forall sel_positive (block_starts (init_chain ex_genesis) good_blocks) ∧
    upss = [[]; [(1%N, 10); (2%N, 20)]; [(3%N, 5)]; [(1%N, 0)]; []] ∧
    lastvals sf = [(2%N, 20); (3%N, 5)] ∧
    ValSet.tm_run [] upss = Some (sort_addr (lastvals sf)).
Proof.
  destruct (run_view_some (run_checked (init_chain ex_genesis) good_blocks) (λ sf us, (us, lastvals sf))
              ([[]; [(1%N, 10); (2%N, 20)]; [(3%N, 5)]; [(1%N, 0)]; []], [(2%N, 20); (3%N, 5)]))
    as (sf & us & Hc & [= Hu Hv]); [vm_compute; reflexivity|].
  destruct (run_checked_ok _ _ _ Hc) as [Hr Hp].
  exists sf, us. split; [exact Hr|]. split; [exact Hp|]. split; [exact Hu|]. split; [exact Hv|].
  apply (C10_history _ _ _ _ Hr Hp).
Qed.

(* the hypotheses of the per-block theorem hold at every block of that run, e.g. at block 4, whose
   EndBlock returns the removal of validator 1 *)
Example C10_block_ex :
  let s := run_state (init_chain ex_genesis) (take 3 good_blocks) in
  boundary_ok s ∧ sel_positive s ∧
  lastvals s = [(2%N, 20); (1%N, 10); (3%N, 5)] ∧
  (snd <$> do_block s (ex_hd 4) []) = Some [(1%N, 0)] ∧
  ((λ x : state * list (addr * Z), lastvals x.1) <$> do_block s (ex_hd 4) []) = Some [(2%N, 20); (3%N, 5)].
Proof.
  cbv zeta.
  destruct (run_view_some (run_checked (init_chain ex_genesis) (take 3 good_blocks))
              (λ sf _, let r := do_block sf (ex_hd 4) [] in
                 (sel_positiveb sf, lastvals sf, snd <$> r, (λ x : state * list (addr * Z), lastvals x.1) <$> r))
              (true, [(2%N, 20); (1%N, 10); (3%N, 5)], Some [(1%N, 0)], Some [(2%N, 20); (3%N, 5)]))
    as (sf & us & Hc & [= H1 H2 H3 H4]); [vm_compute; reflexivity|].
  destruct (run_checked_ok _ _ _ Hc) as [Hr Hp]. rewrite (proj1 (run_proj_eq _ _ _ _ Hr)).
  destruct (history_from _ _ _ _ (init_chain_boundary ex_genesis) Hr Hp) as (Hb & _).
  split; [exact Hb|]. split; [apply sel_positiveb_ok, H1|]. auto.
Qed.

(* the selection theorems apply to the committed states of that run: version 2 holds the three
   delegatees 1, 2, 3, ranked 2 (20), 1 (10), 3 (5) *)
Example selection_spec_ex :
  let sf := run_state (init_chain ex_genesis) good_blocks in
  ∃ v2, committed sf !! 1%nat = Some v2 ∧ dels_key_ok v2 ∧ 0 ≤ g_maxValidatorCnt (lparams v2) ∧
        sel_vals (lparams v2) v2 = [(2%N, 20); (1%N, 10); (3%N, 5)].
Proof.
  cbv zeta.
  destruct (run_view_some (run_checked (init_chain ex_genesis) good_blocks)
              (λ sf _, (λ v, (g_maxValidatorCnt (lparams v), sel_vals (lparams v) v)) <$> committed sf !! 1%nat)
              (Some (5, [(2%N, 20); (1%N, 10); (3%N, 5)])))
    as (sf & us & Hc & Hv); [vm_compute; reflexivity|].
  destruct (run_checked_ok _ _ _ Hc) as [Hr Hp]. rewrite (proj1 (run_proj_eq _ _ _ _ Hr)).
  destruct (history_from _ _ _ _ (init_chain_boundary ex_genesis) Hr Hp) as (Hb & _).
  destruct (committed sf !! 1%nat) as [v2|] eqn:E; [|discriminate Hv]. injection Hv as Hm Hs.
  exists v2. split; [reflexivity|]. split; [eapply (bo_keys_comm sf Hb), elem_of_list_lookup_2, E|].
  split; [rewrite Hm; lia | exact Hs].
Qed.

(* the genesis form of the history theorem applies to that run: the selection of block 2 is the
   genesis set *)
Example C10_history_genesis_ex :
  fold_left ValSet.apply_updates (run_updates (init_chain ex_genesis) good_blocks) (sort_addr (gen_validators ex_genesis))
  = sort_addr (lastvals (run_state (init_chain ex_genesis) good_blocks)) ∧
  sort_addr (lastvals (run_state (init_chain ex_genesis) good_blocks)) = [(2%N, 20); (3%N, 5)].
Proof.
  destruct (run_view_some (run_checked (init_chain ex_genesis) good_blocks) (λ sf _, sort_addr (lastvals sf))
              [(2%N, 20); (3%N, 5)]) as (sf & us & Hc & Hv); [vm_compute; reflexivity|].
  destruct (run_view_some (run_blocks (init_chain ex_genesis) (take 2 good_blocks)) (λ s2 _, (lastvals s2).*1)
              [2%N; 1%N]) as (s2 & u12 & Hr2 & Hl); [vm_compute; reflexivity|].
  destruct (run_checked_ok _ _ _ Hc) as [Hr Hp]. destruct (run_proj_eq _ _ _ _ Hr) as [-> ->].
  split; [|exact Hv].
  eapply (C10_history_genesis ex_genesis _ _ _ _ _ _ _ ex_genesis_nodup Hr2); [|exact Hr|exact Hp].
  intros a. rewrite Hl. cbn. rewrite !elem_of_cons. tauto.
Qed.

(* REFUTATION of the property as worded ("applying the updates, in order, to the genesis validator
   set always yields exactly the selection"): genesis validator 1 unstakes its genesis stake in
   block 1.  Block 1 announces nothing, block 2 announces the selection {2}, block 3 nothing: the
   consensus engine, which started from the genesis set {1, 2}, is never told to remove 1, although
   every block answered Ok and every update list is well-formed.  (Go: StakeCtrler.lastValidators
   starts empty and InitLedger does not fill it; validatorUpdates diffs against it.) *)
Definition leaver_blocks : blocks := [(ex_hd 1, [ex_unstake 1%N 0]); (ex_hd 2, []); (ex_hd 3, [])].

Theorem C10_genesis_leaver_refuted :
  ∃ g bs sf upss,
    NoDup (gen_validators g).*1 ∧
    run_blocks (init_chain g) bs = Some (sf, upss) ∧
    Forall sel_positive (block_starts (init_chain g) bs) ∧
    upss = [[]; [(2%N, 20)]; []] ∧
    sort_addr (lastvals sf) = [(2%N, 20)] ∧
    fold_left ValSet.apply_updates upss (sort_addr (gen_validators g)) = [(1%N, 10); (2%N, 20)] ∧
    fold_left ValSet.apply_updates upss (sort_addr (gen_validators g)) ≠ sort_addr (lastvals sf).
Proof.
  destruct (run_view_some (run_checked (init_chain ex_genesis) leaver_blocks)
              (λ sf us, (us, sort_addr (lastvals sf),
                         fold_left ValSet.apply_updates us (sort_addr (gen_validators ex_genesis))))
              ([[]; [(2%N, 20)]; []], [(2%N, 20)], [(1%N, 10); (2%N, 20)]))
    as (sf & us & Hc & [= Hu Hs Hf]); [vm_compute; reflexivity|].
  destruct (run_checked_ok _ _ _ Hc) as [Hr Hp].
  exists ex_genesis, leaver_blocks, sf, us.
  split; [exact ex_genesis_nodup|]. split; [exact Hr|]. split; [exact Hp|].
  split; [exact Hu|]. split; [exact Hs|]. split; [exact Hf|].
  intros E. discriminate (eq_trans (eq_sym Hf) (eq_trans E Hs)).
Qed.
Print Assumptions C10_genesis_leaver_refuted.

(* ================================================================== 7. the key discipline for arbitrary operation sequences *)
Definition keys_ok (s : state) : Prop := dels_key_ok (work s) ∧ ∀ l, l ∈ committed s → dels_key_ok l.

(* every delegatee is stored under its own address, in the working ledgers and in every committed
   version, after any sequence of operations whatsoever: part of the bookkeeping invariant of
   InvStake.v *)
Theorem dels_key_ok_reachable g ops : keys_ok (srun (init_chain g) ops).
Proof.
  assert (Hk : ∀ l, InvStake.dels_ok l → dels_key_ok l) by (intros l H a d Hd; apply (H a d Hd)).
  destruct (InvStake.dels_ok_reachable g ops) as [Hw Hc]. rewrite Forall_forall in Hc.
  split; [apply Hk, Hw | intros l Hl; apply Hk, Hc, Hl].
Qed.
Print Assumptions dels_key_ok_reachable.

(* ================================================================== 8. the positivity hypothesis *)
Lemma block_starts_boundary bs : ∀ s sf upss,
  boundary_ok s → run_blocks s bs = Some (sf, upss) → Forall boundary_ok (block_starts s bs).
Proof.
  induction bs as [|b r IH]; intros s sf upss Hb; cbn [run_blocks block_starts]; [constructor|].
  destruct (do_block s b.1 b.2) as [[s' u]|] eqn:Ed; [|discriminate].
  destruct (run_blocks s' r) as [[sf' us']|] eqn:Er; [|discriminate]. intros _.
  destruct (do_block_srun _ _ _ _ _ Ed) as [-> _].
  destruct (do_block_inv _ _ _ _ _ Hb Ed) as (Hb' & _).
  constructor; [exact Hb | eapply IH; eassumption].
Qed.

(* C10_history under the hypotheses in the form the other invariants deliver them: at the start of
   every block the minimum validator stake is worth at least one unit of power (true of
   [params_ok] parameter sets) and the committed delegatees satisfy 0 <= self <= total (C11) *)
Corollary C10_history_totals g bs sf upss :
  run_blocks (init_chain g) bs = Some (sf, upss) →
  Forall (λ s, 1 ≤ min_power (gparams s) ∧ totals_ok (base_of s)) (block_starts (init_chain g) bs) →
  lastvals sf = announced sf ∧
  ValSet.tm_run [] upss = Some (sort_addr (lastvals sf)) ∧
  fold_left ValSet.apply_updates upss [] = sort_addr (lastvals sf).
Proof.
  intros Hr Hh.
  pose proof (block_starts_boundary bs _ _ _ (init_chain_boundary g) Hr) as Hb.
  assert (Hp : Forall sel_positive (block_starts (init_chain g) bs)).
  { rewrite Forall_forall in Hh, Hb |- *. intros s Hs. destruct (Hh s Hs) as [H1 H2].
    apply sel_positive_of_totals; auto. }
  destruct (C10_history g bs sf upss Hr Hp) as (_ & _ & H1 & H2 & H3). auto.
Qed.
Print Assumptions C10_history_totals.

(* REFUTATION of well-formedness without [sel_positive]: with a minimum validator stake below one
   unit of power (here 0) a delegatee whose stakes were all slashed away (stakes that would lose
   less than one unit are removed, the emptied delegatee stays in the ledger with total power 0)
   is still "eligible"; EndBlock announces it with power 0, which the consensus engine reads as the
   removal of a validator it does not have, and rejects. *)
Definition zp_params : params := {|
  g_version := 1; g_maxValidatorCnt := 5; g_minValidatorStake := 0; g_minDelegatorStake := 0;
  g_rewardPerPower := 0; g_lazyRewardBlocks := 2; g_lazyApplyingBlocks := 1; g_gasPrice := 1; g_minTrxGas := 1;
  g_maxTrxGas := 1000; g_maxBlockGas := 100000; g_minVotingPeriodBlocks := 1; g_maxVotingPeriodBlocks := 10;
  g_minSelfStakeRatio := 0; g_maxUpdatableStakeRatio := 100; g_maxIndividualStakeRatio := 100; g_slashRatio := 50;
  g_signedBlocksWindow := 100; g_minSignedBlocks := 1 |}.
Definition zp_genesis : genesis :=
  {| gen_params := zp_params; gen_holders := []; gen_validators := [(1%N, 1); (2%N, 20)] |}.
(* block 1 carries evidence against validator 1 *)
Definition zp_blocks : blocks :=
  [({| h_height := 1; h_proposer := None; h_votes := []; h_evidence := [1%N] |}, []); (ex_hd 2, [])].

Theorem C10_zero_power_refuted :
  ∃ g bs sf upss,
    run_blocks (init_chain g) bs = Some (sf, upss) ∧
    upss = [[]; [(1%N, 0); (2%N, 20)]] ∧
    lastvals sf = [(2%N, 20); (1%N, 0)] ∧
    ValSet.tm_run [] upss = None ∧
    fold_left ValSet.apply_updates upss [] ≠ sort_addr (lastvals sf).
Proof.
  destruct (run_view_some (run_blocks (init_chain zp_genesis) zp_blocks)
              (λ sf us, (us, lastvals sf, ValSet.tm_run [] us,
                         fold_left ValSet.apply_updates us [], sort_addr (lastvals sf)))
              ([[]; [(1%N, 0); (2%N, 20)]], [(2%N, 20); (1%N, 0)], None, [(2%N, 20)], [(1%N, 0); (2%N, 20)]))
    as (sf & us & Hr & [= Hu Hv Ht Hf Hs]); [vm_compute; reflexivity|].
  exists zp_genesis, zp_blocks, sf, us.
  split; [exact Hr|]. split; [exact Hu|]. split; [exact Hv|]. split; [exact Ht|].
  intros E. discriminate (eq_trans (eq_sym Hf) (eq_trans E Hs)).
Qed.
Print Assumptions C10_zero_power_refuted.
