(* Property C02: conservation of value.
   supply = all balances + 10^18 * (bonded power + unbonding power).  Per-operation accounting
   (deliver, begin_block, end_block, commit), the history theorems [C02_history] and
   [C02_history_evm], and the refutation by the genesis-hash collision [C02_collision_refuted]. *)
From Rigo Require Import Base.
From stdpp Require Import gmap sorting.
From Rigo Require Import Spec SpecProps InvFee SpecFacts.
From Rigo Require InvFail InvStake.
Local Open Scope Z_scope.

Local Opaque two256 two255 two64 two63.
Local Arguments Z.pow : simpl never.

(* ================================================================== sums over maps *)
Lemma sumZ_with_le {A} (f g : A -> Z) l : (forall x, x ∈ l -> f x <= g x) -> sumZ_with f l <= sumZ_with g l.
Proof.
  induction l as [|x l IH]; intros H; simpl; [lia|].
  assert (f x <= g x) by (apply H, elem_of_cons; auto).
  assert (sumZ_with f l <= sumZ_with g l) by (apply IH; intros y Hy; apply H, elem_of_cons; auto). lia.
Qed.

Lemma sumZ_with_scale {A} (c : Z) (f : A -> Z) l : sumZ_with (fun x => c * f x) l = c * sumZ_with f l.
Proof. induction l as [|x l IH]; simpl; [lia|]. rewrite IH. lia. Qed.

Lemma sumZ_with_sub {A} (f g : A -> Z) l : sumZ_with (fun x => f x - g x) l = sumZ_with f l - sumZ_with g l.
Proof. induction l as [|x l IH]; simpl; [lia|]. rewrite IH. lia. Qed.

Lemma sumZ_with_fmap {A B} (f : B -> Z) (g : A -> B) l : sumZ_with f (g <$> l) = sumZ_with (fun x => f (g x)) l.
Proof. induction l as [|x l IH]; [reflexivity|]. rewrite fmap_cons. simpl. rewrite IH. reflexivity. Qed.

Lemma sumZ_fmap {A} (f : A -> Z) l : sumZ (f <$> l) = sumZ_with f l.
Proof. induction l as [|x l IH]; [reflexivity|]. rewrite fmap_cons. simpl. rewrite IH. reflexivity. Qed.

Definition map_sum {A} (f : A -> Z) (m : gmap N A) : Z := sumZ_with (fun kv : N * A => f kv.2) (map_to_list m).

Lemma map_sum_empty {A} (f : A -> Z) : map_sum f ∅ = 0.
Proof. unfold map_sum. rewrite map_to_list_empty. reflexivity. Qed.

Lemma map_sum_insert_None {A} (f : A -> Z) m i x : m !! i = None -> map_sum f (<[i := x]> m) = map_sum f m + f x.
Proof.
  intros H. unfold map_sum. rewrite (sumZ_with_perm _ _ _ (map_to_list_insert m i x H)). simpl. lia.
Qed.

Lemma map_sum_delete_Some {A} (f : A -> Z) m i x : m !! i = Some x -> map_sum f (delete i m) = map_sum f m - f x.
Proof.
  intros H. unfold map_sum. rewrite <- (sumZ_with_perm _ _ _ (map_to_list_delete m i x H)). simpl. lia.
Qed.

Lemma map_sum_delete {A} (f : A -> Z) m i : map_sum f (delete i m) = map_sum f m - from_option f 0 (m !! i).
Proof.
  destruct (m !! i) as [x|] eqn:E; simpl.
  - apply map_sum_delete_Some. exact E.
  - rewrite delete_notin by exact E. lia.
Qed.

Lemma map_sum_insert {A} (f : A -> Z) m i x :
  map_sum f (<[i := x]> m) = map_sum f m - from_option f 0 (m !! i) + f x.
Proof.
  rewrite <- insert_delete_insert. rewrite map_sum_insert_None by apply lookup_delete.
  rewrite map_sum_delete. reflexivity.
Qed.

Lemma map_sum_insert_Some {A} (f : A -> Z) m i x y :
  m !! i = Some y -> map_sum f (<[i := x]> m) = map_sum f m - f y + f x.
Proof. intros H. rewrite map_sum_insert, H. reflexivity. Qed.

Lemma map_sum_nonneg {A} (f : A -> Z) m : (forall i x, m !! i = Some x -> 0 <= f x) -> 0 <= map_sum f m.
Proof.
  intros H. apply sumZ_with_nonneg. intros [i x] Hin. apply elem_of_map_to_list in Hin. apply (H i x Hin).
Qed.

Lemma map_sum_subseteq {A} (f : A -> Z) (m1 m2 : gmap N A) :
  m1 ⊆ m2 -> (forall k x, m2 !! k = Some x -> 0 <= f x) -> map_sum f m1 <= map_sum f m2.
Proof.
  intros Hsub Hnn. unfold map_sum.
  destruct (submseteq_Permutation _ _ (map_to_list_submseteq _ _ Hsub)) as (k & Hk).
  rewrite (sumZ_with_perm _ _ _ Hk), sumZ_with_app.
  assert (0 <= sumZ_with (fun kv : N * A => f kv.2) k); [|lia].
  apply sumZ_with_nonneg. intros [i x] Hi. apply (Hnn i x), elem_of_map_to_list. rewrite Hk. apply elem_of_app. auto.
Qed.

Lemma sum_distinct_le_map_sum {A} (f : A -> Z) (ks : list N) : forall m : gmap N A,
  NoDup ks -> (forall k x, m !! k = Some x -> 0 <= f x) ->
  sumZ_with (fun k => from_option f 0 (m !! k)) ks <= map_sum f m.
Proof.
  induction ks as [|k ks IH]; intros m Hnd Hnn; cbn [sumZ_with foldr].
  - apply map_sum_nonneg. exact Hnn.
  - apply NoDup_cons in Hnd as (Hk & Hnd).
    assert (Hext : sumZ_with (fun k0 => from_option f 0 (m !! k0)) ks =
                   sumZ_with (fun k0 => from_option f 0 (delete k m !! k0)) ks).
    { apply sumZ_with_ext. intros k0 Hk0. rewrite lookup_delete_ne; [reflexivity|]. intros ->. contradiction. }
    fold (sumZ_with (fun k0 => from_option f 0 (m !! k0)) ks). rewrite Hext.
    assert (Hle : sumZ_with (fun k0 => from_option f 0 (delete k m !! k0)) ks <= map_sum f (delete k m)).
    { apply IH; [exact Hnd|]. intros j x Hj. apply lookup_delete_Some in Hj as (_ & Hj). apply (Hnn j x Hj). }
    rewrite map_sum_delete in Hle. lia.
Qed.

Lemma foldr_uncurry_sum {K A} (f : A -> Z) (r : list (K * A)) :
  foldr (uncurry (fun (_ : K) (a : A) (acc : Z) => f a + acc)) 0 r = sumZ_with (fun kv : K * A => f kv.2) r.
Proof. induction r as [|[k v] r IH]; simpl; [reflexivity|]. rewrite IH. reflexivity. Qed.

Lemma total_balance_map_sum l : total_balance l = map_sum a_bal (accts l).
Proof. unfold total_balance, map_sum, map_fold, compose. apply (foldr_uncurry_sum a_bal). Qed.

Lemma sum_power_concat {A} (g : A -> list stake) (r : list A) :
  sum_power (concat (g <$> r)) = sumZ_with (fun x => sum_power (g x)) r.
Proof. induction r as [|x r IH]; [reflexivity|]. rewrite fmap_cons. cbn [concat]. rewrite sum_power_app, IH. reflexivity. Qed.

Lemma sum_power_fmap {A} (g : A -> stake) (r : list A) :
  sum_power (g <$> r) = sumZ_with (fun x => s_power (g x)) r.
Proof. induction r as [|x r IH]; [reflexivity|]. rewrite fmap_cons, sum_power_cons, IH. reflexivity. Qed.

Lemma bonded_power_map_sum l : bonded_power l = map_sum (fun d => sum_power (d_stakes d)) (dels l).
Proof.
  unfold bonded_power, bonded_stakes, map_sum.
  apply (sum_power_concat (fun kv : addr * delegatee => d_stakes kv.2)).
Qed.

Lemma frozen_power_map_sum l : frozen_power l = map_sum s_power (frozen l).
Proof.
  unfold frozen_power, frozen_stakes, map_sum.
  apply (sum_power_fmap (fun kv : hash * stake => kv.2)).
Qed.

Lemma bal_of_from_option l a : bal_of l a = from_option a_bal 0 (accts l !! a).
Proof. unfold bal_of, acct_of. destruct (accts l !! a); reflexivity. Qed.

Lemma total_balance_set_acct l a x : total_balance (set_acct l a x) = total_balance l - bal_of l a + a_bal x.
Proof. rewrite !total_balance_map_sum, accts_set_acct, map_sum_insert, bal_of_from_option. reflexivity. Qed.

Lemma total_balance_same l l' : accts l' = accts l -> total_balance l' = total_balance l.
Proof. intros H. unfold total_balance. rewrite H. reflexivity. Qed.
Lemma bonded_power_same l l' : dels l' = dels l -> bonded_power l' = bonded_power l.
Proof. intros H. unfold bonded_power, bonded_stakes. rewrite H. reflexivity. Qed.
Lemma frozen_power_same l l' : frozen l' = frozen l -> frozen_power l' = frozen_power l.
Proof. intros H. unfold frozen_power, frozen_stakes. rewrite H. reflexivity. Qed.

Lemma supply_keeps f l l' : keeps f l l' -> f_accts f -> f_dels f -> f_frozen f -> supply l' = supply l.
Proof.
  intros K Ha Hd Hf. unfold supply.
  rewrite (total_balance_same _ _ (keeps_accts _ _ _ K Ha)), (bonded_power_same _ _ (keeps_dels _ _ _ K Hd)),
    (frozen_power_same _ _ (keeps_frozen _ _ _ K Hf)). reflexivity.
Qed.

Lemma total_balance_find_or_new l a : total_balance (find_or_new l a).1 = total_balance l.
Proof.
  unfold find_or_new. destruct (accts l !! a) as [x|] eqn:E; simpl; [reflexivity|].
  rewrite total_balance_set_acct, bal_of_from_option, E. simpl. lia.
Qed.

Lemma supply_find_or_new l a : supply (find_or_new l a).1 = supply l.
Proof.
  pose proof (find_or_new_keeps l a) as K. unfold supply.
  rewrite total_balance_find_or_new, (bonded_power_same _ _ (keeps_dels _ _ _ K I)),
    (frozen_power_same _ _ (keeps_frozen _ _ _ K I)). reflexivity.
Qed.

Lemma bal_le_total l a : bal_range l -> bal_of l a <= total_balance l.
Proof.
  intros Hr. rewrite total_balance_map_sum, bal_of_from_option.
  pose proof (sum_distinct_le_map_sum a_bal [a] (accts l) (NoDup_singleton a) (fun k x Hk => proj1 (Hr k x Hk))) as H.
  cbn [sumZ_with foldr] in H. unfold addr in *. lia.
Qed.

Lemma bal2_le_total l a b : bal_range l -> a <> b -> bal_of l a + bal_of l b <= total_balance l.
Proof.
  intros Hr Hne. rewrite total_balance_map_sum, !bal_of_from_option.
  assert (Hnd : NoDup [a; b]) by (apply NoDup_cons; split; [set_solver|apply NoDup_singleton]).
  pose proof (sum_distinct_le_map_sum a_bal [a; b] (accts l) Hnd (fun k x Hk => proj1 (Hr k x Hk))) as H.
  cbn [sumZ_with foldr] in H. unfold addr in *. lia.
Qed.

(* ================================================================== stake lists *)
Lemma find_stake_Some h l s0 :
  find_stake h l = Some s0 -> s_hash s0 = h /\ l ≡ₚ s0 :: remove_stake h l.
Proof.
  induction l as [|s l IH]; simpl; [discriminate|].
  destruct (s_hash s =? h)%N eqn:E.
  - intros [= <-]. apply N.eqb_eq in E. split; [exact E|reflexivity].
  - intros H. destruct (IH H) as (Hh & Hp). split; [exact Hh|].
    rewrite Hp at 1. apply perm_swap.
Qed.

Lemma del_stake_found d h s0 :
  find_stake h (d_stakes d) = Some s0 ->
  d_stakes (del_stake d h) = remove_stake h (d_stakes d) /\ d_total (del_stake d h) = d_total d - s_power s0.
Proof. intros H. unfold del_stake. rewrite H. simpl. auto. Qed.

Lemma freeze_all_cons fr refund s ss :
  freeze_all fr refund (s :: ss) = freeze_all (<[s_hash s := with_refund refund s]> fr) refund ss.
Proof. reflexivity. Qed.

Lemma freeze_all_perm refund ss : forall fr,
  NoDup (s_hash <$> ss) -> (forall s, s ∈ ss -> fr !! s_hash s = None) ->
  map_to_list (freeze_all fr refund ss) ≡ₚ ((fun s => (s_hash s, with_refund refund s)) <$> ss) ++ map_to_list fr.
Proof.
  induction ss as [|s ss IH]; intros fr Hnd Hfresh; [reflexivity|].
  rewrite freeze_all_cons, fmap_cons in *. apply NoDup_cons in Hnd as (Hnotin & Hnd).
  rewrite IH; [|exact Hnd|].
  - rewrite map_to_list_insert by (apply Hfresh; left). cbn [app]. symmetry. apply Permutation_middle.
  - intros s' Hs'. rewrite lookup_insert_ne by (intros Heq; apply Hnotin; rewrite Heq; apply elem_of_list_fmap_1, Hs').
    apply Hfresh. right. exact Hs'.
Qed.

Lemma freeze_all_sum refund ss fr :
  NoDup (s_hash <$> ss) -> (forall s, s ∈ ss -> fr !! s_hash s = None) ->
  map_sum s_power (freeze_all fr refund ss) = map_sum s_power fr + sum_power ss.
Proof.
  intros Hnd Hfresh. unfold map_sum.
  rewrite (sumZ_with_perm _ _ _ (freeze_all_perm refund ss fr Hnd Hfresh)), sumZ_with_app, sumZ_with_fmap.
  apply Z.add_comm.
Qed.

Lemma freeze_all_lookup_other refund ss : forall fr k,
  k ∉ (s_hash <$> ss) -> freeze_all fr refund ss !! k = fr !! k.
Proof.
  induction ss as [|s ss IH]; intros fr k Hk; [reflexivity|].
  rewrite freeze_all_cons, fmap_cons in *. apply not_elem_of_cons in Hk as (Hne & Hk).
  rewrite IH by exact Hk. apply lookup_insert_ne. congruence.
Qed.

(* ================================================================== what hashes_unique gives *)
Definition totals_ok (l : ledgers) : Prop :=
  forall a d, dels l !! a = Some d -> d_total d = sum_power (d_stakes d).

Lemma bonded_stakes_delete l a d :
  dels l !! a = Some d -> bonded_stakes l ≡ₚ d_stakes d ++ bonded_stakes (set_dels l (delete a (dels l))).
Proof.
  intros H. unfold bonded_stakes. rewrite dels_set_dels.
  rewrite <- (map_to_list_delete _ _ _ H). rewrite fmap_cons. reflexivity.
Qed.

Lemma hashes_unique_delegatee l a d :
  hashes_unique l -> dels l !! a = Some d ->
  NoDup (s_hash <$> d_stakes d) /\ (forall s, s ∈ d_stakes d -> frozen l !! s_hash s = None).
Proof.
  intros (Hnd & Hkey) Hd.
  rewrite (bonded_stakes_delete _ _ _ Hd) in Hnd. rewrite <- app_assoc, fmap_app in Hnd.
  apply NoDup_app in Hnd as (Hnd1 & Hdisj & _). split; [exact Hnd1|].
  intros s Hs. destruct (frozen l !! s_hash s) as [s1|] eqn:E; [|reflexivity]. exfalso.
  apply (Hdisj (s_hash s)); [apply elem_of_list_fmap; exists s; auto|].
  rewrite fmap_app. apply elem_of_app. right.
  apply elem_of_list_fmap. exists s1. split; [symmetry; apply (Hkey _ _ E)|].
  unfold frozen_stakes. apply elem_of_list_fmap. exists (s_hash s, s1). split; [reflexivity|].
  apply elem_of_map_to_list. exact E.
Qed.

Lemma hashes_unique_same l l' : dels l' = dels l -> frozen l' = frozen l -> hashes_unique l -> hashes_unique l'.
Proof. intros Hd Hf. unfold hashes_unique, bonded_stakes, frozen_stakes. rewrite Hd, Hf. auto. Qed.

Lemma totals_ok_same l l' : dels l' = dels l -> totals_ok l -> totals_ok l'.
Proof. intros Hd. unfold totals_ok. rewrite Hd. auto. Qed.

(* ================================================================== deliver *)
Lemma amount_to_power_exact a p :
  0 <= a < two64 * amountPerPower -> amount_to_power a = Some p -> a mod amountPerPower = 0 ->
  0 <= p < two63 /\ a = p * amountPerPower.
Proof.
  intros Ha Hp Hm. unfold amount_to_power in Hp.
  assert (Happ : 0 < amountPerPower) by (unfold amountPerPower; lia).
  assert (Hq : 0 <= a / amountPerPower < two64).
  { split; [apply Z.div_pos; lia|]. apply Z.div_lt_upper_bound; lia. }
  rewrite (Z.mod_small _ _ Hq) in Hp.
  pose proof two64_double as H64. pose proof two64_pos.
  destruct (Z_lt_le_dec (a / amountPerPower) two63) as [Hlt|Hge].
  - rewrite wrap64_small in Hp by (unfold in64; lia).
    destruct (a / amountPerPower <? 0); [discriminate|]. injection Hp as <-.
    split; [lia|]. pose proof (Z.div_mod a amountPerPower ltac:(lia)). lia.
  - exfalso. unfold wrap64 in Hp.
    replace (a / amountPerPower + two63) with ((a / amountPerPower - two63) + 1 * two64) in Hp by lia.
    rewrite Z.mod_add, Z.mod_small in Hp by lia.
    destruct (a / amountPerPower - two63 - two63 <? 0) eqn:E; [discriminate|]. apply Z.ltb_ge in E. lia.
Qed.

Lemma stake_validate_staking_inv s1 t lim' :
  t_type t = TRX_STAKING -> stake_validate s1 t = Ok lim' ->
  t_amount t mod amountPerPower = 0 /\ exists txp, amount_to_power (t_amount t) = Some txp.
Proof.
  intros Hty. unfold stake_validate. rewrite Hty. change (TRX_STAKING =? TRX_STAKING) with true. cbv iota zeta.
  destruct (t_amount t / amountPerPower <=? 0); [discriminate|].
  destruct (t_amount t mod amountPerPower =? 0) eqn:Er; [|discriminate]. apply Z.eqb_eq in Er. cbn [negb].
  destruct (amount_to_power (t_amount t)) as [txp|]; [|discriminate].
  intros _. split; [exact Er|]. exists txp. reflexivity.
Qed.

Lemma validated_of_staking s1 r t lim' :
  t_type t = TRX_STAKING -> validated_of s1 r t = Ok lim' -> stake_validate s1 t = Ok lim'.
Proof. intros Hty. unfold validated_of. rewrite Hty. cbn. auto. Qed.

Lemma validated_staking_exact s1 r t lim' :
  t_type t = TRX_STAKING -> validated_of s1 r t = Ok lim' -> 0 <= t_amount t < two64 * amountPerPower ->
  t_amount t = power_of (t_amount t) * amountPerPower.
Proof.
  intros Hty Hv Ha. apply validated_of_staking in Hv; [|exact Hty].
  apply stake_validate_staking_inv in Hv as (Hmod & txp & Htxp); [|exact Hty].
  unfold power_of. rewrite Htxp. exact (proj2 (amount_to_power_exact _ _ Ha Htxp Hmod)).
Qed.

Definition withdrawn_of (t : tx) : Z :=
  if t_type t =? TRX_WITHDRAW then match t_payload t with PWithdraw req => req | _ => 0 end else 0.

Lemma supply_set_acct l a x : supply (set_acct l a x) = supply l - bal_of l a + a_bal x.
Proof. unfold supply. rewrite total_balance_set_acct. change (bonded_power (set_acct l a x)) with (bonded_power l).
  change (frozen_power (set_acct l a x)) with (frozen_power l). lia. Qed.

Lemma supply_set_rewards l m : supply (set_rewards l m) = supply l.   Proof. reflexivity. Qed.
Lemma supply_set_props l m : supply (set_props l m) = supply l.       Proof. reflexivity. Qed.
Lemma supply_set_fprops l m : supply (set_fprops l m) = supply l.     Proof. reflexivity. Qed.
Lemma supply_set_lparams l m : supply (set_lparams l m) = supply l.   Proof. reflexivity. Qed.

Lemma bonded_power_set_dels_insert l a d :
  bonded_power (set_dels l (<[a := d]> (dels l))) =
  bonded_power l - from_option (fun d0 => sum_power (d_stakes d0)) 0 (dels l !! a) + sum_power (d_stakes d).
Proof. rewrite !bonded_power_map_sum, dels_set_dels, map_sum_insert. reflexivity. Qed.

Lemma bonded_power_update l a d d' :
  dels l !! a = Some d ->
  bonded_power (set_dels l (<[a := d']> (dels l))) = bonded_power l - sum_power (d_stakes d) + sum_power (d_stakes d').
Proof.
  intros H. rewrite !bonded_power_map_sum, dels_set_dels.
  apply (map_sum_insert_Some (fun d0 => sum_power (d_stakes d0)) _ _ _ _ H).
Qed.

Lemma bonded_power_set_dels_delete l a :
  bonded_power (set_dels l (delete a (dels l))) =
  bonded_power l - from_option (fun d0 => sum_power (d_stakes d0)) 0 (dels l !! a).
Proof. rewrite !bonded_power_map_sum, dels_set_dels, map_sum_delete. reflexivity. Qed.

Lemma supply_parts l l' :
  total_balance l' = total_balance l -> bonded_power l' + frozen_power l' = bonded_power l + frozen_power l ->
  supply l' = supply l.
Proof. intros H1 H2. unfold supply. rewrite H1, H2. reflexivity. Qed.

(* unstaking: the delegatee's stakes split into those that move into the frozen map (the stake
   named by the transaction, and all the others when the self power drops to 0) and those that stay *)
Lemma stake_execute_unstaking_inv s2 l t l' :
  t_type t = TRX_UNSTAKING -> stake_execute s2 l t = Ok l' ->
  exists d s0 ss d2,
    dels l !! t_to t = Some d /\
    d_stakes d ≡ₚ (s0 :: ss) ++ d_stakes d2 /\ d_total d2 = d_total d - sum_power (s0 :: ss) /\
    l' = set_dels (set_frozen l (freeze_all (frozen l) (b_height (bctx s2) + g_lazyRewardBlocks (gparams s2)) (s0 :: ss)))
           (if d_total d2 =? 0 then delete (t_to t) (dels l) else <[t_to t := d2]> (dels l)).
Proof.
  intros Hty H. apply InvStake.stake_execute_cases in H as [(Hty' & _)|[(_ & d & hs & b & s0 & Ed & _ & Ef & _ & H)|(_ & Hty' & _)]];
    [rewrite Hty in Hty'; discriminate| |destruct (Hty' Hty)].
  unfold InvStake.unstake_result, InvStake.release_height in H. cbv zeta in H.
  destruct (find_stake_Some _ _ _ Ef) as (_ & Hperm). destruct (del_stake_found _ _ _ Ef) as (Hst & Htot).
  exists d, s0. destruct (d_self (del_stake d hs) =? 0).
  - exists (d_stakes (del_stake d hs)), (del_all_stakes (del_stake d hs)).1.
    unfold del_all_stakes in *. cbn [fst d_stakes d_total] in *. split; [exact Ed|]. split; [|split; [|exact H]].
    + rewrite app_nil_r, Hst. exact Hperm.
    + rewrite sum_power_cons, Htot. lia.
  - exists [], (del_stake d hs). split; [exact Ed|]. split; [|split; [|exact H]].
    + rewrite Hst. exact Hperm.
    + rewrite Htot. unfold sum_power. simpl. lia.
Qed.

(* value is kept iff the keys are fresh: this is where the frozen MAP, keyed by hash, overwrites on
   collision *)
Lemma stake_execute_unstaking_supply s2 l t l' :
  t_type t = TRX_UNSTAKING -> stake_execute s2 l t = Ok l' ->
  hashes_unique l -> totals_ok l ->
  accts l' = accts l /\ bonded_power l' + frozen_power l' = bonded_power l + frozen_power l.
Proof.
  intros Hty He Hu Htot.
  destruct (stake_execute_unstaking_inv _ _ _ _ Hty He) as (d & s0 & ss & d2 & Ed & Hperm & Ht2 & ->).
  split; [reflexivity|].
  destruct (hashes_unique_delegatee _ _ _ Hu Ed) as (Hnd & Hfresh).
  rewrite Hperm, fmap_app in Hnd. apply NoDup_app in Hnd as (Hnd & _).
  pose proof (sum_power_perm _ _ Hperm) as Hsum. rewrite sum_power_app in Hsum.
  pose proof (Htot _ _ Ed) as Htd.
  rewrite !bonded_power_map_sum, !frozen_power_map_sum. cbn [dels frozen set_dels set_frozen].
  rewrite freeze_all_sum; [|exact Hnd|intros s Hs; apply Hfresh; rewrite Hperm; apply elem_of_app; auto].
  destruct (d_total d2 =? 0) eqn:E0.
  - apply Z.eqb_eq in E0. rewrite (map_sum_delete_Some _ _ _ _ Ed). lia.
  - rewrite (map_sum_insert_Some _ _ _ _ _ Ed). lia.
Qed.

Lemma acct_execute_transfer_supply l t l' :
  t_type t = TRX_TRANSFER -> acct_execute l t = Ok l' -> 0 <= t_amount t < two256 -> bal_range l ->
  room_for l t (t_to t) -> supply l' = supply l.
Proof.
  intros Hty He Hamt Hr Hroom. pose proof two256_pos as H256.
  apply acct_execute_transfer_inv in He as (sender & receiver & sender' & recv' & Hs & Hrc & Hsub & Hadd & ->);
    [|exact Hty].
  pose proof (Hr _ _ Hs) as Hsr. pose proof (Hr _ _ Hrc) as Hrr.
  apply sub_balance_Some in Hsub as (Hle & Hb' & _); [|lia|exact Hsr].
  apply add_balance_Some in Hadd as (_ & Hrb & _); [|lia].
  rewrite !supply_set_acct, bal_of_set_acct, (bal_of_lookup _ _ _ Hs), Hrb.
  destruct (t_from t =? t_to t)%N eqn:Eft.
  - (* to oneself: the credit goes to the account just debited *)
    apply N.eqb_eq in Eft. rewrite <- Eft, decide_True by reflexivity.
    rewrite Hb', add256_small by lia. lia.
  - apply N.eqb_neq in Eft. rewrite decide_False by exact Eft.
    destruct Hroom as [(_ & Hx)|Hroom]; [congruence|].
    unfold tx_in in Hroom. rewrite Hty in Hroom. cbn in Hroom. rewrite decide_True in Hroom by reflexivity.
    rewrite (bal_of_lookup _ _ _ Hrc) in *. rewrite add256_small by lia. lia.
Qed.

Lemma stake_execute_staking_supply s2 l t l' :
  t_type t = TRX_STAKING -> stake_execute s2 l t = Ok l' -> 0 <= t_amount t < two256 -> bal_range l ->
  t_amount t = power_of (t_amount t) * amountPerPower -> supply l' = supply l.
Proof.
  intros Hty He Hamt Hr Hexact.
  apply stake_execute_staking_inv in He as (d & sender & sender' & Hd & Hs & Hsub & ->); [|exact Hty].
  apply sub_balance_Some in Hsub as (Hle & Hb' & _); [|lia|exact (Hr _ _ Hs)].
  unfold supply.
  rewrite (total_balance_same (set_acct l (t_from t) sender') (set_dels _ _)) by reflexivity.
  rewrite total_balance_set_acct, (bal_of_lookup _ _ _ Hs), Hb'.
  change (frozen_power (set_dels (set_acct l (t_from t) sender') ?m)) with (frozen_power l).
  rewrite (bonded_power_set_dels_insert (set_acct l (t_from t) sender')).
  change (bonded_power (set_acct l ?a ?x)) with (bonded_power l). change (dels (set_acct l ?a ?x)) with (dels l).
  unfold add_stake. cbn [d_stakes]. rewrite sum_power_app, sum_power_cons. cbn [stake_of_tx s_power].
  change (sum_power []) with 0.
  (* a new delegatee starts without stakes *)
  assert (Hold : from_option (fun d0 => sum_power (d_stakes d0)) 0 (dels l !! t_to t) = sum_power (d_stakes d)).
  { destruct Hd as [Hd|(Hd & _ & ->)]; rewrite Hd; reflexivity. }
  rewrite Hold. lia.
Qed.

Lemma stake_execute_withdraw_supply s2 l t l' :
  t_type t = TRX_WITHDRAW -> stake_execute s2 l t = Ok l' -> payload_wf t -> bal_range l ->
  room_for l t (t_from t) -> supply l' = supply l + withdrawn_of t.
Proof.
  intros Hty He Hpl Hr Hroom. pose proof two256_pos as H256.
  apply stake_execute_withdraw_inv in He as (req & r0 & r' & x & x' & Hpay & _ & Hx & Hadd & ->); [|exact Hty].
  specialize (Hpl req Hty Hpay).
  apply add_balance_Some in Hadd as (_ & Hb' & _); [|lia].
  destruct Hroom as [(Hx1 & _)|Hroom]; [rewrite Hty in Hx1; discriminate|].
  unfold tx_in in Hroom. unfold withdrawn_of. rewrite Hty, Hpay in *. cbn in Hroom |- *.
  rewrite decide_True in Hroom by reflexivity.
  rewrite supply_set_acct, supply_set_rewards, bal_of_set_rewards, Hb', add256_small;
    pose proof (bal_range_bal_of _ (t_from t) Hr); rewrite (bal_of_lookup _ _ _ Hx) in *; lia.
Qed.

Lemma exec_native_supply s1 s2 t l' lim' r :
  validated_of s1 r t = Ok lim' -> evm_path_of t r = false ->
  exec_native s2 t = Ok l' -> tx_wf t -> payload_wf t -> bal_range (work s2) ->
  room_for (work s2) t (t_to t) -> room_for (work s2) t (t_from t) ->
  (t_type t = TRX_STAKING -> t_amount t < two64 * amountPerPower) ->
  (t_type t = TRX_UNSTAKING -> hashes_unique (work s2) /\ totals_ok (work s2)) ->
  supply l' = supply (work s2) + withdrawn_of t.
Proof.
  intros Hv Hp He Hwf Hpl Hr Hroomto Hroomfrom Hstk Hunstk. pose proof Hwf as (Hamt & _).
  assert (Hw0 : t_type t <> TRX_WITHDRAW -> supply l' = supply (work s2) -> supply l' = supply (work s2) + withdrawn_of t).
  { intros Hty ->. unfold withdrawn_of. rewrite (proj2 (Z.eqb_neq _ _) Hty). lia. }
  destruct (validated_native_types _ _ _ _ Hv Hp) as [Hty|[Hty|[Hty|[Hty|[Hty|[Hty|Hty]]]]]];
    try (apply Hw0; [rewrite Hty; discriminate|]).
  - rewrite exec_native_transfer in He by exact Hty.
    exact (acct_execute_transfer_supply _ _ _ Hty He Hamt Hr Hroomto).
  - rewrite exec_native_staking in He by exact Hty.
    apply (stake_execute_staking_supply _ _ _ _ Hty He Hamt Hr).
    exact (validated_staking_exact _ _ _ _ Hty Hv (conj (proj1 Hamt) (Hstk Hty))).
  - rewrite exec_native_unstaking in He by exact Hty. destruct (Hunstk Hty) as (Hu & Htot).
    destruct (stake_execute_unstaking_supply _ _ _ _ Hty He Hu Htot) as (Ha & Hbf).
    exact (supply_parts _ _ (total_balance_same _ _ Ha) Hbf).
  - rewrite exec_native_proposal in He by exact Hty. exact (supply_keeps _ _ _ (gov_execute_keeps _ _ _ _ He) I I I).
  - rewrite exec_native_voting in He by exact Hty. exact (supply_keeps _ _ _ (gov_execute_keeps _ _ _ _ He) I I I).
  - rewrite exec_native_setdoc in He by exact Hty.
    apply acct_execute_setdoc_inv in He as (sender & x & Hs & Hb & _ & _ & ->); [|exact Hty].
    rewrite supply_set_acct, (bal_of_lookup _ _ _ Hs). lia.
  - rewrite exec_native_withdraw in He by exact Hty.
    exact (stake_execute_withdraw_supply _ _ _ _ Hty He Hpl Hr Hroomfrom).
Qed.

Lemma deliver_ok_native_inv s t s' g :
  deliver s t = (s', Ok g) -> native s t ->
  exists lim' l' snd' snd'',
    let s2 := with_lim (pre_state s t) lim' in
    validated_of (pre_state s t) (acct_of (work s) (t_to t)) t = Ok lim' /\
    exec_native s2 t = Ok l' /\ accts l' !! t_from t = Some snd' /\ sub_balance snd' (fee_of t) = Some snd'' /\
    work s' = set_acct l' (t_from t) (add_nonce snd'').
Proof.
  intros Hd Hn. apply deliver_ok_inv in Hd as (sender & lim' & _ & _ & _ & Hv & Hd). cbv zeta in Hd.
  rewrite receiver_of_eq in Hv, Hd. unfold native in Hn. rewrite Hn in Hd.
  destruct Hd as (l' & snd' & snd'' & He & Hsn & Hsub & _ & ->). exists lim', l', snd', snd''. auto.
Qed.

Lemma deliver_ok_evm_inv s t s' g :
  deliver s t = (s', Ok g) -> ~ native s t ->
  evm_execute (find_or_new (work s) (t_to t)).1 t = Ok (work s', g).
Proof.
  intros Hd Hn. apply deliver_ok_inv in Hd as (sender & lim' & _ & _ & _ & _ & Hd). cbv zeta in Hd.
  rewrite receiver_of_eq in Hd. apply not_false_is_true in Hn. rewrite Hn in Hd.
  destruct Hd as (l' & He & ->). exact He.
Qed.

Definition unstake_ok (l : ledgers) (t : tx) : Prop :=
  t_type t = TRX_UNSTAKING -> hashes_unique l /\ totals_ok l.
Definition stake_amount_ok (t : tx) : Prop :=
  t_type t = TRX_STAKING -> t_amount t < two64 * amountPerPower.

(* C02, one successful native transaction: the fee leaves the supply (it sits in the block's fee
   sum until the end of the block), a withdrawn reward enters it, nothing else changes.
   INTENDED without [stake_amount_ok] and [unstake_ok]; both are needed:
   - staking amount >= 2^64 * 10^18: AmountToPower keeps the low 64 bits of amount/10^18, the
     sender pays the whole amount ([staking_truncation_refuted]);
   - unstaking under a hash already present in the frozen map overwrites that entry
     ([C02_collision_refuted]). *)
Theorem deliver_native_supply s t s' g :
  deliver s t = (s', Ok g) -> native s t -> tx_wf t -> payload_wf t -> bal_range (work s) ->
  room_for (work s) t (t_to t) -> room_for (work s) t (t_from t) ->
  stake_amount_ok t -> unstake_ok (work s) t ->
  supply (work s') = supply (work s) - fee_of t + withdrawn_of t.
Proof.
  intros Hd Hn Hwf Hpl Hr Hrt Hrf Hstk Hun.
  destruct (deliver_ok_native_inv _ _ _ _ Hd Hn) as (lim' & l' & snd' & snd'' & Hv & He & Hsn & Hsub & Hw').
  set (s2 := with_lim (pre_state s t) lim') in *.
  assert (Hw2 : work s2 = (find_or_new (work s) (t_to t)).1) by reflexivity.
  assert (Hr0 : bal_range (work s2)) by (rewrite Hw2; apply bal_range_find_or_new; exact Hr).
  pose proof (find_or_new_keeps (work s) (t_to t)) as K0.
  assert (Hroom : forall a, room_for (work s) t a -> room_for (work s2) t a).
  { intros a. unfold room_for. rewrite Hw2, bal_of_find_or_new. auto. }
  assert (Hun2 : t_type t = TRX_UNSTAKING -> hashes_unique (work s2) /\ totals_ok (work s2)).
  { intros Hty. destruct (Hun Hty) as (Hu & Ht). rewrite Hw2. split.
    - apply (hashes_unique_same (work s)); [exact (keeps_dels _ _ _ K0 I)|exact (keeps_frozen _ _ _ K0 I)|exact Hu].
    - apply (totals_ok_same (work s)); [exact (keeps_dels _ _ _ K0 I)|exact Ht]. }
  pose proof (exec_native_supply _ _ _ _ _ _ Hv Hn He Hwf Hpl Hr0 (Hroom _ Hrt) (Hroom _ Hrf) Hstk Hun2) as Hsup.
  destruct (exec_native_balances _ _ _ _ _ _ Hv Hn He Hwf Hpl Hr0) as (Hr' & _).
  pose proof (Hr' _ _ Hsn) as Hsr. pose proof (fee_of_range t) as Hfr.
  apply sub_balance_Some in Hsub as (Hle & Hb'' & _); [|lia|exact Hsr].
  rewrite Hw', supply_set_acct, add_nonce_bal, (bal_of_lookup _ _ _ Hsn), Hb'', Hsup, Hw2, supply_find_or_new. lia.
Qed.
Print Assumptions deliver_native_supply.

(* the sender's own credit (a withdrawal) fits whenever the sender holds less than 2^255: AddBalance
   refuses amounts of 2^255 and more *)
Lemma room_from_exec s1 s2 t l' lim' r :
  validated_of s1 r t = Ok lim' -> evm_path_of t r = false -> exec_native s2 t = Ok l' ->
  payload_wf t -> bal_range (work s2) -> bal_of (work s2) (t_from t) < two255 ->
  room_for (work s2) t (t_from t).
Proof.
  intros Hv Hp He Hpl Hr Hlt. pose proof two256_double as H25. pose proof two256_pos.
  destruct (validated_native_types _ _ _ _ Hv Hp) as [Hty|[Hty|[Hty|[Hty|[Hty|[Hty|Hty]]]]]];
    unfold room_for, tx_in; rewrite Hty;
    cbn [Z.eqb Pos.eqb TRX_TRANSFER TRX_STAKING TRX_UNSTAKING TRX_PROPOSAL TRX_VOTING TRX_SETDOC TRX_WITHDRAW];
    try (right; lia).
  - destruct (decide (t_from t = t_to t)); [left; auto|right; lia].
  - rewrite exec_native_withdraw in He by exact Hty.
    apply stake_execute_withdraw_inv in He as (req & r0 & r' & x & x' & Hpay & _ & Hx & Hadd & _); [|exact Hty].
    specialize (Hpl req Hty Hpay). rewrite Hpay.
    apply add_balance_Some in Hadd as (Hreq & _); [|lia].
    right. destruct (decide (t_from t = t_from t)); [lia|congruence].
Qed.

Lemma validated_funds g t sender :
  common_validation0 g t = None -> common_validation1 sender t = None -> params_ok g -> tx_wf t ->
  fee_of t + t_amount t <= a_bal sender /\ fee_of t < two255 /\ t_amount t < two255.
Proof.
  intros H0 H1 (Hgp & _) ((Hamt & _) & _ & (Hgas & _) & _).
  split; [exact (InvFail.validated_bal _ _ _ H0 H1 Hamt Hgas Hgp)|].
  split; [apply (InvFail.validated_fee _ _ H0 Hgas Hgp)|apply (InvFail.validated_amount _ _ H0 Hamt)].
Qed.

(* a failed (or panicking) delivery leaves the working ledgers as they were, up to the receiver's
   empty account.  [params_ok] and a sender balance below 2^255 exclude the one branch of postRunTrx
   in which the transaction has been executed but the fee cannot be taken. *)
Lemma deliver_fail_work s t s' r :
  deliver s t = (s', r) -> (forall g, r <> Ok g) ->
  tx_wf t -> payload_wf t -> params_ok (gparams s) -> bal_range (work s) ->
  bal_of (work s) (t_from t) < two255 ->
  work s' = work s \/ work s' = (find_or_new (work s) (t_to t)).1.
Proof.
  intros Hd Hnok Hwf Hpl Hpar Hr Hlt. apply InvFail.deliver_cases in Hd.
  destruct Hd as [Hs|sender r Hs Hrej|sender lim' s' r Es E0 E1 Ev Hfin]; [left; reflexivity|right; reflexivity|].
  set (s2 := with_lim (InvFail.pre s t) lim') in *.
  destruct Hfin as [r Hst|l' gas _ _|l' snd' Ep Ee Esn Esb|l' snd' snd'' _ _ _ _];
    [right; reflexivity|destruct (Hnok gas eq_refl)| |destruct (Hnok (t_gas t) eq_refl)].
  (* executed, but the fee cannot be taken: excluded by what validation saw of the sender's funds *)
  exfalso.
  assert (Hw2 : work s2 = (find_or_new (work s) (t_to t)).1) by reflexivity.
  assert (Hr0 : bal_range (work s2)) by (rewrite Hw2; apply bal_range_find_or_new; exact Hr).
  destruct (exec_native_balances _ _ _ _ _ _ Ev Ep Ee Hwf Hpl Hr0) as (Hr' & Hbal).
  assert (Hroom2 : room_for (work s2) t (t_from t)).
  { apply (room_from_exec _ _ _ _ _ _ Ev Ep Ee Hpl Hr0). rewrite Hw2, bal_of_find_or_new. exact Hlt. }
  specialize (Hbal _ Hroom2). rewrite Hw2, bal_of_find_or_new in Hbal.
  destruct (decide (t_from t = t_from t)); [|congruence].
  rewrite (bal_of_lookup _ _ _ Esn), (bal_of_lookup _ _ _ Es) in Hbal.
  destruct (validated_funds _ _ _ E0 E1 Hpar Hwf) as (Hfund & Hfee & _).
  pose proof (fee_of_range t) as Hfr. pose proof (tx_in_nonneg t (t_from t) Hwf Hpl) as Hin.
  assert (Hout : tx_out t <= t_amount t) by (unfold tx_out; destruct (_ || _); destruct Hwf; lia).
  destruct (InvFail.sub_balance_some snd' (fee_of t)) as [x Hx]; [lia|lia|congruence].
Qed.

(* C02, a failed (or panicking) delivery: at most an empty account appears; supply is unchanged. *)
Theorem deliver_fail_supply s t s' r :
  deliver s t = (s', r) -> (forall g, r <> Ok g) ->
  tx_wf t -> payload_wf t -> params_ok (gparams s) -> bal_range (work s) ->
  bal_of (work s) (t_from t) < two255 ->
  supply (work s') = supply (work s) /\ bal_range (work s') /\ frozen (work s') = frozen (work s).
Proof.
  intros Hd Hnok Hwf Hpl Hpar Hr Hlt.
  destruct (deliver_fail_work _ _ _ _ Hd Hnok Hwf Hpl Hpar Hr Hlt) as [-> | ->]; [auto|].
  split; [apply supply_find_or_new|]. split; [apply bal_range_find_or_new; exact Hr|].
  exact (keeps_frozen _ _ _ (find_or_new_keeps _ _) I).
Qed.
Print Assumptions deliver_fail_supply.

(* ================================================================== end_block *)
Definition paid_fees (b : blockctx) : Z :=
  match b_proposer b with
  | Some _ => if 0 <? sign256 (b_feesum b) then b_feesum b else 0
  | None => 0 end.

Lemma proposer_paid_supply b l2 l3 :
  proposer_paid b l2 l3 -> bal_range l2 -> 0 <= b_feesum b < two256 ->
  (forall a, bal_of l2 a + end_fee b a < two256) ->
  supply l3 = supply l2 + paid_fees b.
Proof.
  unfold paid_fees, end_fee. intros [Ep|pa Ep Es|pa x Ep Es Ea] Hr Hf Hroom; rewrite Ep; [lia|rewrite Es; lia|].
  rewrite Es. apply add_balance_Some in Ea as (_ & Hb & _); [|lia].
  change (a_bal (acct_of l2 pa)) with (bal_of l2 pa) in Hb.
  specialize (Hroom pa). rewrite Ep, Es in Hroom. destruct (decide (Some pa = Some pa)); [|congruence].
  pose proof (bal_range_bal_of _ pa Hr).
  rewrite supply_set_acct, Hb, add256_small by lia. lia.
Qed.

Lemma unfreeze_step_supply h l kp l1 :
  unfreeze_step h (Ok l) kp = Ok l1 -> bal_range l ->
  (s_refund kp.2 <= h ->
     0 <= s_power kp.2 < two63 /\ exists s1, frozen l !! kp.1 = Some s1 /\ s_power s1 = s_power kp.2) ->
  bal_of l (s_from kp.2) + refund_of h (s_from kp.2) kp < two256 ->
  supply l1 = supply l /\ bal_range l1 /\
  (forall k, k <> kp.1 -> frozen l1 !! k = frozen l !! k) /\
  (forall a, bal_of l1 a = bal_of l a + refund_of h a kp).
Proof.
  intros E Hr Hsync Hroom. unfold refund_of in *.
  apply unfreeze_step_inv in E as [(Em & ->)|(Em & x & x' & Hx & Ha & ->)]; rewrite Em in *; cbn [andb] in *.
  - split; [reflexivity|]. split; [exact Hr|]. split; [reflexivity|]. intros a. lia.
  - apply Z.leb_le in Em. destruct (Hsync Em) as (Hpr & s1 & Hs1 & Hpow).
    rewrite N.eqb_refl in Hroom.
    pose proof (power_to_amount_range (s_power kp.2)) as Hamt.
    apply add_balance_Some in Ha as (_ & Hb' & _); [|lia].
    pose proof (bal_of_lookup _ _ _ Hx) as Hbx. pose proof (Hr _ _ Hx) as Hxr.
    rewrite add256_small in Hb' by lia.
    split; [|split; [|split]].
    + unfold supply.
      rewrite (total_balance_same (set_acct l (s_from kp.2) x') (set_frozen _ _)) by reflexivity.
      rewrite total_balance_set_acct.
      change (bonded_power (set_frozen (set_acct l (s_from kp.2) x') ?m)) with (bonded_power l).
      rewrite !frozen_power_map_sum. cbn [frozen set_frozen set_acct].
      rewrite (map_sum_delete_Some _ _ _ _ Hs1), Hpow, Hb', (InvStake.power_to_amount_exact _ Hpr). lia.
    + intros a y. rewrite accts_set_frozen. apply bal_range_set_acct; [exact Hr|]. lia.
    + intros k Hk. cbn [frozen set_frozen]. apply lookup_delete_ne. congruence.
    + intros a. rewrite bal_of_set_frozen, bal_of_set_acct.
      destruct (decide (s_from kp.2 = a)) as [<-|Hne]; [rewrite N.eqb_refl; lia|].
      apply N.eqb_neq in Hne. rewrite Hne. lia.
Qed.

Lemma unfreeze_fold_supply h items : forall l l4,
  NoDup items.*1 ->
  (forall kp, kp ∈ items -> s_refund kp.2 <= h ->
     0 <= s_power kp.2 < two63 /\ exists s1, frozen l !! kp.1 = Some s1 /\ s_power s1 = s_power kp.2) ->
  foldl (unfreeze_step h) (Ok l) items = Ok l4 -> bal_range l ->
  (forall a, bal_of l a + refunds_to items h a < two256) ->
  supply l4 = supply l.
Proof.
  induction items as [|kp items IH]; intros l l4 Hnd Hsync Hf Hr Hroom.
  - simpl in Hf. injection Hf as <-. reflexivity.
  - cbn [foldl] in Hf. destruct (unfreeze_step h (Ok l) kp) as [l1|e|p] eqn:E.
    2:{ rewrite foldl_res_err in Hf by reflexivity. discriminate. }
    2:{ rewrite foldl_res_panic in Hf by reflexivity. discriminate. }
    rewrite fmap_cons in Hnd. apply NoDup_cons in Hnd as (Hnotin & Hnd).
    assert (Hsplit : forall a, refunds_to (kp :: items) h a = refund_of h a kp + refunds_to items h a) by reflexivity.
    destruct (unfreeze_step_supply _ _ _ _ E Hr (Hsync kp (elem_of_list_here _ _))) as (Hs1 & Hr1 & Hfz1 & Hb1).
    { specialize (Hroom (s_from kp.2)). rewrite Hsplit in Hroom.
      pose proof (refunds_to_nonneg items h (s_from kp.2)). lia. }
    rewrite <- Hs1. apply (IH _ _ Hnd); [|exact Hf|exact Hr1|].
    + intros kp' Hin. rewrite Hfz1; [apply Hsync; right; exact Hin|].
      intros Heq. apply Hnotin. rewrite <- Heq. apply elem_of_list_fmap. exists kp'. auto.
    + intros a. rewrite Hb1, <- Z.add_assoc, <- Hsplit. apply Hroom.
Qed.

Definition frozen_synced (s : state) : Prop :=
  forall k s0, frozen (base_of s) !! k = Some s0 -> s_refund s0 <= b_height (bctx s) ->
    0 <= s_power s0 < two63 /\ exists s1, frozen (work s) !! k = Some s1 /\ s_power s1 = s_power s0.

(* C02, end of block: the fee sum enters the supply when there is a proposer (and the sum is
   positive as the code tests it); refunds move unbonding stake into balances one to one;
   proposals and parameter changes do not touch value. *)
Theorem end_block_supply s s' ups :
  end_block s = (s', Ok ups) -> bal_range (work s) -> 0 <= b_feesum (bctx s) < two256 -> frozen_synced s ->
  (forall a, bal_of (work s) a + end_fee (bctx s) a +
             refunds_to (sorted_items (frozen (base_of s))) (b_height (bctx s)) a < two256) ->
  supply (work s') = supply (work s) + paid_fees (bctx s).
Proof.
  intros He Hr Hf Hsync Hroom. apply end_block_cases in He.
  inversion He as [r Hn|l1 l2 np l3 l4 H1 H2 H3 H4 _]; subst; [destruct (Hn ups eq_refl)|]. cbn [work ended].
  apply freeze_proposals_keeps in H1. apply apply_proposals_keeps in H2.
  pose proof (keeps_seq _ _ _ _ _ H1 H2) as H12.
  pose proof (keeps_accts _ _ _ H12 I) as Ha2. pose proof (keeps_frozen _ _ _ H12 I) as Hf2.
  assert (Hr2 : bal_range l2) by (intros a x; rewrite Ha2; apply Hr).
  assert (Hb2 : forall a, bal_of l2 a = bal_of (work s) a) by (intros a; apply bal_of_same_accts; exact Ha2).
  set (items := sorted_items (frozen (base_of s))) in *. set (h := b_height (bctx s)) in *.
  assert (Hroom2 : forall a, bal_of l2 a + end_fee (bctx s) a < two256).
  { intros a. rewrite Hb2. specialize (Hroom a). pose proof (refunds_to_nonneg items h a). lia. }
  pose proof (proposer_paid_supply _ _ _ H3 Hr2 Hf Hroom2) as Hs3.
  destruct (pay_proposer_balances _ _ _ (proposer_paid_pay _ _ _ H3) Hr2 Hf) as (_ & Hf3 & _ & Hr3 & Hb3).
  rewrite unfreeze_eq in H4. fold items h in H4.
  rewrite <- (supply_keeps _ _ _ H12 I I I), <- Hs3.
  apply (unfreeze_fold_supply h items); [| |exact H4|exact Hr3|].
  - apply NoDup_keys_sorted_items.
  - intros [k s0] Hin Hm. apply elem_of_sorted_items in Hin. destruct (Hsync k s0 Hin Hm) as (Hp & s1 & Hs1 & Hpw).
    split; [exact Hp|]. exists s1. rewrite Hf3, Hf2. auto.
  - intros a. specialize (Hroom a). specialize (Hb3 a). cbv zeta in Hb3. rewrite Hb2 in Hb3.
    unfold end_fee in Hroom. rewrite Hb3.
    + destruct (decide (b_proposer (bctx s) = Some a)); lia.
    + intros Hpa. destruct (decide (b_proposer (bctx s) = Some a)); [|contradiction].
      pose proof (refunds_to_nonneg items h a). lia.
Qed.
Print Assumptions end_block_supply.

(* ================================================================== commit *)
Theorem commit_supply s : supply (work (commit s)) = supply (work s).
Proof. reflexivity. Qed.
Print Assumptions commit_supply.

(* ================================================================== begin_block *)
(* ---- doSlashAll *)
Definition pow_nonneg (l : list stake) : Prop := Forall (fun s => 0 <= s_power s) l.

Lemma remove_stake_props h l :
  (s_hash <$> remove_stake h l) `sublist_of` (s_hash <$> l) /\
  (pow_nonneg l -> pow_nonneg (remove_stake h l) /\ sum_power (remove_stake h l) <= sum_power l).
Proof.
  induction l as [|s l (IH1 & IH2)]; cbn [remove_stake].
  - split; [constructor|]. intros H. split; [exact H|lia].
  - destruct (s_hash s =? h)%N.
    + split; [rewrite fmap_cons; apply sublist_cons; reflexivity|].
      intros H. apply Forall_cons in H as (Hs & Hl). split; [exact Hl|]. rewrite sum_power_cons. lia.
    + split; [rewrite !fmap_cons; apply sublist_skip; exact IH1|].
      intros H. apply Forall_cons in H as (Hs & Hl). destruct (IH2 Hl) as (Hn & Hle).
      split; [apply Forall_cons; auto|]. rewrite !sum_power_cons. lia.
Qed.

Lemma foldl_remove_props (removing : list stake) : forall l,
  (s_hash <$> foldl (fun l s => remove_stake (s_hash s) l) l removing) `sublist_of` (s_hash <$> l) /\
  (pow_nonneg l -> pow_nonneg (foldl (fun l s => remove_stake (s_hash s) l) l removing) /\
                   sum_power (foldl (fun l s => remove_stake (s_hash s) l) l removing) <= sum_power l).
Proof.
  induction removing as [|s removing IH]; intros l; cbn [foldl].
  - split; [reflexivity|]. intros H. split; [exact H|lia].
  - destruct (IH (remove_stake (s_hash s) l)) as (I1 & I2).
    destruct (remove_stake_props (s_hash s) l) as (R1 & R2).
    split; [etransitivity; eassumption|].
    intros H. destruct (R2 H) as (Hn & Hle). destruct (I2 Hn) as (Hn' & Hle'). split; [exact Hn'|lia].
Qed.

Lemma quot_slash_bounds p ratio : 0 <= p -> 0 <= ratio <= 100 -> 0 <= (p * ratio) `quot` 100 <= p.
Proof.
  intros Hp Hr. rewrite Z.quot_div_nonneg by nia. split; [apply Z.div_pos; nia|].
  apply Z.div_le_upper_bound; nia.
Qed.

Definition slash_one (ratio : Z) (s : stake) : stake :=
  if (s_power s * ratio) `quot` 100 <? 1 then s else with_power (s_power s - (s_power s * ratio) `quot` 100) s.

Lemma slash_map_props ratio l :
  0 <= ratio <= 100 ->
  s_hash <$> map (slash_one ratio) l = s_hash <$> l /\
  (pow_nonneg l -> pow_nonneg (map (slash_one ratio) l) /\ sum_power (map (slash_one ratio) l) <= sum_power l).
Proof.
  intros Hr. induction l as [|s l (IH1 & IH2)]; cbn [map].
  - split; [reflexivity|]. intros H. split; [exact H|lia].
  - split.
    + rewrite !fmap_cons, IH1. unfold slash_one. destruct (_ <? 1); reflexivity.
    + intros H. apply Forall_cons in H as (Hs & Hl). destruct (IH2 Hl) as (Hn & Hle).
      pose proof (quot_slash_bounds _ _ Hs Hr) as Hq.
      unfold slash_one at 1 3. set (q := (s_power s * ratio) `quot` 100) in *. clearbody q.
      split.
      * apply Forall_cons. split; [|exact Hn]. destruct (q <? 1); cbn [s_power with_power]; lia.
      * rewrite !sum_power_cons. destruct (q <? 1); cbn [s_power with_power]; lia.
Qed.

Lemma slash_all_props d ratio :
  0 <= ratio <= 100 -> 
  (s_hash <$> d_stakes (slash_all d ratio).1) `sublist_of` (s_hash <$> d_stakes d) /\
  (pow_nonneg (d_stakes d) ->
     pow_nonneg (d_stakes (slash_all d ratio).1) /\
     sum_power (d_stakes (slash_all d ratio).1) <= sum_power (d_stakes d)).
Proof.
  intros Hr. unfold slash_all. cbn [fst d_stakes].
  change (map _ (d_stakes d)) with (map (slash_one ratio) (d_stakes d)).
  set (removing := List.filter _ (d_stakes d)).
  destruct (foldl_remove_props removing (map (slash_one ratio) (d_stakes d))) as (F1 & F2).
  destruct (slash_map_props ratio (d_stakes d) Hr) as (Hh & Hsl).
  split; [rewrite <- Hh; exact F1|].
  intros Hn. destruct (Hsl Hn) as (Hsn & Hsle). destruct (F2 Hsn) as (Hkn & Hkle). split; [exact Hkn|lia].
Qed.

(* ---- StakeCtrler slashing over the evidence list; power destroyed by it *)
Fixpoint slashed_by (l : ledgers) (ratio : Z) (evi : list addr) : Z :=
  match evi with
  | [] => 0
  | a :: rest =>
      match dels l !! a with
      | Some d =>
          (sum_power (d_stakes d) - sum_power (d_stakes (slash_all d ratio).1))
          + slashed_by (set_dels l (<[a := (slash_all d ratio).1]> (dels l))) ratio rest
      | None => slashed_by l ratio rest
      end
  end.

Definition slashed_power (s : state) (hd : header) : Z :=
  slashed_by (gov_punish (work s) (g_slashRatio (gparams s)) (h_evidence hd)) (g_slashRatio (gparams s)) (h_evidence hd).

Definition bonded_nonneg (l : ledgers) : Prop := forall a d, dels l !! a = Some d -> pow_nonneg (d_stakes d).

Lemma bonded_stakes_insert l a d' :
  bonded_stakes (set_dels l (<[a := d']> (dels l))) ≡ₚ d_stakes d' ++ bonded_stakes (set_dels l (delete a (dels l))).
Proof.
  unfold bonded_stakes. rewrite !dels_set_dels. rewrite <- insert_delete_insert.
  rewrite map_to_list_insert by apply lookup_delete. rewrite fmap_cons. reflexivity.
Qed.

Lemma ranges_ok_bonded_nonneg l : ranges_ok l -> bonded_nonneg l.
Proof.
  intros (_ & Hp & _) a d Hd. apply Forall_forall. intros s Hs.
  apply Hp. apply elem_of_app. left. apply InvStake.elem_of_bonded; eauto.
Qed.

Lemma hashes_unique_update_del l a d d' :
  hashes_unique l -> dels l !! a = Some d ->
  (s_hash <$> d_stakes d') `sublist_of` (s_hash <$> d_stakes d) ->
  hashes_unique (set_dels l (<[a := d']> (dels l))).
Proof.
  intros (Hnd & Hk) Hd Hsub. split; [|exact Hk].
  rewrite (bonded_stakes_delete _ _ _ Hd) in Hnd.
  change (frozen_stakes (set_dels l (<[a:=d']> (dels l)))) with (frozen_stakes l).
  rewrite bonded_stakes_insert. rewrite <- app_assoc, fmap_app in *.
  eapply InvStake.sublist_NoDup'; [|exact Hnd]. apply sublist_app; [exact Hsub|reflexivity].
Qed.

Lemma stake_punish_cons l ratio a evi :
  stake_punish l ratio (a :: evi) =
  stake_punish (match dels l !! a with
                | Some d => set_dels l (<[a := (slash_all d ratio).1]> (dels l))
                | None => l end) ratio evi.
Proof. reflexivity. Qed.

Lemma stake_punish_props ratio evi : forall l,
  0 <= ratio <= 100 -> hashes_unique l -> bonded_nonneg l ->
  let l' := stake_punish l ratio evi in
  accts l' = accts l /\ frozen l' = frozen l /\ rewards l' = rewards l /\
  hashes_unique l' /\ bonded_nonneg l' /\
  bonded_power l' = bonded_power l - slashed_by l ratio evi /\ 0 <= slashed_by l ratio evi.
Proof.
  induction evi as [|a evi IH]; intros l Hr Hu Hn; cbv zeta.
  - unfold stake_punish. cbn [foldl slashed_by].
    refine (conj eq_refl (conj eq_refl (conj eq_refl (conj Hu (conj Hn (conj _ _)))))); lia.
  - rewrite stake_punish_cons. cbn [slashed_by]. destruct (dels l !! a) as [d|] eqn:Ed.
    + destruct (slash_all_props d ratio Hr) as (Hsub & Hpow). destruct (Hpow (Hn _ _ Ed)) as (Hn' & Hle).
      set (l1 := set_dels l (<[a := (slash_all d ratio).1]> (dels l))) in *.
      assert (Hu1 : hashes_unique l1) by (apply (hashes_unique_update_del _ _ _ _ Hu Ed Hsub)).
      assert (Hn1 : bonded_nonneg l1).
      { intros b d0. unfold l1. rewrite dels_set_dels. destruct (decide (a = b)) as [<-|Hne].
        - rewrite lookup_insert. intros [= <-]. exact Hn'.
        - rewrite lookup_insert_ne by exact Hne. apply Hn. }
      destruct (IH l1 Hr Hu1 Hn1) as (Ha & Hf & Hrw & Hu' & Hn'' & Hb & Hs0).
      pose proof (bonded_power_update l a d (slash_all d ratio).1 Ed) as Hb1. fold l1 in Hb1.
      refine (conj Ha (conj Hf (conj Hrw (conj Hu' (conj Hn'' (conj _ _)))))); lia.
    + apply IH; assumption.
Qed.

(* ---- jailing: all stakes of a delegatee move into the frozen map *)
Lemma freeze_all_subseteq refund ss fr :
  (forall s, s ∈ ss -> fr !! s_hash s = None) -> fr ⊆ freeze_all fr refund ss.
Proof.
  intros Hfresh. apply map_subseteq_spec. intros k v Hk.
  rewrite freeze_all_lookup_other; [exact Hk|].
  intros Hin. apply elem_of_list_fmap in Hin as (s & -> & Hs). rewrite (Hfresh s Hs) in Hk. discriminate.
Qed.

Lemma freeze_all_keys refund ss : forall fr,
  (forall h s, fr !! h = Some s -> s_hash s = h) ->
  (forall h s, freeze_all fr refund ss !! h = Some s -> s_hash s = h).
Proof.
  induction ss as [|s0 ss IH]; intros fr Hk; [exact Hk|].
  rewrite freeze_all_cons. apply IH. intros h s. destruct (decide (s_hash s0 = h)) as [<-|Hne].
  - rewrite lookup_insert. intros [= <-]. reflexivity.
  - rewrite lookup_insert_ne by exact Hne. apply Hk.
Qed.

Lemma jail_props l a d refund :
  dels l !! a = Some d -> hashes_unique l ->
  let l' := set_dels (set_frozen l (freeze_all (frozen l) refund (d_stakes d))) (delete a (dels l)) in
  hashes_unique l' /\ bonded_power l' + frozen_power l' = bonded_power l + frozen_power l /\
  frozen l ⊆ frozen l'.
Proof.
  intros Hd Hu. cbv zeta.
  destruct (hashes_unique_delegatee _ _ _ Hu Hd) as (Hnd & Hfresh).
  destruct Hu as (Hall & Hk).
  split; [split|split]; [| | |cbn [frozen set_dels set_frozen]; apply freeze_all_subseteq; exact Hfresh].
  - pose proof (freeze_all_perm refund _ _ Hnd Hfresh) as Hperm.
    rewrite (bonded_stakes_delete _ _ _ Hd) in Hall.
    change (bonded_stakes (set_dels (set_frozen l ?m) (delete a (dels l)))) with (bonded_stakes (set_dels l (delete a (dels l)))).
    set (B := bonded_stakes (set_dels l (delete a (dels l)))) in *.
    unfold frozen_stakes in *. cbn [frozen set_dels set_frozen].
    rewrite Hperm. rewrite !fmap_app in *.
    assert (Hss : s_hash <$> ((fun kv : hash * stake => kv.2) <$> ((fun s => (s_hash s, with_refund refund s)) <$> d_stakes d))
                  = s_hash <$> d_stakes d).
    { rewrite <- !list_fmap_compose. apply list_fmap_ext. intros i s _. reflexivity. }
    rewrite Hss. rewrite <- app_assoc in Hall.
    rewrite (Permutation_app_comm (s_hash <$> B)). rewrite <- app_assoc.
    assert (Hp : forall x y z : list hash, x ++ z ++ y ≡ₚ x ++ y ++ z)
      by (intros; apply Permutation_app_head, Permutation_app_comm).
    rewrite Hp. exact Hall.
  - cbn [frozen set_dels set_frozen]. apply freeze_all_keys. exact Hk.
  - rewrite !bonded_power_map_sum, !frozen_power_map_sum. cbn [dels frozen set_dels set_frozen].
    rewrite freeze_all_sum by assumption. rewrite (map_sum_delete_Some _ _ _ _ Hd). lia.
Qed.

(* ---- reward / missed-block processing over the last commit's votes *)
Lemma jail_step_moved g h l a : hashes_unique l ->
  hashes_unique (jail_step g h l a) /\ supply (jail_step g h l a) = supply l /\
  accts (jail_step g h l a) = accts l /\ frozen l ⊆ frozen (jail_step g h l a).
Proof.
  intros Hu. unfold jail_step. destruct (dels l !! a) as [d|] eqn:Ed; [|auto]. cbv zeta.
  destruct (count_in_window _ _ _) as [cnt m2].
  set (d1 := with_marks d m2). set (l1 := set_dels l (<[a := d1]> (dels l))).
  assert (Hu1 : hashes_unique l1) by (apply (hashes_unique_update_del _ _ _ _ Hu Ed); reflexivity).
  assert (Hs1 : supply l1 = supply l).
  { apply supply_parts; [reflexivity|]. unfold l1. rewrite (bonded_power_update l a d d1 Ed). cbn [d_stakes d1 with_marks].
    change (frozen_power (set_dels l ?m)) with (frozen_power l). lia. }
  destruct (_ <? g_minSignedBlocks g); [|auto].
  assert (Hd1 : dels l1 !! a = Some d1) by apply lookup_insert.
  destruct (jail_props l1 a d1 (h + g_lazyRewardBlocks g) Hd1 Hu1) as (Hu2 & Hbf & Hsub).
  split; [exact Hu2|]. split; [|split; [reflexivity|exact Hsub]].
  rewrite <- Hs1. apply supply_parts; [reflexivity|exact Hbf].
Qed.

Definition moved (x y : ledgers * Z) : Prop :=
  hashes_unique x.1 -> hashes_unique y.1 /\ supply y.1 = supply x.1 /\ accts y.1 = accts x.1 /\ frozen x.1 ⊆ frozen y.1.

Lemma vote_step_moved g old h x v y : vote_step g old h (Ok x) v = Ok y -> moved x y.
Proof.
  destruct x as [l issued]. destruct v as [[a pw] signed]. unfold vote_step, moved. cbn [fst].
  destruct signed; [|intros [= <-]; apply jail_step_moved].
  destruct (dels old !! a) as [d|]; [|intros [= <-]; auto 10].
  destruct (negb (d_total d =? pw)); [intros [= <-]; auto 10|].
  destruct (reward_to g h (rewards l) d) as [[rw iss]|e|p]; [|discriminate..].
  intros [= <-] Hu. cbn [fst]. split; [|split; [reflexivity|split; reflexivity]].
  apply (hashes_unique_same l); [reflexivity|reflexivity|exact Hu].
Qed.

Lemma process_votes_moved s l h votes l3 issued :
  process_votes s l h votes = Ok (l3, issued) -> hashes_unique l ->
  hashes_unique l3 /\ supply l3 = supply l /\ accts l3 = accts l /\ frozen l ⊆ frozen l3.
Proof.
  rewrite process_votes_eq. destruct (ledgers_at s (hgt_of_power h)) as [old|]; [|discriminate].
  intros Hf Hu.
  apply (foldl_res_inv (fun y => moved (l, 0) y) _ _ (res_stuck_vote _ _ _)) with (a := (l, 0)) in Hf.
  - exact (Hf Hu).
  - intros x v y _ Hx Hstep _. destruct (Hx Hu) as (Hu1 & Hs1 & Ha1 & Hf1).
    destruct (vote_step_moved _ _ _ _ _ _ Hstep Hu1) as (Hu2 & Hs2 & Ha2 & Hf2).
    split; [exact Hu2|]. split; [congruence|]. split; [congruence|]. etransitivity; eassumption.
  - intros _. auto 10.
Qed.

Lemma begin_block_work s hd s' r :
  begin_block s hd = (s', r) -> h_height hd = last_height s + 1 ->
  let ratio := g_slashRatio (gparams s) in
  let l2 := stake_punish (gov_punish (work s) ratio (h_evidence hd)) ratio (h_evidence hd) in
  work s' = l2 \/ exists s1 issued, process_votes s1 l2 (h_height hd) (h_votes hd) = Ok (work s', issued).
Proof.
  intros Hb Hh. apply begin_block_cases in Hb.
  destruct Hb as [Hn|_ _|l issued _ _ Ev|e _ _ _|p _ _ _];
    [contradiction|left; reflexivity|right; exists (begun s hd), issued; exact Ev|left; reflexivity..].
Qed.

(* C02, begin of block: the only value destroyed is the slashed power; issuing rewards adds to
   the reward ledger, which is not part of the supply until withdrawn; jailing moves bonded
   stake into the frozen map one to one (fresh keys by [hashes_unique]).  Holds whether the
   vote processing succeeds or not. *)
Theorem begin_block_supply s hd s' r :
  begin_block s hd = (s', r) -> h_height hd = last_height s + 1 ->
  0 <= g_slashRatio (gparams s) <= 100 -> hashes_unique (work s) -> bonded_nonneg (work s) ->
  supply (work s') = supply (work s) - amountPerPower * slashed_power s hd /\ 0 <= slashed_power s hd /\
  accts (work s') = accts (work s) /\ hashes_unique (work s') /\ frozen (work s) ⊆ frozen (work s').
Proof.
  intros Hb Hh Hratio Hu Hrg. apply begin_block_work in Hb; [|exact Hh]. cbv zeta in Hb. unfold slashed_power.
  set (ratio := g_slashRatio (gparams s)) in *.
  pose proof (gov_punish_keeps (work s) ratio (h_evidence hd)) as K1.
  set (l1 := gov_punish (work s) ratio (h_evidence hd)) in *.
  pose proof (keeps_accts _ _ _ K1 I) as Ha1. pose proof (keeps_dels _ _ _ K1 I) as Hd1.
  pose proof (keeps_frozen _ _ _ K1 I) as Hf1.
  assert (Hu1 : hashes_unique l1) by (apply (hashes_unique_same (work s)); assumption).
  assert (Hn1 : bonded_nonneg l1) by (intros a d; rewrite Hd1; apply Hrg).
  destruct (stake_punish_props ratio (h_evidence hd) l1 Hratio Hu1 Hn1) as (Ha2 & Hf2 & _ & Hu2 & _ & Hb2 & Hnn).
  set (l2 := stake_punish l1 ratio (h_evidence hd)) in *.
  assert (Hs2 : supply l2 = supply (work s) - amountPerPower * slashed_by l1 ratio (h_evidence hd)).
  { unfold supply. rewrite (total_balance_same _ _ Ha2), (total_balance_same _ _ Ha1).
    rewrite (frozen_power_same _ _ Hf2), (frozen_power_same _ _ Hf1), Hb2, (bonded_power_same _ _ Hd1). lia. }
  destruct Hb as [-> | (s1 & issued & Ev)].
  - split; [exact Hs2|]. split; [exact Hnn|]. split; [congruence|]. split; [exact Hu2|]. rewrite Hf2, Hf1. reflexivity.
  - apply process_votes_moved in Ev as (Hu3 & Hs3 & Ha3 & Hf3); [|exact Hu2].
    split; [rewrite Hs3; exact Hs2|]. split; [exact Hnn|]. split; [congruence|]. split; [exact Hu3|].
    rewrite <- Hf1, <- Hf2. exact Hf3.
Qed.
Print Assumptions begin_block_supply.

(* ================================================================== histories *)
(* ABCI phases of the block cycle *)
Inductive phase := PIdle | POpen | PEnded.

(* ghost totals of a run: rewards withdrawn, power destroyed by slashing, fees not paid out *)
Record ghost := { gh_withdrawn : Z; gh_slashed : Z; gh_burned : Z }.
Definition ghost0 : ghost := {| gh_withdrawn := 0; gh_slashed := 0; gh_burned := 0 |}.

Definition pending (p : phase) (s : state) : Z := match p with POpen => b_feesum (bctx s) | _ => 0 end.

(* one step of a live node: the operations come in ABCI order, BeginBlock and EndBlock answer
   without error (otherwise the node halts and the history ends); deliveries may fail *)
Definition hstep (x : state * phase * ghost) (o : sop) : option (state * phase * ghost) :=
  let '(s, p, gh) := x in
  match p, o with
  | PIdle, SBegin hd =>
      if h_height hd =? last_height s + 1 then
        match begin_block s hd with
        | (s', Ok _) => Some (s', POpen, {| gh_withdrawn := gh_withdrawn gh;
                                            gh_slashed := gh_slashed gh + slashed_power s hd;
                                            gh_burned := gh_burned gh |})
        | _ => None end
      else None
  | POpen, SDeliver t =>
      match deliver s t with
      | (s', Ok _) => Some (s', POpen, {| gh_withdrawn := gh_withdrawn gh + withdrawn_of t;
                                          gh_slashed := gh_slashed gh; gh_burned := gh_burned gh |})
      | (s', _) => Some (s', POpen, gh) end
  | POpen, SEnd =>
      match end_block s with
      | (s', Ok _) => Some (s', PEnded, {| gh_withdrawn := gh_withdrawn gh; gh_slashed := gh_slashed gh;
                                           gh_burned := gh_burned gh + (b_feesum (bctx s) - paid_fees (bctx s)) |})
      | _ => None end
  | PEnded, SCommit => Some (commit s, PIdle, gh)
  | _, _ => None
  end.

Fixpoint hrun (x : state * phase * ghost) (ops : list sop) : option (state * phase * ghost) :=
  match ops with
  | [] => Some x
  | o :: r => match hstep x o with Some y => hrun y r | None => None end
  end.

Lemma hstep_sstep s p gh o s' p' gh' : hstep (s, p, gh) o = Some (s', p', gh') -> s' = sstep s o.
Proof.
  unfold hstep, sstep. destruct p, o as [hd|t| |]; try discriminate.
  - destruct (h_height hd =? last_height s + 1); [|discriminate].
    destruct (begin_block s hd) as [s1 [x|e|pp]]; [|discriminate..]. intros [= <- _ _]. reflexivity.
  - destruct (deliver s t) as [s1 [x|e|pp]]; intros [= <- _ _]; reflexivity.
  - destruct (end_block s) as [s1 [x|e|pp]]; [|discriminate..]. intros [= <- _ _]. reflexivity.
  - intros [= <- _ _]. reflexivity.
Qed.

Lemma hrun_srun ops : forall s p gh s' p' gh', hrun (s, p, gh) ops = Some (s', p', gh') -> s' = srun s ops.
Proof.
  induction ops as [|o ops IH]; intros s p gh s' p' gh'; cbn [hrun].
  - intros [= <- _ _]. reflexivity.
  - destruct (hstep (s, p, gh) o) as [[[s1 p1] gh1]|] eqn:E; [|discriminate].
    intros H. apply hstep_sstep in E. subst s1. apply IH in H. exact H.
Qed.

(* the state reached is the plain run: of a closed history only phase and ghost totals are evaluated *)
Lemma hrun_eval s p gh ops p' gh' :
  (fun y : state * phase * ghost => (y.1.2, y.2)) <$> hrun (s, p, gh) ops = Some (p', gh') ->
  hrun (s, p, gh) ops = Some (srun s ops, p', gh').
Proof.
  destruct (hrun (s, p, gh) ops) as [[[s1 p1] gh1]|] eqn:E; [|discriminate].
  intros [= <- <-]. rewrite (hrun_srun _ _ _ _ _ _ _ E). reflexivity.
Qed.

Definition C02_equation (g : genesis) (s : state) (p : phase) (gh : ghost) : Prop :=
  supply (work s) + pending p s =
  supply (work (init_chain g)) + gh_withdrawn gh - amountPerPower * gh_slashed gh - gh_burned gh.

(* delivered transactions: Go-typed fields; EVM executions are outside [C02_history] (their effect
   is an oracle, see [deliver_evm_supply]): with [t_evm = None] a transaction that reaches the EVM fails *)
Definition txs_ok (ops : list sop) : Prop :=
  Forall (fun o => match o with SDeliver t => tx_wf t /\ payload_wf t /\ t_evm t = None | _ => True end) ops.

Definition txs_okb (ops : list sop) : bool :=
  forallb (fun o => match o with
    | SDeliver t =>
        bool_decide (0 <= t_amount t < two256 /\ 0 <= t_price t < two256 /\ 0 <= t_gas t < two64 /\ 0 <= t_nonce t < two64) &&
        match t_payload t with PWithdraw req => bool_decide (0 <= req < two256) | _ => true end &&
        match t_evm t with None => true | Some _ => false end
    | _ => true end) ops.

Lemma txs_okb_sound ops : txs_okb ops = true -> txs_ok ops.
Proof.
  induction ops as [|o ops IH]; cbn [txs_okb forallb]; intros H; [constructor|].
  apply andb_prop in H as (Ho & H). constructor; [|apply IH; exact H].
  destruct o as [hd|t| |]; try exact I.
  apply andb_prop in Ho as (Ho & Hevm). apply andb_prop in Ho as (Hwf & Hpl).
  apply bool_decide_eq_true in Hwf. split; [exact Hwf|]. split.
  - intros req _ Hreq. rewrite Hreq in Hpl. apply bool_decide_eq_true in Hpl. exact Hpl.
  - destruct (t_evm t); [discriminate|reflexivity].
Qed.

(* ================================================================== the collision *)
(* Every genesis stake carries hash 0.  Two genesis validators unstake in the same block: both
   stakes are filed in the frozen MAP under key 0, the second overwrites the first, and 100 units
   of power (10^20 base units) vanish although nothing was slashed, burned or withdrawn. *)
Definition collision_ops : list sop :=
  [SBegin (demo_hdr 1 (Some 11%N));
   SDeliver (demo_tx TRX_UNSTAKING 11%N 11%N 0 4000 0 (PUnstake 0%N true) 5%N);
   SDeliver (demo_tx TRX_UNSTAKING 12%N 12%N 0 4000 0 (PUnstake 0%N true) 6%N);
   SEnd; SCommit].

Lemma collision_run : exists s, hrun (init_chain demo_genesis, PIdle, ghost0) collision_ops = Some (s, PIdle, ghost0).
Proof. eexists. apply hrun_eval. vm_compute. reflexivity. Qed.

Lemma collision_supply s :
  hrun (init_chain demo_genesis, PIdle, ghost0) collision_ops = Some (s, PIdle, ghost0) ->
  supply (work s) = supply (work (init_chain demo_genesis)) - 100 * amountPerPower.
Proof. intros H. apply hrun_srun in H as ->. vm_compute. reflexivity. Qed.

Lemma genesis_hashes_collide : ~ hashes_unique (work (init_chain demo_genesis)).
Proof.
  intros (Hnd & _). revert Hnd. vm_compute. intros Hnd.
  apply NoDup_cons in Hnd as (Hx & _). apply Hx. left.
Qed.

Theorem C02_collision_refuted :
  exists g ops s p gh,
    hrun (init_chain g, PIdle, ghost0) ops = Some (s, p, gh) /\
    gh = ghost0 /\ p = PIdle /\
    Forall (fun o => match o with SDeliver t => tx_wf t /\ payload_wf t /\ t_evm t = None | _ => True end) ops /\
    params_ok (gen_params g) /\
    supply (work s) = supply (work (init_chain g)) - 100 * amountPerPower /\
    ~ C02_equation g s p gh /\
    ~ hashes_unique (work (init_chain g)).
Proof.
  destruct collision_run as (s & Hs).
  exists demo_genesis, collision_ops, s, PIdle, ghost0.
  pose proof (collision_supply s Hs) as Hsup.
  split; [exact Hs|]. split; [reflexivity|]. split; [reflexivity|].
  split; [apply txs_okb_sound; vm_compute; reflexivity|].
  split; [zclosed|]. split; [exact Hsup|]. split; [|exact genesis_hashes_collide].
  unfold C02_equation. rewrite Hsup. cbn [pending ghost0 gh_withdrawn gh_slashed gh_burned].
  unfold amountPerPower. lia.
Qed.
Print Assumptions C02_collision_refuted.

(* ================================================================== the history invariant, step by step *)
(* ---- the frozen map only grows between BeginBlock and EndBlock *)
Lemma stake_execute_unstaking_frozen s2 l t l' :
  t_type t = TRX_UNSTAKING -> stake_execute s2 l t = Ok l' -> hashes_unique l -> frozen l ⊆ frozen l'.
Proof.
  intros Hty He Hu.
  destruct (stake_execute_unstaking_inv _ _ _ _ Hty He) as (d & s0 & ss & d2 & Ed & Hperm & _ & ->).
  destruct (hashes_unique_delegatee _ _ _ Hu Ed) as (_ & Hfresh).
  cbn [frozen set_dels set_frozen]. apply freeze_all_subseteq.
  intros s Hs. apply Hfresh. rewrite Hperm. apply elem_of_app. auto.
Qed.

Lemma exec_native_frozen s1 s2 t l' lim' r :
  validated_of s1 r t = Ok lim' -> evm_path_of t r = false -> exec_native s2 t = Ok l' ->
  (t_type t = TRX_UNSTAKING -> hashes_unique (work s2)) ->
  frozen (work s2) ⊆ frozen l'.
Proof.
  intros Hv Hp He Hun.
  destruct (validated_native_types _ _ _ _ Hv Hp) as [Hty|[Hty|[Hty|[Hty|[Hty|[Hty|Hty]]]]]].
  - rewrite exec_native_transfer in He by exact Hty.
    rewrite (keeps_frozen _ _ _ (acct_execute_keeps _ _ _ He) I). reflexivity.
  - rewrite exec_native_staking in He by exact Hty.
    apply stake_execute_staking_inv in He as (? & ? & ? & _ & _ & _ & ->); [reflexivity|exact Hty].
  - rewrite exec_native_unstaking in He by exact Hty.
    apply (stake_execute_unstaking_frozen _ _ _ _ Hty He (Hun Hty)).
  - rewrite exec_native_proposal in He by exact Hty. apply gov_execute_keeps in He. rewrite (keeps_frozen _ _ _ He I). reflexivity.
  - rewrite exec_native_voting in He by exact Hty. apply gov_execute_keeps in He. rewrite (keeps_frozen _ _ _ He I). reflexivity.
  - rewrite exec_native_setdoc in He by exact Hty.
    rewrite (keeps_frozen _ _ _ (acct_execute_keeps _ _ _ He) I). reflexivity.
  - rewrite exec_native_withdraw in He by exact Hty.
    apply stake_execute_withdraw_inv in He as (? & ? & ? & ? & ? & _ & _ & _ & _ & ->); [reflexivity|exact Hty].
Qed.

Lemma deliver_native_frozen s t s' g :
  deliver s t = (s', Ok g) -> native s t -> (t_type t = TRX_UNSTAKING -> hashes_unique (work s)) ->
  frozen (work s) ⊆ frozen (work s').
Proof.
  intros Hd Hn Hun.
  destruct (deliver_ok_native_inv _ _ _ _ Hd Hn) as (lim' & l' & snd' & snd'' & Hv & He & _ & _ & ->).
  rewrite frozen_set_acct.
  pose proof (find_or_new_keeps (work s) (t_to t)) as K0.
  rewrite <- (keeps_frozen _ _ _ K0 I). apply (exec_native_frozen _ _ _ _ _ _ Hv Hn He).
  intros Hty. cbn [work with_lim]. rewrite pre_state_work.
  apply (hashes_unique_same (work s)); [exact (keeps_dels _ _ _ K0 I)|exact (keeps_frozen _ _ _ K0 I)|exact (Hun Hty)].
Qed.

Lemma refunds_le_frozen (fr : gmap hash stake) h a :
  (forall k s0, fr !! k = Some s0 -> 0 <= s_power s0 < two63) ->
  refunds_to (sorted_items fr) h a <= amountPerPower * map_sum s_power fr.
Proof.
  intros Hp. unfold refunds_to, map_sum. rewrite (sumZ_with_perm _ _ _ (sorted_items_perm fr)).
  rewrite <- sumZ_with_scale. apply sumZ_with_le. intros [k s0] Hin. apply elem_of_map_to_list in Hin.
  specialize (Hp k s0 Hin). unfold refund_of. cbn [snd].
  assert (0 < amountPerPower) by (unfold amountPerPower; lia).
  destruct (_ && _); [rewrite InvStake.power_to_amount_exact by exact Hp; lia|nia].
Qed.

Lemma foldl_frozen_preserved {A} (f : ledgers -> A -> ledgers) (xs : list A) :
  (forall l x, frozen (f l x) = frozen l) -> forall l, frozen (foldl f l xs) = frozen l.
Proof. intros Hf. induction xs as [|x xs IH]; intros l; [reflexivity|]. cbn [foldl]. rewrite IH. apply Hf. Qed.

Lemma init_chain_frozen g : frozen (work (init_chain g)) = ∅ /\ committed (init_chain g) = [].
Proof.
  split; [|reflexivity]. unfold init_chain. cbn [work].
  rewrite foldl_frozen_preserved by (intros; reflexivity).
  rewrite foldl_frozen_preserved by (intros l v; exact (keeps_frozen _ _ _ (find_or_new_keeps _ _) I)).
  rewrite foldl_frozen_preserved by (intros; reflexivity). reflexivity.
Qed.

(* ---- what is assumed of every state along the run (C11 territory; InvReach.run_ok_reachable
   discharges it for runs that avoid the genesis-hash collision) *)
Definition powers_ok (l : ledgers) : Prop :=
  forall s, s ∈ bonded_stakes l ++ frozen_stakes l -> 0 <= s_power s < two63.
Definition run_ok (s : state) : Prop :=
  hashes_unique (work s) /\ totals_ok (work s) /\ powers_ok (work s) /\ params_ok (gparams s).

Fixpoint along (Q : state -> Prop) (s : state) (ops : list sop) : Prop :=
  Q s /\ match ops with [] => True | o :: r => along Q (sstep s o) r end.

Lemma along_prefixes (Q : state -> Prop) ops : forall s, (forall pre, pre `prefix_of` ops -> Q (srun s pre)) -> along Q s ops.
Proof.
  induction ops as [|o ops IH]; intros s H; cbn [along].
  - split; [apply (H []); reflexivity|exact I].
  - split; [apply (H []); apply prefix_nil|]. apply IH. intros pre Hpre.
    apply (H (o :: pre)). apply prefix_cons. exact Hpre.
Qed.

(* the bound under which nothing wraps: everything that ever exists fits the int64 power range *)
Definition supply_bound : Z := two63 * amountPerPower.

Lemma supply_bound_lt : supply_bound < two255 /\ supply_bound <= two64 * amountPerPower.
Proof. split; vm_compute; congruence. Qed.

(* [S0] is the genesis supply *)
Definition hist_inv (S0 : Z) (x : state * phase * ghost) : Prop :=
  let '(s, p, gh) := x in
  supply (work s) + pending p s = S0 + gh_withdrawn gh - amountPerPower * gh_slashed gh - gh_burned gh /\
  bal_range (work s) /\
  0 <= gh_withdrawn gh /\ 0 <= gh_slashed gh /\ 0 <= gh_burned gh /\
  (p = POpen -> 0 <= b_feesum (bctx s) < two256) /\
  match p with
  | PIdle => frozen (base_of s) = frozen (work s)
  | POpen => frozen (base_of s) ⊆ frozen (work s)
  | PEnded => True end.

Lemma hist_inv_genesis g :
  bal_range (work (init_chain g)) -> hist_inv (supply (work (init_chain g))) (init_chain g, PIdle, ghost0).
Proof.
  intros Hr0. cbn [hist_inv pending ghost0 gh_withdrawn gh_slashed gh_burned].
  split; [lia|]. split; [exact Hr0|]. split; [lia|]. split; [lia|]. split; [lia|]. split; [discriminate|].
  destruct (init_chain_frozen g) as (Hf & Hc). unfold base_of. rewrite Hc, Hf. reflexivity.
Qed.

Lemma powers_ok_parts l : powers_ok l ->
  0 <= bonded_power l /\ 0 <= frozen_power l /\
  (forall k s0, frozen l !! k = Some s0 -> 0 <= s_power s0 < two63) /\ bonded_nonneg l.
Proof.
  intros Hp.
  assert (Hfr : forall k s0, frozen l !! k = Some s0 -> 0 <= s_power s0 < two63).
  { intros k s0 Hk. apply Hp. apply elem_of_app. right. unfold frozen_stakes.
    apply elem_of_list_fmap. exists (k, s0). split; [reflexivity|]. apply elem_of_map_to_list. exact Hk. }
  assert (Hbn : bonded_nonneg l).
  { intros a d Hd. apply Forall_forall. intros s Hs.
    assert (0 <= s_power s < two63); [|lia]. apply Hp. apply elem_of_app. left. apply InvStake.elem_of_bonded; eauto. }
  split; [|split; [|split; assumption]].
  - rewrite bonded_power_map_sum. apply map_sum_nonneg. intros a d Hd. apply sum_power_nonneg, Forall_forall, (Hbn a d Hd).
  - rewrite frozen_power_map_sum. apply map_sum_nonneg. intros k s0 Hk. apply (Hfr k s0 Hk).
Qed.

Lemma hist_inv_bal S0 s p gh W :
  hist_inv S0 (s, p, gh) -> powers_ok (work s) -> gh_withdrawn gh <= W ->
  total_balance (work s) + pending p s <= S0 + W /\ 0 <= pending p s /\
  supply (work s) + pending p s <= S0 + W /\
  forall a, 0 <= bal_of (work s) a <= S0 + W.
Proof.
  intros (Heq & Hr & Hw & Hsl & Hb & Hfs & _) Hp HW.
  destruct (powers_ok_parts _ Hp) as (Hbp & Hfp & _).
  assert (Happ : 0 < amountPerPower) by (unfold amountPerPower; lia).
  assert (Hpend : 0 <= pending p s) by (destruct p; cbn [pending]; try lia; apply Hfs; reflexivity).
  assert (Hgone : 0 <= amountPerPower * gh_slashed gh) by (apply Z.mul_nonneg_nonneg; lia).
  assert (Hsup : supply (work s) + pending p s <= S0 + W) by lia.
  assert (Hstaked : 0 <= amountPerPower * (bonded_power (work s) + frozen_power (work s)))
    by (apply Z.mul_nonneg_nonneg; lia).
  assert (Htb : total_balance (work s) + pending p s <= S0 + W) by (unfold supply in Hsup; lia).
  split; [exact Htb|]. split; [exact Hpend|]. split; [exact Hsup|].
  intros a. pose proof (bal_le_total _ a Hr). pose proof (bal_range_bal_of _ a Hr). lia.
Qed.

Lemma hist_step_begin S0 s gh hd s' x :
  begin_block s hd = (s', Ok x) -> h_height hd = last_height s + 1 -> run_ok s ->
  hist_inv S0 (s, PIdle, gh) ->
  hist_inv S0 (s', POpen, {| gh_withdrawn := gh_withdrawn gh; gh_slashed := gh_slashed gh + slashed_power s hd;
                             gh_burned := gh_burned gh |}).
Proof.
  intros Hb Hh (Hu & _ & Hpw & Hpar) (Heq & Hr & Hw & Hsl & Hbn & _ & Hfz).
  destruct (powers_ok_parts _ Hpw) as (_ & _ & _ & Hnn).
  assert (Hratio : 0 <= g_slashRatio (gparams s) <= 100) by (destruct Hpar as (_ & _ & _ & Hx & _); exact Hx).
  destruct (begin_block_supply _ _ _ _ Hb Hh Hratio Hu Hnn) as (Hs & Hsn & Ha & _ & Hsub).
  destruct (begin_block_feesum _ _ _ _ Hb Hh) as (Hf0 & _).
  assert (Hbase : base_of s' = base_of s)
    by (destruct (begin_block_control _ _ _ _ Hb) as [->|(_ & l & ->)]; reflexivity).
  cbn [hist_inv pending gh_withdrawn gh_slashed gh_burned] in *.
  split; [rewrite Hs, Hf0; lia|]. split; [intros a y; rewrite Ha; apply Hr|].
  split; [exact Hw|]. split; [lia|]. split; [exact Hbn|].
  split; [intros _; rewrite Hf0; pose proof two256_pos; lia|].
  rewrite Hbase, Hfz. exact Hsub.
Qed.

Lemma deliver_ok_funds s t s' g :
  deliver s t = (s', Ok g) -> params_ok (gparams s) -> tx_wf t ->
  fee_of t + t_amount t <= bal_of (work s) (t_from t) /\ fee_of t < two255 /\ t_amount t < two255.
Proof.
  intros Hd Hpar Hwf. apply deliver_ok_inv in Hd as (sender & lim' & Hs & H0 & H1 & _).
  rewrite (bal_of_lookup _ _ _ Hs). exact (validated_funds _ _ _ H0 H1 Hpar Hwf).
Qed.

Lemma withdrawn_of_nonneg t : payload_wf t -> 0 <= withdrawn_of t.
Proof.
  intros Hp. unfold withdrawn_of. destruct (t_type t =? TRX_WITHDRAW) eqn:E; [|lia]. apply Z.eqb_eq in E.
  destruct (t_payload t) as [| |req| | | |] eqn:Epl; try lia. specialize (Hp req E Epl). lia.
Qed.

Lemma room_for_bound l t a :
  (t_type t = TRX_TRANSFER -> t_from t <> t_to t -> a = t_to t -> bal_of l a + t_amount t < two256) ->
  0 <= withdrawn_of t -> bal_of l a + withdrawn_of t < two256 ->
  room_for l t a.
Proof.
  intros Htr Hwn Hw. unfold room_for, tx_in, withdrawn_of in *.
  destruct (t_type t =? TRX_TRANSFER) eqn:E1.
  - apply Z.eqb_eq in E1. destruct (decide (a = t_from t)) as [Haf|Haf]; [left; auto|]. right.
    destruct (decide (a = t_to t)) as [Hat|Hat]; [|lia]. apply Htr; [exact E1|congruence|exact Hat].
  - right. destruct (t_type t =? TRX_WITHDRAW); [|lia].
    destruct (t_payload t); try lia. destruct (decide (a = t_from t)); lia.
Qed.

Lemma native_of_ok s t s' g : deliver s t = (s', Ok g) -> t_evm t = None -> native s t.
Proof.
  intros Hd He. destruct (evm_path_of t (acct_of (work s) (t_to t))) eqn:Ep; [exfalso|exact Ep].
  assert (Hx : evm_execute (find_or_new (work s) (t_to t)).1 t = Ok (work s', g)).
  { apply (deliver_ok_evm_inv _ _ _ _ Hd). unfold native. rewrite Ep. discriminate. }
  unfold evm_execute in Hx. rewrite He in Hx. discriminate.
Qed.

Lemma hist_step_deliver_ok_native S0 s gh t s' g :
  deliver s t = (s', Ok g) -> run_ok s -> tx_wf t -> payload_wf t -> native s t ->
  hist_inv S0 (s, POpen, gh) -> S0 + (gh_withdrawn gh + withdrawn_of t) < supply_bound ->
  hist_inv S0 (s', POpen, {| gh_withdrawn := gh_withdrawn gh + withdrawn_of t; gh_slashed := gh_slashed gh;
                             gh_burned := gh_burned gh |}).
Proof.
  intros Hd (Hu & Htot & Hpw & Hpar) Hwf Hpl Hn Hinv Hbound.
  pose proof (withdrawn_of_nonneg _ Hpl) as Hwn.
  destruct (hist_inv_bal S0 s POpen gh (gh_withdrawn gh) Hinv Hpw ltac:(lia)) as (Htb & Hpend & Hsup & Hbal).
  destruct Hinv as (Heq & Hr & Hw & Hsl & Hbn & Hfs & Hfz).
  destruct supply_bound_lt as (Hb255 & Hb64). pose proof two256_double as H25.
  destruct (deliver_ok_funds _ _ _ _ Hd Hpar Hwf) as (Hfund & Hfee & Hamt).
  pose proof (fee_of_range t) as Hfr. pose proof Hwf as ((Ha0 & _) & _).
  assert (Hroom : forall a, room_for (work s) t a).
  { intros a. apply room_for_bound; [|exact Hwn|pose proof (Hbal a); lia].
    intros _ Hne ->. pose proof (bal2_le_total (work s) (t_to t) (t_from t) Hr ltac:(congruence)). lia. }
  assert (Hstk : stake_amount_ok t). { intros _. pose proof (Hbal (t_from t)). lia. }
  assert (Hun : unstake_ok (work s) t) by (intros _; auto).
  pose proof (deliver_native_supply _ _ _ _ Hd Hn Hwf Hpl Hr (Hroom _) (Hroom _) Hstk Hun) as Hs'.
  destruct (deliver_native_balances _ _ _ _ Hd Hn Hwf Hpl Hr) as (_ & Hr' & _).
  pose proof (deliver_native_feesum _ _ _ _ Hd Hn) as Hf'.
  destruct (deliver_bctx _ _ _ _ Hd) as (_ & _ & _ & Hg & Hc & _).
  pose proof (deliver_native_frozen _ _ _ _ Hd Hn ltac:(intros _; exact Hu)) as Hsub.
  cbn [pending] in *. specialize (Hfs eq_refl).
  assert (Hexact : b_feesum (bctx s') = b_feesum (bctx s) + fee_of t).
  { rewrite Hf'. apply add256_small. pose proof (Hbal (t_from t)). pose proof (bal_le_total _ (t_from t) Hr). lia. }
  cbn [hist_inv pending gh_withdrawn gh_slashed gh_burned].
  split; [rewrite Hs', Hexact; lia|]. split; [exact Hr'|]. split; [lia|]. split; [exact Hsl|]. split; [exact Hbn|].
  split; [intros _; rewrite Hf'; apply add256_range|].
  rewrite (base_of_same _ _ Hc Hg). etransitivity; eassumption.
Qed.

Lemma hist_step_deliver_fail S0 s gh t s' r :
  deliver s t = (s', r) -> (forall g, r <> Ok g) -> run_ok s -> tx_wf t -> payload_wf t ->
  hist_inv S0 (s, POpen, gh) -> S0 + gh_withdrawn gh < supply_bound ->
  hist_inv S0 (s', POpen, gh).
Proof.
  intros Hd Hnok (Hu & Htot & Hpw & Hpar) Hwf Hpl Hinv Hbound.
  destruct (hist_inv_bal S0 s POpen gh (gh_withdrawn gh) Hinv Hpw ltac:(lia)) as (_ & _ & _ & Hbal).
  destruct Hinv as (Heq & Hr & Hw & Hsl & Hbn & Hfs & Hfz).
  destruct supply_bound_lt as (Hb255 & _).
  assert (Hlt : bal_of (work s) (t_from t) < two255) by (pose proof (Hbal (t_from t)); lia).
  destruct (deliver_fail_supply _ _ _ _ Hd Hnok Hwf Hpl Hpar Hr Hlt) as (Hs' & Hr' & Hf').
  destruct (deliver_bctx _ _ _ _ Hd) as (_ & _ & Hfsum & Hg & Hc & _).
  assert (Hfsame : b_feesum (bctx s') = b_feesum (bctx s)).
  { destruct r as [g|e|p]; [exfalso; apply (Hnok g); reflexivity|exact Hfsum..]. }
  cbn [hist_inv pending] in *.
  split; [rewrite Hs', Hfsame; exact Heq|]. split; [exact Hr'|]. split; [exact Hw|]. split; [exact Hsl|].
  split; [exact Hbn|]. split; [rewrite Hfsame; exact Hfs|].
  rewrite (base_of_same _ _ Hc Hg), Hf'. exact Hfz.
Qed.

Lemma paid_le_feesum b : 0 <= b_feesum b -> 0 <= paid_fees b <= b_feesum b.
Proof. intros H. unfold paid_fees. destruct (b_proposer b); [destruct (0 <? sign256 (b_feesum b))|]; lia. Qed.

Lemma end_fee_le b a : 0 <= b_feesum b -> 0 <= end_fee b a <= b_feesum b.
Proof.
  intros H. unfold end_fee. destruct (decide (b_proposer b = Some a)); [destruct (0 <? sign256 (b_feesum b))|]; lia.
Qed.

Lemma end_block_hyps_from_inv S0 s gh :
  run_ok s -> hist_inv S0 (s, POpen, gh) -> S0 + gh_withdrawn gh < supply_bound ->
  bal_range (work s) /\ 0 <= b_feesum (bctx s) < two256 /\ frozen_synced s /\
  (forall a, bal_of (work s) a + end_fee (bctx s) a +
             refunds_to (sorted_items (frozen (base_of s))) (b_height (bctx s)) a < two256).
Proof.
  intros (Hu & Htot & Hpw & Hpar) Hinv Hbound.
  destruct (hist_inv_bal S0 s POpen gh (gh_withdrawn gh) Hinv Hpw ltac:(lia)) as (Htb & Hpend & Hsup & Hbal).
  destruct Hinv as (Heq & Hr & Hw & Hsl & Hbn & Hfs & Hfz).
  destruct (powers_ok_parts _ Hpw) as (Hbp & Hfp & Hfr & _).
  destruct supply_bound_lt as (Hb255 & _). pose proof two256_double as H25.
  cbn [pending] in *. specialize (Hfs eq_refl).
  split; [exact Hr|]. split; [exact Hfs|]. split.
  - intros k s0 Hk _. pose proof (lookup_weaken _ _ _ _ Hk Hfz) as Hk'.
    split; [apply (Hfr k s0 Hk')|]. exists s0. auto.
  - intros a.
    pose proof (end_fee_le (bctx s) a (proj1 Hfs)) as Hef.
    assert (Hrf : refunds_to (sorted_items (frozen (base_of s))) (b_height (bctx s)) a
                  <= amountPerPower * frozen_power (work s)).
    { etransitivity; [apply refunds_le_frozen|].
      - intros k s0 Hk. apply (Hfr k s0). apply (lookup_weaken _ _ _ _ Hk Hfz).
      - rewrite frozen_power_map_sum.
        assert (Happ : 0 < amountPerPower) by (unfold amountPerPower; lia).
        apply Z.mul_le_mono_nonneg_l; [lia|]. apply map_sum_subseteq; [exact Hfz|].
        intros k x Hk. apply (Hfr k x Hk). }
    pose proof (bal_le_total _ a Hr) as Hbt.
    assert (Hbonded : 0 <= amountPerPower * bonded_power (work s)) by (apply Z.mul_nonneg_nonneg; [unfold amountPerPower|]; lia).
    unfold supply in Hsup. lia.
Qed.

Lemma hist_step_end S0 s gh s' ups :
  end_block s = (s', Ok ups) -> run_ok s ->
  hist_inv S0 (s, POpen, gh) -> S0 + gh_withdrawn gh < supply_bound ->
  hist_inv S0 (s', PEnded, {| gh_withdrawn := gh_withdrawn gh; gh_slashed := gh_slashed gh;
                              gh_burned := gh_burned gh + (b_feesum (bctx s) - paid_fees (bctx s)) |}).
Proof.
  intros He Hok Hinv Hbound.
  destruct (end_block_hyps_from_inv _ _ _ Hok Hinv Hbound) as (Hr & Hfs & Hsync & Hroom).
  destruct Hinv as (Heq & _ & Hw & Hsl & Hbn & _ & _). cbn [pending] in Heq.
  pose proof (end_block_supply _ _ _ He Hr Hfs Hsync Hroom) as Hs'.
  destruct (end_block_balances _ _ _ He Hr Hfs) as (Hr' & _).
  pose proof (paid_le_feesum (bctx s) (proj1 Hfs)) as Hpaid.
  cbn [hist_inv pending gh_withdrawn gh_slashed gh_burned].
  split; [rewrite Hs'; lia|]. split; [exact Hr'|]. split; [exact Hw|]. split; [exact Hsl|]. split; [lia|].
  split; [discriminate|exact I].
Qed.

Lemma hist_step_commit S0 s gh :
  hist_inv S0 (s, PEnded, gh) -> hist_inv S0 (commit s, PIdle, gh).
Proof.
  intros (Heq & Hr & Hw & Hsl & Hbn & _ & _). cbn [hist_inv pending] in *.
  split; [exact Heq|]. split; [exact Hr|]. split; [exact Hw|]. split; [exact Hsl|]. split; [exact Hbn|].
  split; [discriminate|]. unfold base_of, commit. cbn [committed work]. rewrite last_snoc. reflexivity.
Qed.

(* ================================================================== C02 on the EVM path *)
Definition evm_write (l : ledgers) (x : addr * Z * Z) : ledgers :=
  let '(a, bal, nonce) := x in
  let old := default acct0 (accts l !! a) in
  set_acct l a {| a_nonce := nonce; a_bal := bal; a_code := a_code old; a_name := a_name old; a_doc := a_doc old |}.

Lemma evm_fold_total (xs : list (addr * Z * Z)) : forall l,
  NoDup ((fun x : addr * Z * Z => x.1.1) <$> xs) ->
  total_balance (foldl evm_write l xs) = total_balance l + sumZ_with (fun x : addr * Z * Z => x.1.2 - bal_of l x.1.1) xs /\
  dels (foldl evm_write l xs) = dels l /\ frozen (foldl evm_write l xs) = frozen l /\
  (bal_range l -> (forall x, x ∈ xs -> 0 <= x.1.2 < two256) -> bal_range (foldl evm_write l xs)).
Proof.
  induction xs as [|[[a b] n] xs IH]; intros l Hnd; cbn [foldl].
  - split; [simpl; lia|]. auto.
  - rewrite fmap_cons in Hnd. apply NoDup_cons in Hnd as (Hnotin & Hnd). cbn [fst snd] in Hnotin.
    destruct (IH (evm_write l (a, b, n)) Hnd) as (Ht & Hd & Hf & Hr).
    split; [|split; [rewrite Hd; reflexivity|split; [rewrite Hf; reflexivity|]]].
    + rewrite Ht.
      assert (Hw : total_balance (evm_write l (a, b, n)) = total_balance l - bal_of l a + b).
      { unfold evm_write. rewrite total_balance_set_acct. reflexivity. }
      rewrite Hw. change (sumZ_with ?f ((a, b, n) :: xs)) with (f (a, b, n) + sumZ_with f xs). cbn [fst snd].
      assert (Hext : sumZ_with (fun x : addr * Z * Z => x.1.2 - bal_of (evm_write l (a, b, n)) x.1.1) xs =
                     sumZ_with (fun x : addr * Z * Z => x.1.2 - bal_of l x.1.1) xs).
      { apply sumZ_with_ext. intros x Hx. unfold evm_write. rewrite bal_of_set_acct.
        destruct (decide (a = x.1.1)) as [->|Hne]; [|reflexivity].
        exfalso. apply Hnotin. apply elem_of_list_fmap. exists x. auto. }
      rewrite Hext. lia.
    + intros Hrl Hxs. apply Hr.
      * unfold evm_write. apply bal_range_set_acct; [exact Hrl|]. cbn [a_bal].
        apply (Hxs (a, b, n)). apply elem_of_cons. auto.
      * intros x Hx. apply Hxs. apply elem_of_cons. auto.
Qed.

(* under the oracle hypothesis an EVM execution takes exactly gas used x price (+ what the contract
   semantics burnt) out of the supply; with [deliver_evm_gas] that amount is what enters the fee sum *)
Theorem deliver_evm_supply s t s' g e burn :
  deliver s t = (s', Ok g) -> ~ native s t -> t_evm t = Some e ->
  evm_effect_fee_ok (work s) t (g_gasPrice (gparams s)) e burn -> bal_range (work s) ->
  supply (work s') = supply (work s) - e_gas e * g_gasPrice (gparams s) - burn /\ bal_range (work s').
Proof.
  intros Hd Hn Hevm (Hnd & _ & Hrng & _ & Hsum) Hr.
  pose proof (deliver_ok_evm_inv _ _ _ _ Hd Hn) as He. unfold evm_execute in He.
  rewrite Hevm in He. destruct (e_ok e); [|discriminate]. cbn [negb] in He.
  set (l0 := (find_or_new (work s) (t_to t)).1) in *.
  change (foldl _ l0 (e_accts e)) with (foldl evm_write l0 (e_accts e)) in He.
  destruct (evm_fold_total (e_accts e) l0 Hnd) as (Ht & Hdl & Hfz & Hrr).
  set (l1 := foldl evm_write l0 (e_accts e)) in *.
  assert (Hr1 : bal_range l1) by (apply Hrr; [apply bal_range_find_or_new; exact Hr|exact Hrng]).
  assert (Hs1 : supply l1 = supply (work s) - e_gas e * g_gasPrice (gparams s) - burn).
  { unfold supply. rewrite Ht, (bonded_power_same _ _ Hdl), (frozen_power_same _ _ Hfz).
    assert (Hext : sumZ_with (fun x : addr * Z * Z => x.1.2 - bal_of l0 x.1.1) (e_accts e) =
                   sumZ_with (fun x : addr * Z * Z => x.1.2 - bal_of (work s) x.1.1) (e_accts e)).
    { apply sumZ_with_ext. intros x _. unfold l0. rewrite bal_of_find_or_new. reflexivity. }
    rewrite Hext, Hsum. fold (supply l0). unfold l0.
    pose proof (supply_find_or_new (work s) (t_to t)) as Hs0. unfold supply in Hs0. lia. }
  destruct (e_created e) as [c|]; injection He as <-.
  - rewrite supply_set_acct. cbn [a_bal]. split; [unfold bal_of, acct_of; lia|].
    apply bal_range_set_acct; [exact Hr1|]. cbn [a_bal]. apply (bal_range_bal_of _ c Hr1).
  - auto.
Qed.
Print Assumptions deliver_evm_supply.

(* ================================================================== histories, EVM executions under the oracle hypothesis *)
(* what an EVM execution destroys beyond the gas fee, read off the observed effect *)
Definition evm_burn (s : state) (t : tx) : Z :=
  if evm_path_of t (acct_of (work s) (t_to t)) then
    match t_evm t with
    | Some e => - sumZ_with (fun x : addr * Z * Z => x.1.2 - bal_of (work s) x.1.1) (e_accts e)
                - e_gas e * g_gasPrice (gparams s)
    | None => 0 end
  else 0.

(* a delivery the history theorem covers: Go-typed fields, and either the native path, or an EVM
   call that fails (no effect), or an observed effect satisfying the oracle hypothesis *)
Definition deliver_covered (s : state) (t : tx) : Prop :=
  tx_wf t /\ payload_wf t /\
  (native s t \/ t_evm t = None \/
   exists e, t_evm t = Some e /\ evm_effect_fee_ok (work s) t (g_gasPrice (gparams s)) e (evm_burn s t)).

Definition hstepE (x : state * phase * ghost) (o : sop) : option (state * phase * ghost) :=
  let '(s, p, gh) := x in
  match p, o with
  | POpen, SDeliver t =>
      match deliver s t with
      | (s', Ok _) => Some (s', POpen, {| gh_withdrawn := gh_withdrawn gh + withdrawn_of t;
                                          gh_slashed := gh_slashed gh; gh_burned := gh_burned gh + evm_burn s t |})
      | (s', _) => Some (s', POpen, gh) end
  | _, _ => hstep x o
  end.

Fixpoint hrunE (x : state * phase * ghost) (ops : list sop) : option (state * phase * ghost) :=
  match ops with
  | [] => Some x
  | o :: r => match hstepE x o with Some y => hrunE y r | None => None end
  end.

Fixpoint covered (s : state) (ops : list sop) : Prop :=
  match ops with
  | [] => True
  | o :: r => (match o with SDeliver t => deliver_covered s t | _ => True end) /\ covered (sstep s o) r
  end.

(* what the invariant needs of one operation: Go-typed fields on every delivery, the rest of
   [deliver_covered] only where the delivery succeeds (a failed one is [hist_step_deliver_fail]) *)
Definition op_covered (s : state) (o : sop) : Prop :=
  match o with
  | SDeliver t => tx_wf t /\ payload_wf t /\ (forall g, (deliver s t).2 = Ok g -> deliver_covered s t)
  | _ => True end.

Fixpoint covered_ok (s : state) (ops : list sop) : Prop :=
  match ops with
  | [] => True
  | o :: r => op_covered s o /\ covered_ok (sstep s o) r
  end.

Lemma deliver_covered_op s t : deliver_covered s t -> op_covered s (SDeliver t).
Proof. intros Hc. pose proof Hc as (Hwf & Hpl & _). split; [exact Hwf|]. split; [exact Hpl|]. intros _ _. exact Hc. Qed.

Lemma covered_covered_ok ops : forall s, covered s ops -> covered_ok s ops.
Proof.
  induction ops as [|o ops IH]; intros s; cbn [covered covered_ok]; [auto|].
  intros (Ho & Hcov). split; [|apply IH; exact Hcov].
  destruct o as [hd|t| |]; try exact I. apply deliver_covered_op. exact Ho.
Qed.

Lemma evm_burn_native s t : native s t -> evm_burn s t = 0.
Proof. unfold native, evm_burn. intros ->. reflexivity. Qed.

Lemma evm_path_withdrawn t r : evm_path_of t r = true -> withdrawn_of t = 0.
Proof.
  unfold evm_path_of, withdrawn_of. intros H. destruct (t_type t =? TRX_WITHDRAW) eqn:E; [|reflexivity].
  apply Z.eqb_eq in E. rewrite E in H. discriminate H.
Qed.

Lemma hstepE_sstep s p gh o s' p' gh' : hstepE (s, p, gh) o = Some (s', p', gh') -> s' = sstep s o.
Proof.
  unfold hstepE. destruct p, o as [hd|t| |]; try apply hstep_sstep.
  unfold sstep. destruct (deliver s t) as [s1 [x|e|pp]]; intros [= <- _ _]; reflexivity.
Qed.

Lemma deliver_evm_frozen s t s' g : deliver s t = (s', Ok g) -> ~ native s t -> frozen (work s') = frozen (work s).
Proof.
  intros Hd Hn.
  rewrite (keeps_frozen _ _ _ (evm_execute_keeps _ _ _ _ (deliver_ok_evm_inv _ _ _ _ Hd Hn)) I).
  exact (keeps_frozen _ _ _ (find_or_new_keeps (work s) (t_to t)) I).
Qed.

Lemma evm_fee_le_total l t price e burn :
  evm_effect_fee_ok l t price e burn -> bal_range l -> 0 <= price -> 0 <= e_gas e * price <= total_balance l.
Proof.
  intros (Hnd & Hgas & Hrng & Hburn & Hsum) Hr Hprice. split; [apply Z.mul_nonneg_nonneg; lia|].
  assert (Hold : sumZ_with (fun x : addr * Z * Z => bal_of l x.1.1) (e_accts e) <= total_balance l).
  { rewrite total_balance_map_sum.
    pose proof (sum_distinct_le_map_sum a_bal _ (accts l) Hnd (fun k x Hk => proj1 (Hr k x Hk))) as Hle.
    rewrite sumZ_with_fmap in Hle. erewrite sumZ_with_ext; [exact Hle|]. intros x _. apply bal_of_from_option. }
  assert (Hnew : 0 <= sumZ_with (fun x : addr * Z * Z => x.1.2) (e_accts e)).
  { apply sumZ_with_nonneg. intros x Hx. apply Hrng, Hx. }
  rewrite (sumZ_with_sub (fun x : addr * Z * Z => x.1.2) (fun x => bal_of l x.1.1)) in Hsum. lia.
Qed.

Lemma hist_step_deliver_evm S0 s gh t s' g e :
  deliver s t = (s', Ok g) -> ~ native s t -> t_evm t = Some e ->
  evm_effect_fee_ok (work s) t (g_gasPrice (gparams s)) e (evm_burn s t) ->
  run_ok s -> hist_inv S0 (s, POpen, gh) -> S0 + gh_withdrawn gh < supply_bound ->
  hist_inv S0 (s', POpen, {| gh_withdrawn := gh_withdrawn gh + withdrawn_of t; gh_slashed := gh_slashed gh;
                             gh_burned := gh_burned gh + evm_burn s t |}).
Proof.
  intros Hd Hn Hevm Hor (Hu & Htot & Hpw & Hpar) Hinv Hbound.
  destruct (hist_inv_bal S0 s POpen gh (gh_withdrawn gh) Hinv Hpw ltac:(lia)) as (Htb & Hpend & _ & _).
  destruct Hinv as (Heq & Hr & Hw & Hsl & Hbn & Hfs & Hfz).
  destruct supply_bound_lt as (Hb255 & _). pose proof two256_double as H25.
  destruct (deliver_evm_supply _ _ _ _ _ _ Hd Hn Hevm Hor Hr) as (Hs' & Hr').
  destruct (deliver_evm_gas _ _ _ _ Hd Hn) as (e' & He' & _ & _ & Hf' & _).
  rewrite Hevm in He'. injection He' as <-.
  destruct (deliver_bctx _ _ _ _ Hd) as (_ & _ & _ & Hgp & Hc & _).
  pose proof (evm_path_withdrawn t _ (not_false_is_true _ Hn)) as Hw0.
  assert (Hprice : 0 <= g_gasPrice (gparams s)) by (destruct Hpar as ((Hx & _) & _); exact Hx).
  pose proof (evm_fee_le_total _ _ _ _ _ Hor Hr Hprice) as Hfeeb.
  destruct Hor as (_ & _ & _ & Hburn & _).
  cbn [pending] in *. specialize (Hfs eq_refl).
  (* the fee sum does not wrap: the fee was held by accounts, so it is below the bound *)
  assert (Hexact : b_feesum (bctx s') = b_feesum (bctx s) + e_gas e * g_gasPrice (gparams s)).
  { rewrite Hf'. rewrite mul256_small by lia. apply add256_small. lia. }
  cbn [hist_inv pending gh_withdrawn gh_slashed gh_burned].
  split; [rewrite Hs', Hexact, Hw0; lia|]. split; [exact Hr'|]. split; [lia|]. split; [exact Hsl|]. split; [lia|].
  split; [intros _; rewrite Hf'; apply add256_range|].
  rewrite (base_of_same _ _ Hc Hgp), (deliver_evm_frozen _ _ _ _ Hd Hn). exact Hfz.
Qed.

Lemma hstepE_withdrawn_mono s p gh o s' p' gh' :
  hstepE (s, p, gh) o = Some (s', p', gh') ->
  (match o with SDeliver t => payload_wf t | _ => True end) ->
  gh_withdrawn gh <= gh_withdrawn gh'.
Proof.
  unfold hstepE, hstep. destruct p, o as [hd|t| |]; try discriminate.
  - destruct (h_height hd =? last_height s + 1); [|discriminate].
    destruct (begin_block s hd) as [s1 [x|e|pp]]; [|discriminate..]. intros [= _ _ <-] _. cbn. lia.
  - destruct (deliver s t) as [s1 [x|e|pp]]; intros [= _ _ <-] Hp; cbn; try lia.
    pose proof (withdrawn_of_nonneg _ Hp). lia.
  - destruct (end_block s) as [s1 [x|e|pp]]; [|discriminate..]. intros [= _ _ <-] _. cbn. lia.
  - intros [= _ _ <-] _. lia.
Qed.

Lemma op_covered_payload s o : op_covered s o -> match o with SDeliver t => payload_wf t | _ => True end.
Proof. destruct o; try (intros _; exact I). intros (_ & Hpl & _). exact Hpl. Qed.

Lemma hrunE_withdrawn_mono ops : forall s p gh s' p' gh',
  hrunE (s, p, gh) ops = Some (s', p', gh') -> covered_ok s ops -> gh_withdrawn gh <= gh_withdrawn gh'.
Proof.
  induction ops as [|o ops IH]; intros s p gh s' p' gh'; cbn [hrunE covered_ok].
  - intros [= _ _ <-] _. lia.
  - destruct (hstepE (s, p, gh) o) as [[[s1 p1] gh1]|] eqn:E; [|discriminate].
    intros H (Ho & Hcov).
    pose proof (hstepE_sstep _ _ _ _ _ _ _ E) as Hs1. subst s1.
    pose proof (hstepE_withdrawn_mono _ _ _ _ _ _ _ E (op_covered_payload _ _ Ho)) as H1.
    pose proof (IH _ _ _ _ _ _ H Hcov) as H2. lia.
Qed.

Lemma hist_step_delivered S0 s gh t s' g :
  deliver s t = (s', Ok g) -> run_ok s -> deliver_covered s t ->
  hist_inv S0 (s, POpen, gh) -> S0 + (gh_withdrawn gh + withdrawn_of t) < supply_bound ->
  hist_inv S0 (s', POpen, {| gh_withdrawn := gh_withdrawn gh + withdrawn_of t; gh_slashed := gh_slashed gh;
                             gh_burned := gh_burned gh + evm_burn s t |}).
Proof.
  intros Hd Hok (Hwf & Hpl & Hcase) Hinv Hbound.
  assert (Hnat : native s t -> hist_inv S0 (s', POpen,
            {| gh_withdrawn := gh_withdrawn gh + withdrawn_of t; gh_slashed := gh_slashed gh;
               gh_burned := gh_burned gh + evm_burn s t |})).
  { intros Hn. rewrite (evm_burn_native _ _ Hn), Z.add_0_r.
    exact (hist_step_deliver_ok_native _ _ _ _ _ _ Hd Hok Hwf Hpl Hn Hinv Hbound). }
  destruct Hcase as [Hn|[Hnone|(e & Hevm & Hor)]].
  - apply Hnat. exact Hn.
  - apply Hnat. apply (native_of_ok _ _ _ _ Hd Hnone).
  - destruct (evm_path_of t (acct_of (work s) (t_to t))) eqn:Ep; [|apply Hnat; exact Ep].
    assert (Hn : ~ native s t) by (unfold native; rewrite Ep; discriminate).
    apply (hist_step_deliver_evm _ _ _ _ _ _ e Hd Hn Hevm Hor Hok Hinv).
    pose proof (withdrawn_of_nonneg _ Hpl). lia.
Qed.

Lemma hist_stepE S0 s p gh o s' p' gh' :
  hstepE (s, p, gh) o = Some (s', p', gh') -> run_ok s -> op_covered s o ->
  hist_inv S0 (s, p, gh) -> S0 + gh_withdrawn gh' < supply_bound ->
  hist_inv S0 (s', p', gh').
Proof.
  intros Hst Hok Ho Hinv Hbound.
  pose proof (hstepE_withdrawn_mono _ _ _ _ _ _ _ Hst (op_covered_payload _ _ Ho)) as Hmono.
  revert Hst. unfold hstepE, hstep. destruct p, o as [hd|t| |]; try discriminate.
  - destruct (h_height hd =? last_height s + 1) eqn:Eh; [|discriminate]. apply Z.eqb_eq in Eh.
    destruct (begin_block s hd) as [s1 [x|e|pp]] eqn:Eb; [|discriminate..]. intros [= <- <- <-].
    apply (hist_step_begin _ _ _ _ _ _ Eb Eh Hok Hinv).
  - destruct Ho as (Hwf & Hpl & Hcov).
    destruct (deliver s t) as [s1 [x|e|pp]] eqn:Ed; intros [= <- <- <-].
    + apply (hist_step_delivered _ _ _ _ _ _ Ed Hok (Hcov x eq_refl) Hinv). exact Hbound.
    + apply (hist_step_deliver_fail _ _ _ _ _ _ Ed); try assumption. intros g; discriminate.
    + apply (hist_step_deliver_fail _ _ _ _ _ _ Ed); try assumption. intros g; discriminate.
  - destruct (end_block s) as [s1 [x|e|pp]] eqn:Ee; [|discriminate..]. intros [= <- <- <-].
    apply (hist_step_end _ _ _ _ _ Ee Hok Hinv). exact Hbound.
  - intros [= <- <- <-]. apply hist_step_commit. exact Hinv.
Qed.

Lemma hist_runE S0 ops : forall s p gh s' p' gh',
  hrunE (s, p, gh) ops = Some (s', p', gh') -> along run_ok s ops -> covered_ok s ops ->
  hist_inv S0 (s, p, gh) -> S0 + gh_withdrawn gh' < supply_bound ->
  hist_inv S0 (s', p', gh').
Proof.
  induction ops as [|o ops IH]; intros s p gh s' p' gh'; cbn [hrunE along covered_ok].
  - intros [= <- <- <-] _ _ Hinv _. exact Hinv.
  - destruct (hstepE (s, p, gh) o) as [[[s1 p1] gh1]|] eqn:E; [|discriminate].
    intros H (Hok & Hal) (Ho & Hcov) Hinv Hbound.
    pose proof (hstepE_sstep _ _ _ _ _ _ _ E) as Hs1. subst s1.
    pose proof (hrunE_withdrawn_mono _ _ _ _ _ _ _ H Hcov) as Hmono.
    apply (IH _ _ _ _ _ _ H Hal Hcov); [|exact Hbound].
    apply (hist_stepE _ _ _ _ _ _ _ _ E Hok Ho Hinv). lia.
Qed.

Lemma hrunE_srun ops : forall s p gh s' p' gh', hrunE (s, p, gh) ops = Some (s', p', gh') -> s' = srun s ops.
Proof.
  induction ops as [|o ops IH]; intros s p gh s' p' gh'; cbn [hrunE].
  - intros [= <- _ _]. reflexivity.
  - destruct (hstepE (s, p, gh) o) as [[[s1 p1] gh1]|] eqn:E; [|discriminate].
    intros H. apply hstepE_sstep in E. subst s1. apply IH in H. exact H.
Qed.

Lemma hrunE_eval s p gh ops p' gh' :
  (fun y : state * phase * ghost => (y.1.2, y.2)) <$> hrunE (s, p, gh) ops = Some (p', gh') ->
  hrunE (s, p, gh) ops = Some (srun s ops, p', gh').
Proof.
  destruct (hrunE (s, p, gh) ops) as [[[s1 p1] gh1]|] eqn:E; [|discriminate].
  intros [= <- <-]. rewrite (hrunE_srun _ _ _ _ _ _ _ E). reflexivity.
Qed.

(* the history theorem under the per-step premise the invariant uses; [C02_history_evm] asks
   [deliver_covered] of failed deliveries too *)
Theorem C02_history_evm_ok g ops s p gh :
  hrunE (init_chain g, PIdle, ghost0) ops = Some (s, p, gh) ->
  (forall pre, pre `prefix_of` ops -> run_ok (srun (init_chain g) pre)) ->
  covered_ok (init_chain g) ops ->
  bal_range (work (init_chain g)) ->
  supply (work (init_chain g)) + gh_withdrawn gh < supply_bound ->
  s = srun (init_chain g) ops /\
  C02_equation g s p gh /\
  bal_range (work s) /\
  (forall a, 0 <= bal_of (work s) a < supply_bound) /\
  0 <= gh_withdrawn gh /\ 0 <= gh_slashed gh /\ 0 <= gh_burned gh.
Proof.
  intros Hrun Hok Hcov Hr0 Hbound.
  pose proof (hrunE_srun _ _ _ _ _ _ _ Hrun) as Hs. split; [exact Hs|].
  pose proof (hist_runE _ _ _ _ _ _ _ _ Hrun (along_prefixes _ _ _ Hok) Hcov (hist_inv_genesis _ Hr0) Hbound) as Hinv.
  assert (Hpw : powers_ok (work s)) by (rewrite Hs; apply (Hok ops); reflexivity).
  destruct (hist_inv_bal _ _ _ _ (gh_withdrawn gh) Hinv Hpw ltac:(lia)) as (_ & _ & _ & Hbal).
  destruct Hinv as (Heq & Hr & Hw & Hsl & Hbn & _).
  split; [exact Heq|]. split; [exact Hr|]. split; [intros a; specialize (Hbal a); lia|]. auto.
Qed.

(* C02, history form, with contract calls: as [C02_history] below, but deliveries may also run the EVM
   when the observed effect satisfies the oracle hypothesis [evm_effect_fee_ok]; what such a call
   destroys beyond its gas fee ([evm_burn]) is accounted under [gh_burned]. *)
Theorem C02_history_evm g ops s p gh :
  hrunE (init_chain g, PIdle, ghost0) ops = Some (s, p, gh) ->
  (forall pre, pre `prefix_of` ops -> run_ok (srun (init_chain g) pre)) ->
  covered (init_chain g) ops ->
  bal_range (work (init_chain g)) ->
  supply (work (init_chain g)) + gh_withdrawn gh < supply_bound ->
  s = srun (init_chain g) ops /\
  C02_equation g s p gh /\
  bal_range (work s) /\
  (forall a, 0 <= bal_of (work s) a < supply_bound) /\
  0 <= gh_withdrawn gh /\ 0 <= gh_slashed gh /\ 0 <= gh_burned gh.
Proof. intros Hrun Hok Hcov. exact (C02_history_evm_ok _ _ _ _ _ Hrun Hok (covered_covered_ok _ _ Hcov)). Qed.
Print Assumptions C02_history_evm.

(* ================================================================== histories without EVM executions *)
(* a history whose transactions are [txs_ok] is covered, and on it the two step functions agree:
   the EVM is never entered, so nothing is burnt *)
Lemma hstep_hstepE s p gh o y :
  hstep (s, p, gh) o = Some y -> (match o with SDeliver t => t_evm t = None | _ => True end) ->
  hstepE (s, p, gh) o = Some y.
Proof.
  unfold hstepE. destruct p, o as [hd|t| |]; try (intros H _; exact H).
  unfold hstep. destruct (deliver s t) as [s1 [g|e|pp]] eqn:Ed; intros [= <-] Hevm; [|reflexivity..].
  rewrite (evm_burn_native _ _ (native_of_ok _ _ _ _ Ed Hevm)), Z.add_0_r. reflexivity.
Qed.

Lemma op_ok_covered s o :
  (match o with SDeliver t => tx_wf t /\ payload_wf t /\ t_evm t = None | _ => True end) ->
  (match o with SDeliver t => deliver_covered s t | _ => True end) /\
  (match o with SDeliver t => t_evm t = None | _ => True end).
Proof.
  destruct o as [hd|t| |]; try (intros _; exact (conj I I)).
  intros (Hwf & Hpl & Hevm). split; [|exact Hevm]. split; [exact Hwf|]. split; [exact Hpl|]. right. left. exact Hevm.
Qed.

Lemma hrun_hrunE ops : forall s p gh y,
  hrun (s, p, gh) ops = Some y -> txs_ok ops -> hrunE (s, p, gh) ops = Some y /\ covered s ops.
Proof.
  induction ops as [|o ops IH]; intros s p gh y; cbn [hrun hrunE covered]; [auto|].
  destruct (hstep (s, p, gh) o) as [[[s1 p1] gh1]|] eqn:E; [|discriminate].
  intros H Htx. apply Forall_cons in Htx as (Ho & Htx). destruct (op_ok_covered s o Ho) as (Hcov & Hevm).
  rewrite (hstep_hstepE _ _ _ _ _ E Hevm), <- (hstep_sstep _ _ _ _ _ _ _ E).
  destruct (IH _ _ _ _ H Htx) as (HE & Hcovs). auto.
Qed.

Lemma hist_step S0 s p gh o s' p' gh' :
  hstep (s, p, gh) o = Some (s', p', gh') -> run_ok s ->
  (match o with SDeliver t => tx_wf t /\ payload_wf t /\ t_evm t = None | _ => True end) ->
  hist_inv S0 (s, p, gh) -> S0 + gh_withdrawn gh' < supply_bound ->
  hist_inv S0 (s', p', gh').
Proof.
  intros Hst Hok Ho. destruct (op_ok_covered s o Ho) as (Hcov & Hevm).
  apply (hist_stepE _ _ _ _ _ _ _ _ (hstep_hstepE _ _ _ _ _ Hst Hevm) Hok).
  destruct o; try exact I. apply deliver_covered_op. exact Hcov.
Qed.

Lemma hist_run S0 ops : forall s p gh s' p' gh',
  hrun (s, p, gh) ops = Some (s', p', gh') -> along run_ok s ops -> txs_ok ops ->
  hist_inv S0 (s, p, gh) -> S0 + gh_withdrawn gh' < supply_bound ->
  hist_inv S0 (s', p', gh').
Proof.
  intros s p gh s' p' gh' H Hal Htx. destruct (hrun_hrunE _ _ _ _ _ H Htx) as (HE & Hcov).
  exact (hist_runE _ _ _ _ _ _ _ _ HE Hal (covered_covered_ok _ _ Hcov)).
Qed.

(* C02, history form.  For every genesis [g] and every history [ops] of a live node (ABCI order,
   BeginBlock / EndBlock succeed), if
   - the stake-ledger invariants and parameter ranges [run_ok] hold in every state of the run
     (C11; they fail exactly for runs that hit the genesis-hash collision, [C02_collision_refuted]),
   - delivered transactions carry Go-typed fields and no EVM execution succeeds ([txs_ok]),
   - genesis balances are in range and genesis supply + all rewards withdrawn during the run stay
     below 2^63 * 10^18 base units,
   then after the run: balances + bonded + unbonding (+ the fee sum of the open block) equal the
   genesis total + withdrawn rewards - slashed stake - fees not paid out (no proposer), and no
   balance has wrapped (all in [0, 2^256), in fact below the bound). *)
Theorem C02_history g ops s p gh :
  hrun (init_chain g, PIdle, ghost0) ops = Some (s, p, gh) ->
  (forall pre, pre `prefix_of` ops -> run_ok (srun (init_chain g) pre)) ->
  txs_ok ops ->
  bal_range (work (init_chain g)) ->
  supply (work (init_chain g)) + gh_withdrawn gh < supply_bound ->
  s = srun (init_chain g) ops /\
  C02_equation g s p gh /\
  bal_range (work s) /\
  (forall a, 0 <= bal_of (work s) a < supply_bound) /\
  0 <= gh_withdrawn gh /\ 0 <= gh_slashed gh /\ 0 <= gh_burned gh.
Proof.
  intros Hrun Hok Htx. destruct (hrun_hrunE _ _ _ _ _ Hrun Htx) as (HrunE & Hcov).
  exact (C02_history_evm _ _ _ _ _ HrunE Hok Hcov).
Qed.
Print Assumptions C02_history.

(* ================================================================== examples: the hypotheses are satisfiable *)
(* States of the examples are named, never computed: a run is [srun .. ..], the result state of an
   operation is [(op s x).1], and evaluation is asked only for answers, booleans and numbers.  A state
   in normal form (maps with their well-formedness proofs) is dear to type-check. *)
Lemma take_prefix {A} n (l : list A) : take n l `prefix_of` l.
Proof. exists (drop n l). symmetry. apply take_drop. Qed.

Fixpoint alongb (f : state -> bool) (s : state) (ops : list sop) : bool :=
  f s && match ops with [] => true | o :: r => alongb f (sstep s o) r end.

Lemma alongb_prefixes (f : state -> bool) (Q : state -> Prop) ops :
  (forall s, f s = true -> Q s) -> forall s, alongb f s ops = true ->
  forall pre, pre `prefix_of` ops -> Q (srun s pre).
Proof.
  intros HfQ. induction ops as [|o ops IH]; intros s Hb pre Hpre; cbn [alongb] in Hb;
    apply andb_prop in Hb as (Hs & Hrest).
  - apply prefix_nil_inv in Hpre. subst pre. apply HfQ. exact Hs.
  - destruct pre as [|o' pre]; [apply HfQ; exact Hs|].
    apply prefix_cons_inv_1 in Hpre as Ho. subst o'. apply prefix_cons_inv_2 in Hpre.
    unfold srun. cbn [foldl]. apply (IH _ Hrest pre Hpre).
Qed.

Definition run_okb (s : state) : bool :=
  bool_decide (NoDup (s_hash <$> (bonded_stakes (work s) ++ frozen_stakes (work s)))) &&
  bool_decide (map_Forall (fun (h : hash) (x : stake) => s_hash x = h) (frozen (work s))) &&
  bool_decide (map_Forall (fun (_ : addr) (d : delegatee) => d_total d = sum_power (d_stakes d)) (dels (work s))) &&
  bool_decide (Forall (fun x => 0 <= s_power x < two63) (bonded_stakes (work s) ++ frozen_stakes (work s))) &&
  (let g := gparams s in
   bool_decide (0 <= g_gasPrice g < 2 ^ 192) && bool_decide (0 <= g_minTrxGas g < two64) &&
   bool_decide (0 <= g_rewardPerPower g < 2 ^ 192) && bool_decide (0 <= g_slashRatio g <= 100) &&
   bool_decide (0 < g_maxValidatorCnt g) &&
   bool_decide (amountPerPower <= g_minValidatorStake g < two63 * amountPerPower) &&
   bool_decide (0 <= g_minDelegatorStake g < two63 * amountPerPower) &&
   bool_decide (0 <= g_lazyRewardBlocks g < two63) && bool_decide (0 <= g_signedBlocksWindow g) &&
   bool_decide (0 <= g_minSignedBlocks g) && bool_decide (0 <= g_minSelfStakeRatio g <= 100)).

Lemma andb_bool_decide (b : bool) P `{Decision P} : b && bool_decide P = true -> b = true /\ P.
Proof. intros E. apply andb_prop in E as (Hb & HP). apply bool_decide_eq_true in HP. auto. Qed.

(* taken apart one conjunct at a time: rewriting with [andb_true_iff] under fifteen of them is slow to check *)
Lemma run_okb_sound s : run_okb s = true -> run_ok s.
Proof.
  unfold run_okb. cbv zeta. intros H. apply andb_prop in H as (H & Hpar).
  apply andb_bool_decide in H as (H & Hpw). apply andb_bool_decide in H as (H & Htot).
  apply andb_bool_decide in H as (Hnd & Hkey). apply bool_decide_eq_true in Hnd.
  rewrite Forall_forall in Hpw.
  split; [exact (conj Hnd Hkey)|]. split; [exact Htot|]. split; [exact Hpw|].
  do 10 (apply andb_bool_decide in Hpar as (Hpar & ?)). apply bool_decide_eq_true in Hpar.
  unfold params_ok. tauto.
Qed.

(* one validator (so no genesis-hash collision), three blocks: transfer, delegation and a failed
   transfer; unstaking in a block without proposer (its fee is burned); reward issuance by a signed
   vote, a reward withdrawal, and the refund of the matured unbonding stake *)
Definition hx_params : params := {|
  g_version := 1; g_maxValidatorCnt := 21; g_minValidatorStake := 7 * amountPerPower;
  g_minDelegatorStake := 0; g_rewardPerPower := 1000; g_lazyRewardBlocks := 1; g_lazyApplyingBlocks := 10;
  g_gasPrice := 10; g_minTrxGas := 4000; g_maxTrxGas := 25000000; g_maxBlockGas := 100000000;
  g_minVotingPeriodBlocks := 1; g_maxVotingPeriodBlocks := 100; g_minSelfStakeRatio := 50;
  g_maxUpdatableStakeRatio := 30; g_maxIndividualStakeRatio := 10000000; g_slashRatio := 50;
  g_signedBlocksWindow := 10000; g_minSignedBlocks := 500 |}.
Definition hx_genesis : genesis := {|
  gen_params := hx_params;
  gen_holders := [(1%N, 1000 * amountPerPower); (2%N, 1000 * amountPerPower); (3%N, 1000 * amountPerPower);
                  (11%N, 1000 * amountPerPower)];
  gen_validators := [(11%N, 100)] |}.
Definition hx_ops : list sop :=
  [SBegin (demo_hdr 1 (Some 11%N));
   SDeliver (demo_tx TRX_TRANSFER 1%N 2%N (5 * amountPerPower) 4000 0 PNone 100%N);
   SDeliver (demo_tx TRX_STAKING 3%N 11%N (20 * amountPerPower) 4000 0 PNone 102%N);
   SDeliver (demo_tx TRX_TRANSFER 1%N 2%N amountPerPower 4000 7 PNone 103%N);
   SEnd; SCommit;
   SBegin (demo_hdr 2 None);
   SDeliver (demo_tx TRX_UNSTAKING 3%N 11%N 0 4000 1 (PUnstake 102%N true) 104%N);
   SEnd; SCommit;
   SBegin {| h_height := 3; h_proposer := Some 11%N; h_votes := [(11%N, 120, true)]; h_evidence := [] |};
   SDeliver (demo_tx TRX_WITHDRAW 11%N 0%N 0 4000 0 (PWithdraw 5000) 105%N);
   SEnd; SCommit].

Lemma hx_run_ok pre : pre `prefix_of` hx_ops -> run_ok (srun (init_chain hx_genesis) pre).
Proof. apply (alongb_prefixes run_okb run_ok _ run_okb_sound). vm_compute. reflexivity. Qed.

Lemma hx_txs_ok : txs_ok hx_ops.
Proof. apply txs_okb_sound. vm_compute. reflexivity. Qed.

Lemma hx_bal_range : bal_range (work (init_chain hx_genesis)).
Proof. apply bal_range_decide. vm_compute. reflexivity. Qed.

Example C02_history_example :
  exists s,
    hrun (init_chain hx_genesis, PIdle, ghost0) hx_ops =
      Some (s, PIdle, {| gh_withdrawn := 5000; gh_slashed := 0; gh_burned := 40000 |}) /\
    (forall pre, pre `prefix_of` hx_ops -> run_ok (srun (init_chain hx_genesis) pre)) /\
    txs_ok hx_ops /\
    bal_range (work (init_chain hx_genesis)) /\
    supply (work (init_chain hx_genesis)) + 5000 < supply_bound /\
    supply (work s) = supply (work (init_chain hx_genesis)) + 5000 - 40000.
Proof.
  exists (srun (init_chain hx_genesis) hx_ops).
  split; [apply hrun_eval; vm_compute; reflexivity|].
  split; [exact hx_run_ok|]. split; [exact hx_txs_ok|]. split; [exact hx_bal_range|].
  split; vm_compute; reflexivity.
Qed.

(* ================================================================== what fails without the bounds *)

(* INTENDED: [deliver_native_supply] without [stake_amount_ok].  AmountToPower keeps the low 64 bits
   of amount / 10^18: a stake of (2^64 + 7) * 10^18 base units buys 7 units of power and the
   remaining 2^64 * 10^18 base units are destroyed. *)
Theorem staking_truncation_refuted :
  exists s t s' g,
    deliver s t = (s', Ok g) /\ native s t /\ tx_wf t /\ payload_wf t /\ bal_range (work s) /\
    params_ok (gparams s) /\ hashes_unique (work s) /\ totals_ok (work s) /\
    (forall a, room_for (work s) t a) /\
    supply (work s') = supply (work s) - fee_of t + withdrawn_of t - two64 * amountPerPower.
Proof.
  set (g := {| gen_params := demo_params;
               gen_holders := [(5%N, (2 ^ 64 + 1000) * amountPerPower); (11%N, 1000 * amountPerPower)];
               gen_validators := [(11%N, 100)] |}).
  set (s := (begin_block (init_chain g) (demo_hdr 1 (Some 11%N))).1).
  set (t := demo_tx TRX_STAKING 5%N 11%N ((2 ^ 64 + 7) * amountPerPower) 4000 0 PNone 200%N).
  assert (Hr : bal_range (work s)) by (apply bal_range_decide; vm_compute; reflexivity).
  exists s, t, (deliver s t).1, 4000.
  split; [apply pair_snd_eq; vm_compute; reflexivity|]. split; [vm_compute; reflexivity|].
  split; [zclosed|]. split; [intros req Hty; discriminate Hty|]. split; [exact Hr|]. split; [zclosed|].
  assert (Hok : run_ok s) by (apply run_okb_sound; vm_compute; reflexivity).
  destruct Hok as (Hu & Ht & _). split; [exact Hu|]. split; [exact Ht|].
  split.
  - intros a. right. change (tx_in t a) with 0. pose proof (bal_range_bal_of _ a Hr). lia.
  - vm_compute. reflexivity.
Qed.
Print Assumptions staking_truncation_refuted.

(* ---- per-operation examples, on states of the run above *)
Lemma room_for_zero l t a : bal_range l -> tx_in t a = 0 -> room_for l t a.
Proof. intros Hr H0. right. rewrite H0. pose proof (bal_range_bal_of _ a Hr). lia. Qed.

(* each example evaluates its run once, in a lemma that names the values it needs *)

(* the unstaking of block 2 *)
Lemma hx_unstake_eval :
  let s := srun (init_chain hx_genesis) (take 7 hx_ops) in
  let t := demo_tx TRX_UNSTAKING 3%N 11%N 0 4000 1 (PUnstake 102%N true) 104%N in
  let s' := (deliver s t).1 in
  (deliver s t).2 = Ok 4000 /\ evm_path_of t (acct_of (work s) (t_to t)) = false /\
  bool_decide (map_Forall (fun (_ : addr) (x : account) => 0 <= a_bal x < two256) (accts (work s))) = true /\
  supply (work s') - supply (work s) = - 40000 /\ frozen_power (work s') - frozen_power (work s) = 20.
Proof. vm_compute. repeat split. Qed.

Example deliver_native_supply_example :
  let s := srun (init_chain hx_genesis) (take 7 hx_ops) in
  let t := demo_tx TRX_UNSTAKING 3%N 11%N 0 4000 1 (PUnstake 102%N true) 104%N in
  exists s', deliver s t = (s', Ok 4000) /\ native s t /\ tx_wf t /\ payload_wf t /\ bal_range (work s) /\
    room_for (work s) t (t_to t) /\ room_for (work s) t (t_from t) /\ stake_amount_ok t /\ unstake_ok (work s) t /\
    supply (work s') = supply (work s) - 40000 /\ frozen_power (work s') = frozen_power (work s) + 20.
Proof.
  pose proof hx_unstake_eval as E. cbv zeta in E |- *. destruct E as (Eok & Enat & Er & Esup & Efz).
  set (s := srun (init_chain hx_genesis) (take 7 hx_ops)) in *.
  set (t := demo_tx TRX_UNSTAKING 3%N 11%N 0 4000 1 (PUnstake 102%N true) 104%N) in *.
  apply bal_range_decide in Er.
  destruct (hx_run_ok _ (take_prefix 7 hx_ops)) as (Hu & Ht & _).
  exists (deliver s t).1. split; [apply pair_snd_eq; exact Eok|].
  split; [exact Enat|]. split; [zclosed|].
  split; [intros req Hty; discriminate Hty|]. split; [exact Er|].
  split; [apply room_for_zero; [exact Er|reflexivity]|].
  split; [apply room_for_zero; [exact Er|reflexivity]|].
  split; [intros Hty; discriminate Hty|]. split; [intros _; auto|].
  split; lia.
Qed.

(* a block whose header reports validator 11 as byzantine (slash ratio 50): its own stake of 100
   loses 50, the delegated stake of 20 loses 10 *)
Lemma hx_slash_eval :
  let s := srun (init_chain hx_genesis) (take 6 hx_ops) in
  let hd := {| h_height := 2; h_proposer := Some 11%N; h_votes := []; h_evidence := [11%N] |} in
  (begin_block s hd).2 = Ok 0 /\ last_height s = 1 /\ g_slashRatio (gparams s) = 50 /\ slashed_power s hd = 60 /\
  supply (work (begin_block s hd).1) - supply (work s) = - (60 * amountPerPower).
Proof. vm_compute. repeat split. Qed.

Example begin_block_supply_example :
  let s := srun (init_chain hx_genesis) (take 6 hx_ops) in
  let hd := {| h_height := 2; h_proposer := Some 11%N; h_votes := []; h_evidence := [11%N] |} in
  exists s', begin_block s hd = (s', Ok 0) /\ h_height hd = last_height s + 1 /\
    0 <= g_slashRatio (gparams s) <= 100 /\ hashes_unique (work s) /\ bonded_nonneg (work s) /\
    slashed_power s hd = 60 /\ supply (work s') = supply (work s) - 60 * amountPerPower.
Proof.
  pose proof hx_slash_eval as E. cbv zeta in E |- *. destruct E as (Eok & Eh & Eratio & Esl & Esup).
  set (s := srun (init_chain hx_genesis) (take 6 hx_ops)) in *.
  set (hd := {| h_height := 2; h_proposer := Some 11%N; h_votes := []; h_evidence := [11%N] |}) in *.
  destruct (hx_run_ok _ (take_prefix 6 hx_ops)) as (Hu & _ & Hpw & _).
  destruct (powers_ok_parts _ Hpw) as (_ & _ & _ & Hnn).
  exists (begin_block s hd).1. split; [apply pair_snd_eq; exact Eok|].
  split; [rewrite Eh; reflexivity|]. split; [rewrite Eratio; lia|].
  split; [exact Hu|]. split; [exact Hnn|]. split; [exact Esl|lia].
Qed.

(* the end of block 3: the proposer is paid 40000, the matured unbonding stake of 20 is refunded *)
Lemma hx_run12 : exists s, hrun (init_chain hx_genesis, PIdle, ghost0) (take 12 hx_ops) =
                             Some (s, POpen, {| gh_withdrawn := 5000; gh_slashed := 0; gh_burned := 40000 |}).
Proof. eexists. apply hrun_eval. vm_compute. reflexivity. Qed.

Lemma hx_end_eval :
  let s := srun (init_chain hx_genesis) (take 12 hx_ops) in
  let s' := (end_block s).1 in
  (end_block s).2 = Ok [(11%N, 100)] /\ paid_fees (bctx s) = 40000 /\ supply (work s') - supply (work s) = 40000 /\
  frozen_power (work s) = 20 /\ frozen_power (work s') = 0 /\
  bal_of (work s') 3%N - bal_of (work s) 3%N = 20 * amountPerPower.
Proof. vm_compute. repeat split. Qed.

Example end_block_supply_example :
  let s := srun (init_chain hx_genesis) (take 12 hx_ops) in
  exists s' ups, end_block s = (s', Ok ups) /\ bal_range (work s) /\ 0 <= b_feesum (bctx s) < two256 /\
    frozen_synced s /\
    (forall a, bal_of (work s) a + end_fee (bctx s) a +
               refunds_to (sorted_items (frozen (base_of s))) (b_height (bctx s)) a < two256) /\
    paid_fees (bctx s) = 40000 /\ supply (work s') = supply (work s) + 40000 /\
    frozen_power (work s) = 20 /\ frozen_power (work s') = 0 /\
    bal_of (work s') 3%N = bal_of (work s) 3%N + 20 * amountPerPower.
Proof.
  cbv zeta.
  (* the hypotheses come out of the history invariant at that prefix *)
  destruct hx_run12 as (s & Hrun).
  pose proof (hrun_srun _ _ _ _ _ _ _ Hrun) as Hs.
  assert (Hoks : forall pre, pre `prefix_of` take 12 hx_ops -> run_ok (srun (init_chain hx_genesis) pre)).
  { intros pre Hpre. apply hx_run_ok. etransitivity; [exact Hpre|apply take_prefix]. }
  assert (Hbound : supply (work (init_chain hx_genesis)) + 5000 < supply_bound) by (vm_compute; reflexivity).
  pose proof (hist_run _ _ _ _ _ _ _ _ Hrun (along_prefixes _ _ _ Hoks) (Forall_take _ 12 _ hx_txs_ok)
                (hist_inv_genesis _ hx_bal_range) Hbound) as Hinv.
  assert (Hok : run_ok s) by (rewrite Hs; apply Hoks; reflexivity).
  destruct (end_block_hyps_from_inv _ _ _ Hok Hinv Hbound) as (Hr & Hfs & Hsync & Hroom).
  subst s. pose proof hx_end_eval as E. cbv zeta in E. destruct E as (Eok & Epaid & Esup & Efz & Efz' & Ebal).
  set (s := srun (init_chain hx_genesis) (take 12 hx_ops)) in *.
  exists (end_block s).1, [(11%N, 100)]. split; [apply pair_snd_eq; exact Eok|].
  split; [exact Hr|]. split; [exact Hfs|]. split; [exact Hsync|]. split; [exact Hroom|].
  split; [exact Epaid|]. split; [lia|]. split; [exact Efz|]. split; [exact Efz'|lia].
Qed.

(* an observed effect that satisfies the oracle hypothesis: the call moves 7 units to the callee
   and uses 25000 of 30000 gas at price 10 *)
Example deliver_evm_supply_example :
  let s := demo_s1 in
  let e := {| e_ok := true; e_gas := 25000; e_created := None;
              e_accts := [(1%N, 1000 * amountPerPower - 250000 - 7, 1); (2%N, 1000 * amountPerPower + 7, 0)] |} in
  let t := {| t_type := TRX_CONTRACT; t_from := 1%N; t_to := 2%N; t_from_ok := true; t_to_ok := true; t_amount := 7;
              t_price := 10; t_gas := 30000; t_nonce := 0; t_payload := PContract 21000; t_hash := 400%N;
              t_sigok := true; t_evm := Some e |} in
  exists s', deliver s t = (s', Ok 25000) /\ ~ native s t /\
    evm_effect_fee_ok (work s) t (g_gasPrice (gparams s)) e 0 /\ bal_range (work s) /\
    supply (work s') = supply (work s) - 250000 /\ b_feesum (bctx s') = 250000.
Proof.
  cbv zeta. eexists (deliver _ _).1. split; [apply pair_snd_eq; vm_compute; reflexivity|].
  split; [vm_compute; discriminate|].
  split.
  { split; [|split; [zclosed|split; [|split; [lia|vm_compute; reflexivity]]]].
    - cbn. repeat constructor; set_solver.
    - intros x Hx. cbn [e_accts] in Hx. apply elem_of_cons in Hx as [->|Hx]; [zclosed|].
      apply elem_of_list_singleton in Hx as ->. zclosed. }
  split; [apply bal_range_decide; vm_compute; reflexivity|]. split; vm_compute; reflexivity.
Qed.

(* a run with a successful contract call (the effect of [deliver_evm_supply_example]) *)
Definition hx_call : tx :=
  {| t_type := TRX_CONTRACT; t_from := 1%N; t_to := 2%N; t_from_ok := true; t_to_ok := true; t_amount := 7;
     t_price := 10; t_gas := 30000; t_nonce := 0; t_payload := PContract 21000; t_hash := 400%N; t_sigok := true;
     t_evm := Some {| e_ok := true; e_gas := 25000; e_created := None;
                      e_accts := [(1%N, 1000 * amountPerPower - 250000 - 7, 1); (2%N, 1000 * amountPerPower + 7, 0)] |} |}.
Definition hx_ops_evm : list sop := [SBegin (demo_hdr 1 (Some 11%N)); SDeliver hx_call; SEnd; SCommit].

Example C02_history_evm_example :
  exists s,
    hrunE (init_chain hx_genesis, PIdle, ghost0) hx_ops_evm = Some (s, PIdle, ghost0) /\
    (forall pre, pre `prefix_of` hx_ops_evm -> run_ok (srun (init_chain hx_genesis) pre)) /\
    covered (init_chain hx_genesis) hx_ops_evm /\
    ~ native (srun (init_chain hx_genesis) (take 1 hx_ops_evm)) hx_call /\
    bal_range (work (init_chain hx_genesis)) /\
    supply (work (init_chain hx_genesis)) + 0 < supply_bound /\
    supply (work s) = supply (work (init_chain hx_genesis)) /\
    bal_of (work s) 11%N = 1000 * amountPerPower + 250000.
Proof.
  exists (srun (init_chain hx_genesis) hx_ops_evm).
  split; [apply hrunE_eval; vm_compute; reflexivity|].
  split; [apply (alongb_prefixes run_okb run_ok _ run_okb_sound); vm_compute; reflexivity|].
  split.
  { cbn [covered hx_ops_evm]. split; [exact I|]. split; [|split; [exact I|split; [exact I|exact I]]].
    split; [zclosed|]. split; [intros req Hty; discriminate Hty|]. right. right.
    eexists. split; [reflexivity|].
    split; [cbn; repeat constructor; set_solver|]. split; [zclosed|]. split; [|split; [vm_compute; discriminate|vm_compute; reflexivity]].
    intros x Hx. cbn [e_accts] in Hx. apply elem_of_cons in Hx as [->|Hx]; [zclosed|].
    apply elem_of_list_singleton in Hx as ->. zclosed. }
  split; [vm_compute; discriminate|]. split; [exact hx_bal_range|].
  split; [vm_compute; reflexivity|]. split; vm_compute; reflexivity.
Qed.

(* INTENDED: [begin_block_supply] without [hashes_unique].  The same genesis-hash collision strikes
   when two genesis validators are jailed in one BeginBlock (both missed the previous block, window 1):
   both stake lists are filed under key 0 of the frozen map; 100 units of power vanish with nothing
   slashed. *)
Theorem begin_block_collision_refuted :
  exists s hd s',
    begin_block s hd = (s', Ok 0) /\ h_height hd = last_height s + 1 /\
    params_ok (gparams s) /\ bonded_nonneg (work s) /\ slashed_power s hd = 0 /\
    supply (work s') = supply (work s) - 100 * amountPerPower /\ ~ hashes_unique (work s).
Proof.
  set (pr := {|
    g_version := 1; g_maxValidatorCnt := 21; g_minValidatorStake := 7 * amountPerPower;
    g_minDelegatorStake := 0; g_rewardPerPower := 1000; g_lazyRewardBlocks := 10; g_lazyApplyingBlocks := 10;
    g_gasPrice := 10; g_minTrxGas := 4000; g_maxTrxGas := 25000000; g_maxBlockGas := 100000000;
    g_minVotingPeriodBlocks := 1; g_maxVotingPeriodBlocks := 100; g_minSelfStakeRatio := 50;
    g_maxUpdatableStakeRatio := 30; g_maxIndividualStakeRatio := 10000000; g_slashRatio := 50;
    g_signedBlocksWindow := 1; g_minSignedBlocks := 1 |}).
  set (g := {| gen_params := pr; gen_holders := [(1%N, 1000 * amountPerPower)];
               gen_validators := [(11%N, 100); (12%N, 50)] |}).
  set (s := srun (init_chain g) [SBegin (demo_hdr 1 (Some 11%N)); SEnd; SCommit]).
  set (hd := {| h_height := 2; h_proposer := Some 11%N; h_votes := [(11%N, 100, false); (12%N, 50, false)];
                h_evidence := [] |}).
  exists s, hd, (begin_block s hd).1.
  split; [apply pair_snd_eq; vm_compute; reflexivity|]. split; [vm_compute; reflexivity|]. split; [zclosed|].
  split.
  { intros a d Hd. apply Forall_forall. intros x Hx.
    assert (Hall : Forall (fun x => 0 <= s_power x) (bonded_stakes (work s))).
    { apply (bool_decide_unpack _). vm_compute. exact I. }
    rewrite Forall_forall in Hall. apply Hall. apply InvStake.elem_of_bonded; eauto. }
  split; [vm_compute; reflexivity|]. split; [vm_compute; reflexivity|].
  intros (Hnd & _). revert Hnd. vm_compute. intros Hnd.
  apply NoDup_cons in Hnd as (Hx & _). apply Hx. left.
Qed.
Print Assumptions begin_block_collision_refuted.

