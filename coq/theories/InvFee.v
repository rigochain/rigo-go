(* InvFee.v — property C16: admission by gas price / minimum fee, exact cost of a successful
   transaction, fee sum of a block and its payment to the proposer.
   Its names for the pieces of [deliver] ([pre_state], [validated_of], [exec_native], ...) have the bodies
   of InvFail.v's and are used by InvSupply.v too; what a successful delivery is comes from InvFail's case
   analysis ([deliver_ok_inv]), the balance effect of each executor is stated here. *)
From Rigo Require Import Base.
From stdpp Require Import gmap sorting.
From Rigo Require Import Spec SpecProps SpecFacts.
From Rigo Require InvFail InvStake.
Local Open Scope Z_scope.

Local Opaque two256 two255 two64 two63.
Local Arguments Z.pow : simpl never.

(* ================================================================== ranges *)
Lemma two63_val : two63 = 9223372036854775808. Proof. reflexivity. Qed.

(* ================================================================== projections *)
Lemma accts_set_acct l a x : accts (set_acct l a x) = <[a := x]> (accts l).   Proof. reflexivity. Qed.
Lemma dels_set_acct l a x : dels (set_acct l a x) = dels l.                   Proof. reflexivity. Qed.
Lemma frozen_set_acct l a x : frozen (set_acct l a x) = frozen l.             Proof. reflexivity. Qed.
Lemma rewards_set_acct l a x : rewards (set_acct l a x) = rewards l.          Proof. reflexivity. Qed.
Lemma accts_set_dels l m : accts (set_dels l m) = accts l.                    Proof. reflexivity. Qed.
Lemma dels_set_dels l m : dels (set_dels l m) = m.                            Proof. reflexivity. Qed.
Lemma frozen_set_dels l m : frozen (set_dels l m) = frozen l.                 Proof. reflexivity. Qed.
Lemma rewards_set_dels l m : rewards (set_dels l m) = rewards l.              Proof. reflexivity. Qed.
Lemma accts_set_frozen l m : accts (set_frozen l m) = accts l.                Proof. reflexivity. Qed.
Lemma dels_set_frozen l m : dels (set_frozen l m) = dels l.                   Proof. reflexivity. Qed.
Lemma frozen_set_frozen l m : frozen (set_frozen l m) = m.                    Proof. reflexivity. Qed.
Lemma rewards_set_frozen l m : rewards (set_frozen l m) = rewards l.          Proof. reflexivity. Qed.
Lemma accts_set_rewards l m : accts (set_rewards l m) = accts l.              Proof. reflexivity. Qed.
Lemma dels_set_rewards l m : dels (set_rewards l m) = dels l.                 Proof. reflexivity. Qed.
Lemma frozen_set_rewards l m : frozen (set_rewards l m) = frozen l.           Proof. reflexivity. Qed.
Lemma rewards_set_rewards l m : rewards (set_rewards l m) = m.                Proof. reflexivity. Qed.
Lemma accts_set_props l m : accts (set_props l m) = accts l.                  Proof. reflexivity. Qed.
Lemma dels_set_props l m : dels (set_props l m) = dels l.                     Proof. reflexivity. Qed.
Lemma frozen_set_props l m : frozen (set_props l m) = frozen l.               Proof. reflexivity. Qed.
Lemma rewards_set_props l m : rewards (set_props l m) = rewards l.            Proof. reflexivity. Qed.
Lemma accts_set_fprops l m : accts (set_fprops l m) = accts l.                Proof. reflexivity. Qed.
Lemma dels_set_fprops l m : dels (set_fprops l m) = dels l.                   Proof. reflexivity. Qed.
Lemma frozen_set_fprops l m : frozen (set_fprops l m) = frozen l.             Proof. reflexivity. Qed.
Lemma rewards_set_fprops l m : rewards (set_fprops l m) = rewards l.          Proof. reflexivity. Qed.
Lemma accts_set_lparams l p : accts (set_lparams l p) = accts l.              Proof. reflexivity. Qed.
Lemma dels_set_lparams l p : dels (set_lparams l p) = dels l.                 Proof. reflexivity. Qed.
Lemma frozen_set_lparams l p : frozen (set_lparams l p) = frozen l.           Proof. reflexivity. Qed.
Lemma rewards_set_lparams l p : rewards (set_lparams l p) = rewards l.        Proof. reflexivity. Qed.

(* ================================================================== balances of single accounts *)
Lemma bal_of_set_dels l m a : bal_of (set_dels l m) a = bal_of l a.       Proof. reflexivity. Qed.
Lemma bal_of_set_frozen l m a : bal_of (set_frozen l m) a = bal_of l a.   Proof. reflexivity. Qed.
Lemma bal_of_set_rewards l m a : bal_of (set_rewards l m) a = bal_of l a. Proof. reflexivity. Qed.
Lemma bal_of_set_props l m a : bal_of (set_props l m) a = bal_of l a.     Proof. reflexivity. Qed.
Lemma bal_of_set_fprops l m a : bal_of (set_fprops l m) a = bal_of l a.   Proof. reflexivity. Qed.
Lemma bal_of_set_lparams l m a : bal_of (set_lparams l m) a = bal_of l a. Proof. reflexivity. Qed.

Lemma bal_of_lookup l a x : accts l !! a = Some x -> bal_of l a = a_bal x.
Proof. intros H. unfold bal_of, acct_of. rewrite H. reflexivity. Qed.

Lemma bal_of_same_accts l l' a : accts l' = accts l -> bal_of l' a = bal_of l a.
Proof. intros H. unfold bal_of, acct_of. rewrite H. reflexivity. Qed.

Lemma sub_balance_Some x amt x' :
  0 <= amt -> 0 <= a_bal x < two256 -> sub_balance x amt = Some x' ->
  amt <= a_bal x /\ a_bal x' = a_bal x - amt /\ a_nonce x' = a_nonce x /\ a_code x' = a_code x.
Proof.
  intros Ha Hb. unfold sub_balance.
  destruct (sign256 amt <? 0) eqn:Es; [discriminate|].
  destruct (a_bal x <? amt) eqn:El; [discriminate|].
  apply Z.ltb_ge in El. intros [= <-]. simpl.
  rewrite sub256_small by lia. auto.
Qed.

Lemma add_balance_Some x amt x' :
  0 <= amt -> add_balance x amt = Some x' ->
  amt < two255 /\ a_bal x' = add256 (a_bal x) amt /\ a_nonce x' = a_nonce x /\ a_code x' = a_code x.
Proof.
  intros Ha. unfold add_balance.
  destruct (sign256 amt <? 0) eqn:Es; [discriminate|].
  apply sign256_nonneg in Es.
  intros [= <-]. simpl. auto.
Qed.

Lemma add_nonce_bal x : a_bal (add_nonce x) = a_bal x.   Proof. reflexivity. Qed.
Lemma add_nonce_code x : a_code (add_nonce x) = a_code x. Proof. reflexivity. Qed.

(* ================================================================== decomposition of [deliver] *)
(* The pieces of InvFail's decomposition, in the vocabulary the statements of C16 and C02 use; the
   two are convertible piece by piece. *)
Definition bump_txs (b : blockctx) : blockctx :=
  {| b_height := b_height b; b_proposer := b_proposer b; b_feesum := b_feesum b; b_txs := b_txs b + 1 |}.
Definition add_fee (b : blockctx) (f : Z) : blockctx :=
  {| b_height := b_height b; b_proposer := b_proposer b; b_feesum := add256 (b_feesum b) f; b_txs := b_txs b |}.

(* state in which validation runs: tx counter bumped, receiver account present *)
Definition pre_state (s : state) (t : tx) : state :=
  with_work (with_bctx s (bump_txs (bctx s))) (find_or_new (work s) (t_to t)).1.
Definition receiver_of (s : state) (t : tx) : account := (find_or_new (work s) (t_to t)).2.

Definition evm_path_of (t : tx) (receiver : account) : bool :=
  (t_type t =? TRX_CONTRACT) || ((t_type t =? TRX_TRANSFER) && a_code receiver).

Definition validated_of (s1 : state) (receiver : account) (t : tx) : res limiter :=
  let ty := t_type t in
  if (ty =? TRX_PROPOSAL) || (ty =? TRX_VOTING) then
    match gov_validate s1 t with Some e => Err e | None => Ok (lim s1) end
  else if (ty =? TRX_TRANSFER) || (ty =? TRX_SETDOC) then
    match acct_validate t with Some e => Err e | None => Ok (lim s1) end
  else if (ty =? TRX_STAKING) || (ty =? TRX_UNSTAKING) || (ty =? TRX_WITHDRAW) then stake_validate s1 t
  else if ty =? TRX_CONTRACT then
    match evm_validate receiver t with Some e => Err e | None => Ok (lim s1) end
  else Err E_TYPE.

Definition exec_native (s2 : state) (t : tx) : res ledgers :=
  let ty := t_type t in
  if (ty =? TRX_PROPOSAL) || (ty =? TRX_VOTING) then gov_execute s2 (work s2) t
  else if (ty =? TRX_TRANSFER) || (ty =? TRX_SETDOC) then acct_execute (work s2) t
  else stake_execute s2 (work s2) t.

Lemma pre_state_work s t : work (pre_state s t) = (find_or_new (work s) (t_to t)).1.  Proof. reflexivity. Qed.
Lemma pre_state_gparams s t : gparams (pre_state s t) = gparams s.                    Proof. reflexivity. Qed.
Lemma pre_state_bctx s t : bctx (pre_state s t) = bump_txs (bctx s).                  Proof. reflexivity. Qed.
Lemma pre_state_lastvals s t : lastvals (pre_state s t) = lastvals s.                 Proof. reflexivity. Qed.
Lemma pre_state_lim s t : lim (pre_state s t) = lim s.                                Proof. reflexivity. Qed.

Lemma receiver_of_eq s t : receiver_of s t = acct_of (work s) (t_to t).
Proof. apply find_or_new_snd. Qed.

Definition native (s : state) (t : tx) : Prop := evm_path_of t (acct_of (work s) (t_to t)) = false.

(* ================================================================== admission *)
(* intrinsic gas EVMCtrler.ValidateTrx compares the gas limit with *)
Definition intrinsic_of (t : tx) : Z := match t_payload t with PContract i => i | _ => 21000 end.

Lemma deliver_ok_inv s t s' g :
  deliver s t = (s', Ok g) ->
  exists sender lim',
    accts (work s) !! t_from t = Some sender /\
    common_validation0 (gparams s) t = None /\
    common_validation1 sender t = None /\
    validated_of (pre_state s t) (receiver_of s t) t = Ok lim' /\
    let s2 := with_lim (pre_state s t) lim' in
    if evm_path_of t (receiver_of s t) then
      exists l', evm_execute (work s2) t = Ok (l', g) /\
        s' = with_bctx (with_work s2 l') (add_fee (bctx s2) (mul256 g (g_gasPrice (gparams s))))
    else
      exists l' snd' snd'', exec_native s2 t = Ok l' /\ accts l' !! t_from t = Some snd' /\
        sub_balance snd' (fee_of t) = Some snd'' /\ g = t_gas t /\
        s' = with_bctx (with_work s2 (set_acct l' (t_from t) (add_nonce snd'')))
               (add_fee (bctx s2) (mul256 (t_gas t) (g_gasPrice (gparams s)))).
Proof.
  intros H. apply InvFail.deliver_ok_cases in H as (sender & lim' & Hs & H0 & H1 & Hv & Hf).
  exists sender, lim'. repeat (split; [assumption|]). cbv zeta.
  change (evm_path_of t (receiver_of s t)) with (InvFail.evm_path s t).
  apply InvFail.finished_ok in Hf as [(-> & l' & Hx & ->)|(-> & -> & l' & snd' & snd'' & Hx & Hl & Hsb & ->)].
  - exists l'. split; [exact Hx|reflexivity].
  - exists l', snd', snd''. repeat (split; [assumption|]). split; reflexivity.
Qed.

(* C16, admission.  The intended statement asked, for contract transactions, for
   [exists i, t_payload t = PContract i /\ i <= t_gas t]; the model (as EVMCtrler.ValidateTrx
   does for a nil payload) charges 21000 when the payload is not a contract payload, so the
   statement is given with [intrinsic_of]; see [deliver_ok_admission_literal_refuted] below.
   A TRX_TRANSFER to a contract account also runs the EVM but is validated by the account
   controller only: no intrinsic-gas check applies to it
   (see [transfer_to_contract_no_intrinsic_check]). *)
Theorem deliver_ok_admission s t s' g :
  deliver s t = (s', Ok g) ->
  t_price t = g_gasPrice (gparams s) /\
  mul256 (g_minTrxGas (gparams s)) (g_gasPrice (gparams s)) <= fee_of t /\
  (t_type t = TRX_CONTRACT -> intrinsic_of t <= t_gas t).
Proof.
  intros Hd. apply deliver_ok_inv in Hd as (sender & lim' & Hs & H0 & H1 & Hv & _).
  apply InvFail.cv0_none in H0 as (_ & _ & _ & _ & _ & Hp & Hf & _).
  split; [exact Hp|]. split; [exact Hf|].
  intros Hty. unfold validated_of in Hv. rewrite Hty in Hv. cbn in Hv.
  unfold evm_validate in Hv. rewrite Hty in Hv. cbn in Hv. fold (intrinsic_of t) in Hv.
  destruct (t_gas t <? intrinsic_of t) eqn:Eg; [discriminate|]. apply Z.ltb_ge in Eg. exact Eg.
Qed.
Print Assumptions deliver_ok_admission.

Corollary deliver_ok_admission_exact s t s' g :
  deliver s t = (s', Ok g) -> params_ok (gparams s) -> 0 <= t_gas t < two64 ->
  t_price t = g_gasPrice (gparams s) /\ g_minTrxGas (gparams s) * g_gasPrice (gparams s) <= t_gas t * t_price t.
Proof.
  intros Hd Hp Hg. destruct (deliver_ok_admission _ _ _ _ Hd) as (Hpr & Hfee & _).
  destruct Hp as (Hgp & Hmin & _). split; [exact Hpr|].
  rewrite fee_of_exact in Hfee by (rewrite ?Hpr; assumption).
  rewrite mul256_small in Hfee; [lia|].
  rewrite Z.mul_comm. apply mul_lt_two256; assumption.
Qed.

(* the literal intended statement fails in the model: a contract transaction whose payload is not
   a contract payload is admitted against the default intrinsic gas 21000 (a modelling artefact:
   the decoder of the real node only produces contract payloads for TRX_CONTRACT) *)
Definition demo_params : params := {|
  g_version := 1; g_maxValidatorCnt := 21; g_minValidatorStake := 7 * amountPerPower;
  g_minDelegatorStake := 0; g_rewardPerPower := 1000; g_lazyRewardBlocks := 10; g_lazyApplyingBlocks := 10;
  g_gasPrice := 10; g_minTrxGas := 4000; g_maxTrxGas := 25000000; g_maxBlockGas := 100000000;
  g_minVotingPeriodBlocks := 1; g_maxVotingPeriodBlocks := 100; g_minSelfStakeRatio := 50;
  g_maxUpdatableStakeRatio := 30; g_maxIndividualStakeRatio := 10000000; g_slashRatio := 50;
  g_signedBlocksWindow := 10000; g_minSignedBlocks := 500 |}.

Definition demo_tx (ty : Z) (from to : addr) (amount gas nonce : Z) (pl : payload) (h : hash) : tx :=
  {| t_type := ty; t_from := from; t_to := to; t_from_ok := true; t_to_ok := true; t_amount := amount;
     t_price := 10; t_gas := gas; t_nonce := nonce; t_payload := pl; t_hash := h; t_sigok := true; t_evm := None |}.

Definition demo_hdr (h : Z) (p : option addr) : header :=
  {| h_height := h; h_proposer := p; h_votes := []; h_evidence := [] |}.

Definition demo_genesis : genesis := {|
  gen_params := demo_params;
  gen_holders := [(1%N, 1000 * amountPerPower); (2%N, 1000 * amountPerPower); (3%N, 1000 * amountPerPower);
                  (11%N, 1000 * amountPerPower); (12%N, 1000 * amountPerPower)];
  gen_validators := [(11%N, 100); (12%N, 50)] |}.

Definition demo_s1 : state := (begin_block (init_chain demo_genesis) (demo_hdr 1 (Some 11%N))).1.

(* The examples name a final state as the projection of the run that produces it and evaluate
   only what they say about it: a normalised state is a very large term to type-check. *)
Lemma deliver_ok_admission_literal_refuted :
  exists s t s' g, deliver s t = (s', Ok g) /\ t_type t = TRX_CONTRACT /\
    ~ (exists i, t_payload t = PContract i /\ i <= t_gas t).
Proof.
  exists demo_s1.
  exists {| t_type := TRX_CONTRACT; t_from := 1%N; t_to := 2%N; t_from_ok := true; t_to_ok := true; t_amount := 0;
            t_price := 10; t_gas := 30000; t_nonce := 0; t_payload := PNone; t_hash := 77%N; t_sigok := true;
            t_evm := Some {| e_ok := true; e_gas := 21000; e_created := None; e_accts := [] |} |}.
  eexists (deliver _ _).1, 21000. split; [apply pair_snd_eq; vm_compute; reflexivity|]. split; [reflexivity|].
  intros (i & Hp & _). discriminate Hp.
Qed.

(* a plain transfer to a contract account runs the EVM but is admitted with any gas limit that
   covers the minimum fee: 21000 intrinsic gas is NOT required of it *)
Lemma transfer_to_contract_no_intrinsic_check :
  exists s t s' g, deliver s t = (s', Ok g) /\ t_type t = TRX_TRANSFER /\
    a_code (acct_of (work s) (t_to t)) = true /\ t_gas t < 21000.
Proof.
  set (s0 := demo_s1).
  set (s := with_work s0 (set_acct (work s0) 2%N {| a_nonce := 0; a_bal := 5; a_code := true; a_name := 0%N; a_doc := 0%N |})).
  exists s.
  exists {| t_type := TRX_TRANSFER; t_from := 1%N; t_to := 2%N; t_from_ok := true; t_to_ok := true; t_amount := 1;
            t_price := 10; t_gas := 4000; t_nonce := 0; t_payload := PNone; t_hash := 78%N; t_sigok := true;
            t_evm := Some {| e_ok := true; e_gas := 4000; e_created := None; e_accts := [] |} |}.
  eexists (deliver _ _).1, 4000. split; [apply pair_snd_eq; vm_compute; reflexivity|].
  split; [reflexivity|]. split; [reflexivity|]. vm_compute. reflexivity.
Qed.

(* ================================================================== exact cost, native path *)
Definition payload_wf (t : tx) : Prop :=
  forall req, t_type t = TRX_WITHDRAW -> t_payload t = PWithdraw req -> 0 <= req < two256.

Definition bal_range (l : ledgers) : Prop := forall a x, accts l !! a = Some x -> 0 <= a_bal x < two256.

Lemma ranges_ok_bal_range l : ranges_ok l -> bal_range l.
Proof. intros (H & _) a x Hx. apply (H a x Hx). Qed.

Lemma bal_range_bal_of l a : bal_range l -> 0 <= bal_of l a < two256.
Proof.
  intros H. unfold bal_of, acct_of. destruct (accts l !! a) as [x|] eqn:E; simpl.
  - apply (H a x E).
  - pose proof two256_pos. lia.
Qed.

Lemma bal_range_set_acct l a x : bal_range l -> 0 <= a_bal x < two256 -> bal_range (set_acct l a x).
Proof.
  intros H Hx b y. rewrite accts_set_acct. destruct (decide (a = b)) as [->|Hne].
  - rewrite lookup_insert. intros [= <-]. exact Hx.
  - rewrite lookup_insert_ne by exact Hne. apply H.
Qed.

Lemma bal_range_find_or_new l a : bal_range l -> bal_range (find_or_new l a).1.
Proof.
  intros H. rewrite find_or_new_fst. destruct (accts l !! a); [exact H|].
  apply bal_range_set_acct; [exact H|]. cbn. pose proof two256_pos. lia.
Qed.

Lemma bal_of_find_or_new l a b : bal_of (find_or_new l a).1 b = bal_of l b.
Proof. unfold bal_of. rewrite find_or_new_acct_of. reflexivity. Qed.

Lemma validated_native_types s1 r t lim' :
  validated_of s1 r t = Ok lim' -> evm_path_of t r = false ->
  t_type t = TRX_TRANSFER \/ t_type t = TRX_STAKING \/ t_type t = TRX_UNSTAKING \/ t_type t = TRX_PROPOSAL \/
  t_type t = TRX_VOTING \/ t_type t = TRX_SETDOC \/ t_type t = TRX_WITHDRAW.
Proof.
  unfold validated_of, evm_path_of. intros Hv Hp.
  destruct (t_type t =? TRX_PROPOSAL) eqn:E4; [apply Z.eqb_eq in E4; auto 10|].
  destruct (t_type t =? TRX_VOTING) eqn:E5; [apply Z.eqb_eq in E5; auto 10|].
  destruct (t_type t =? TRX_TRANSFER) eqn:E1; [apply Z.eqb_eq in E1; auto 10|].
  destruct (t_type t =? TRX_SETDOC) eqn:E7; [apply Z.eqb_eq in E7; auto 10|].
  destruct (t_type t =? TRX_STAKING) eqn:E2; [apply Z.eqb_eq in E2; auto 10|].
  destruct (t_type t =? TRX_UNSTAKING) eqn:E3; [apply Z.eqb_eq in E3; auto 10|].
  destruct (t_type t =? TRX_WITHDRAW) eqn:E8; [apply Z.eqb_eq in E8; auto 10|].
  cbn [orb] in Hv. destruct (t_type t =? TRX_CONTRACT) eqn:E6; [|discriminate]. discriminate Hp.
Qed.

Lemma exec_native_transfer s2 t : t_type t = TRX_TRANSFER -> exec_native s2 t = acct_execute (work s2) t.
Proof. unfold exec_native. intros ->. reflexivity. Qed.
Lemma exec_native_setdoc s2 t : t_type t = TRX_SETDOC -> exec_native s2 t = acct_execute (work s2) t.
Proof. unfold exec_native. intros ->. reflexivity. Qed.
Lemma exec_native_proposal s2 t : t_type t = TRX_PROPOSAL -> exec_native s2 t = gov_execute s2 (work s2) t.
Proof. unfold exec_native. intros ->. reflexivity. Qed.
Lemma exec_native_voting s2 t : t_type t = TRX_VOTING -> exec_native s2 t = gov_execute s2 (work s2) t.
Proof. unfold exec_native. intros ->. reflexivity. Qed.
Lemma exec_native_staking s2 t : t_type t = TRX_STAKING -> exec_native s2 t = stake_execute s2 (work s2) t.
Proof. unfold exec_native. intros ->. reflexivity. Qed.
Lemma exec_native_unstaking s2 t : t_type t = TRX_UNSTAKING -> exec_native s2 t = stake_execute s2 (work s2) t.
Proof. unfold exec_native. intros ->. reflexivity. Qed.
Lemma exec_native_withdraw s2 t : t_type t = TRX_WITHDRAW -> exec_native s2 t = stake_execute s2 (work s2) t.
Proof. unfold exec_native. intros ->. reflexivity. Qed.

(* the part of a ledger state that carries value *)
Definition same_money (l l' : ledgers) : Prop :=
  accts l' = accts l /\ dels l' = dels l /\ frozen l' = frozen l /\ rewards l' = rewards l.
Lemma keeps_same_money f l l' :
  keeps f l l' -> f_accts f -> f_dels f -> f_frozen f -> f_rewards f -> same_money l l'.
Proof. intros (A & D & F & R & _) Ha Hd Hf Hr. exact (conj (A Ha) (conj (D Hd) (conj (F Hf) (R Hr)))). Qed.

(* ---- inversion of the executors *)
Lemma acct_execute_transfer_inv l t l' :
  t_type t = TRX_TRANSFER -> acct_execute l t = Ok l' ->
  exists sender receiver sender' recv',
    accts l !! t_from t = Some sender /\ accts l !! t_to t = Some receiver /\
    sub_balance sender (t_amount t) = Some sender' /\
    add_balance (if (t_from t =? t_to t)%N then sender' else receiver) (t_amount t) = Some recv' /\
    l' = set_acct (set_acct l (t_from t) sender') (t_to t) recv'.
Proof.
  intros Hty. unfold acct_execute. rewrite Hty.
  destruct (accts l !! t_from t) as [sender|]; [|discriminate].
  destruct (accts l !! t_to t) as [receiver|]; [|discriminate].
  change (TRX_TRANSFER =? TRX_TRANSFER) with true. cbv iota.
  destruct (sub_balance sender (t_amount t)) as [sender'|] eqn:Es; [|discriminate].
  destruct (add_balance _ (t_amount t)) as [recv'|] eqn:Ea; [|discriminate].
  intros [= <-]. exists sender, receiver, sender', recv'. auto.
Qed.

Lemma acct_execute_setdoc_inv l t l' :
  t_type t = TRX_SETDOC -> acct_execute l t = Ok l' ->
  exists sender x, accts l !! t_from t = Some sender /\ a_bal x = a_bal sender /\ a_nonce x = a_nonce sender /\
                   a_code x = a_code sender /\ l' = set_acct l (t_from t) x.
Proof.
  intros Hty. unfold acct_execute. rewrite Hty.
  destruct (accts l !! t_from t) as [sender|]; [|discriminate].
  destruct (accts l !! t_to t) as [receiver|]; [|discriminate].
  change (TRX_SETDOC =? TRX_TRANSFER) with false. cbv iota.
  destruct (t_payload t) as [| | | | |name url nl ul|]; try discriminate.
  intros [= <-].
  exists sender, {| a_nonce := a_nonce sender; a_bal := a_bal sender; a_code := a_code sender; a_name := name; a_doc := url |}.
  repeat split.
Qed.

Lemma gov_execute_accts s2 l t l' :
  gov_execute s2 l t = Ok l' ->
  accts l' = accts l /\ dels l' = dels l /\ frozen l' = frozen l /\ rewards l' = rewards l.
Proof. intros H. apply (keeps_same_money _ _ _ (gov_execute_keeps _ _ _ _ H)); exact I. Qed.

Lemma stake_execute_staking_inv s2 l t l' :
  t_type t = TRX_STAKING -> stake_execute s2 l t = Ok l' ->
  exists d sender sender',
    (dels l !! t_to t = Some d \/ (dels l !! t_to t = None /\ t_from t = t_to t /\ d = new_delegatee (t_to t))) /\
    accts l !! t_from t = Some sender /\ sub_balance sender (t_amount t) = Some sender' /\
    l' = set_dels (set_acct l (t_from t) sender')
           (<[t_to t := add_stake d (stake_of_tx t (b_height (bctx s2)) (power_of (t_amount t)))]> (dels l)).
Proof.
  intros Hty H. apply InvStake.stake_execute_cases in H as [(_ & H)|[(Hty' & _)|(Hty' & _)]];
    [exact H|rewrite Hty in Hty'; discriminate|destruct (Hty' Hty)].
Qed.

Lemma stake_execute_unstaking_accts s2 l t l' :
  t_type t = TRX_UNSTAKING -> stake_execute s2 l t = Ok l' -> accts l' = accts l /\ rewards l' = rewards l.
Proof.
  intros Hty H. apply InvStake.stake_execute_cases in H as [(Hty' & _)|[(_ & d & hs & b & s0 & _ & _ & _ & _ & ->)|(_ & Hty' & _)]];
    [rewrite Hty in Hty'; discriminate|split; reflexivity|destruct (Hty' Hty)].
Qed.

Lemma stake_execute_withdraw_inv s2 l t l' :
  t_type t = TRX_WITHDRAW -> stake_execute s2 l t = Ok l' ->
  exists req r r' x x',
    t_payload t = PWithdraw req /\ rewards l !! t_from t = Some r /\ accts l !! t_from t = Some x /\
    add_balance x req = Some x' /\
    l' = set_acct (set_rewards l (<[t_from t := r']> (rewards l))) (t_from t) x'.
Proof.
  intros Hty H. apply InvStake.stake_execute_cases in H as [(Hty' & _)|[(Hty' & _)|(_ & _ & H)]];
    [rewrite Hty in Hty'; discriminate..|exact H].
Qed.

(* ---- what a native transaction itself moves *)
(* taken from the sender besides the fee: the transferred / staked amount *)
Definition tx_out (t : tx) : Z :=
  if (t_type t =? TRX_TRANSFER) || (t_type t =? TRX_STAKING) then t_amount t else 0.
(* credited to account [a]: a transfer credits the receiver, a withdrawal the sender *)
Definition tx_in (t : tx) (a : addr) : Z :=
  if t_type t =? TRX_TRANSFER then (if decide (a = t_to t) then t_amount t else 0)
  else if t_type t =? TRX_WITHDRAW then
    match t_payload t with PWithdraw req => if decide (a = t_from t) then req else 0 | _ => 0 end
  else 0.
(* the credit fits: needed for every credited account except the sender of a self-transfer *)
Definition room_for (l : ledgers) (t : tx) (a : addr) : Prop :=
  (t_type t = TRX_TRANSFER /\ a = t_from t) \/ bal_of l a + tx_in t a < two256.

Lemma tx_in_nonneg t a : tx_wf t -> payload_wf t -> 0 <= tx_in t a.
Proof.
  intros (Ha & _) Hp. unfold tx_in, payload_wf in *.
  destruct (t_type t =? TRX_TRANSFER); [destruct (decide (a = t_to t)); lia|].
  destruct (t_type t =? TRX_WITHDRAW) eqn:E; [|lia]. apply Z.eqb_eq in E.
  destruct (t_payload t) as [| |req| | | |]; try lia. specialize (Hp req E eq_refl).
  destruct (decide (a = t_from t)); lia.
Qed.

(* ---- what each executor does to the balances *)
Lemma acct_execute_balances l t l' :
  acct_execute l t = Ok l' -> t_type t = TRX_TRANSFER \/ t_type t = TRX_SETDOC ->
  0 <= t_amount t < two256 -> bal_range l ->
  bal_range l' /\
  forall a, room_for l t a ->
    bal_of l' a = bal_of l a + tx_in t a - (if decide (a = t_from t) then tx_out t else 0).
Proof.
  intros He Hty Hamt Hr. pose proof two256_pos as H256.
  destruct Hty as [Hty|Hty]; unfold room_for, tx_in, tx_out; rewrite Hty; cbn [Z.eqb Pos.eqb orb TRX_TRANSFER
    TRX_STAKING TRX_SETDOC TRX_WITHDRAW].
  - (* transfer: the sender is debited, then the receiver -- possibly the same account -- credited *)
    apply acct_execute_transfer_inv in He as (sender & receiver & sender' & recv' & Hs & Hrc & Hsub & Hadd & ->);
      [|exact Hty].
    pose proof (Hr _ _ Hs) as Hsr. pose proof (Hr _ _ Hrc) as Hrr.
    apply sub_balance_Some in Hsub as (Hle & Hb' & _); [|lia|exact Hsr].
    apply add_balance_Some in Hadd as (_ & Hrb & _); [|lia].
    split.
    + apply bal_range_set_acct; [apply bal_range_set_acct; [exact Hr|lia]|]. rewrite Hrb. apply add256_range.
    + intros a Hroom. rewrite !bal_of_set_acct.
      pose proof (bal_of_lookup _ _ _ Hs) as Hbs. pose proof (bal_of_lookup _ _ _ Hrc) as Hbr.
      destruct (t_from t =? t_to t)%N eqn:Eft.
      * apply N.eqb_eq in Eft. rewrite <- Eft in *.
        rewrite Hb', add256_small in Hrb by lia. repeat case_decide; subst; try congruence; lia.
      * apply N.eqb_neq in Eft.
        destruct Hroom as [(_ & ->)|Hroom]; repeat case_decide; subst; try congruence; try lia.
        rewrite Hrb, add256_small by lia. lia.
  - apply acct_execute_setdoc_inv in He as (sender & x & Hs & Hb & _ & _ & ->); [|exact Hty].
    pose proof (Hr _ _ Hs) as Hsr.
    split; [apply bal_range_set_acct; [exact Hr|lia]|].
    intros a _. rewrite bal_of_set_acct. pose proof (bal_of_lookup _ _ _ Hs) as Hbs.
    repeat case_decide; subst; try congruence; lia.
Qed.

Lemma stake_execute_balances s2 l t l' :
  stake_execute s2 l t = Ok l' -> t_type t = TRX_STAKING \/ t_type t = TRX_UNSTAKING \/ t_type t = TRX_WITHDRAW ->
  0 <= t_amount t < two256 -> payload_wf t -> bal_range l ->
  bal_range l' /\
  forall a, room_for l t a ->
    bal_of l' a = bal_of l a + tx_in t a - (if decide (a = t_from t) then tx_out t else 0).
Proof.
  intros He Hty Hamt Hpl Hr. pose proof two256_pos as H256.
  destruct Hty as [Hty|[Hty|Hty]]; unfold room_for, tx_in, tx_out; rewrite Hty; cbn [Z.eqb Pos.eqb orb TRX_TRANSFER
    TRX_STAKING TRX_UNSTAKING TRX_WITHDRAW].
  - apply stake_execute_staking_inv in He as (d & sender & sender' & _ & Hs & Hsub & ->); [|exact Hty].
    pose proof (Hr _ _ Hs) as Hsr.
    apply sub_balance_Some in Hsub as (Hle & Hb' & _); [|lia|exact Hsr].
    split.
    + intros a x. rewrite accts_set_dels. apply bal_range_set_acct; [exact Hr|lia].
    + intros a _. rewrite bal_of_set_dels, bal_of_set_acct.
      pose proof (bal_of_lookup _ _ _ Hs) as Hbs. repeat case_decide; subst; try congruence; lia.
  - apply stake_execute_unstaking_accts in He as (Ha & _); [|exact Hty].
    split; [intros a x; rewrite Ha; apply Hr|].
    intros a _. rewrite (bal_of_same_accts _ _ a Ha). case_decide; lia.
  - apply stake_execute_withdraw_inv in He as (req & r0 & r' & x & x' & Hpay & _ & Hx & Hadd & ->); [|exact Hty].
    specialize (Hpl req Hty Hpay). rewrite Hpay in *.
    apply add_balance_Some in Hadd as (_ & Hb' & _); [|lia].
    pose proof (Hr _ _ Hx) as Hxr.
    split; [apply bal_range_set_acct; [exact Hr|rewrite Hb'; apply add256_range]|].
    intros a Hroom. rewrite bal_of_set_acct, bal_of_set_rewards.
    pose proof (bal_of_lookup _ _ _ Hx) as Hbx.
    destruct Hroom as [(Hx1 & _)|Hroom]; [discriminate Hx1|].
    repeat case_decide; subst; try congruence; try lia. rewrite Hb', add256_small by lia. lia.
Qed.

Lemma gov_execute_balances s2 l t l' :
  gov_execute s2 l t = Ok l' -> t_type t = TRX_PROPOSAL \/ t_type t = TRX_VOTING -> bal_range l ->
  bal_range l' /\
  forall a, room_for l t a ->
    bal_of l' a = bal_of l a + tx_in t a - (if decide (a = t_from t) then tx_out t else 0).
Proof.
  intros He Hty Hr. apply gov_execute_accts in He as (Ha & _).
  split; [intros a x; rewrite Ha; apply Hr|].
  intros a _. rewrite (bal_of_same_accts _ _ a Ha). unfold tx_in, tx_out.
  destruct Hty as [-> | ->]; cbn; case_decide; lia.
Qed.

Lemma exec_native_balances s1 s2 t l' lim' r :
  validated_of s1 r t = Ok lim' -> evm_path_of t r = false ->
  exec_native s2 t = Ok l' -> tx_wf t -> payload_wf t -> bal_range (work s2) ->
  bal_range l' /\
  forall a, room_for (work s2) t a ->
    bal_of l' a = bal_of (work s2) a + tx_in t a - (if decide (a = t_from t) then tx_out t else 0).
Proof.
  intros Hv Hp He (Hamt & _) Hpl Hr.
  destruct (validated_native_types _ _ _ _ Hv Hp) as [Hty|[Hty|[Hty|[Hty|[Hty|[Hty|Hty]]]]]].
  - rewrite exec_native_transfer in He by exact Hty. apply (acct_execute_balances _ _ _ He); auto.
  - rewrite exec_native_staking in He by exact Hty. apply (stake_execute_balances _ _ _ _ He); auto.
  - rewrite exec_native_unstaking in He by exact Hty. apply (stake_execute_balances _ _ _ _ He); auto.
  - rewrite exec_native_proposal in He by exact Hty. apply (gov_execute_balances _ _ _ _ He); auto.
  - rewrite exec_native_voting in He by exact Hty. apply (gov_execute_balances _ _ _ _ He); auto.
  - rewrite exec_native_setdoc in He by exact Hty. apply (acct_execute_balances _ _ _ He); auto.
  - rewrite exec_native_withdraw in He by exact Hty. apply (stake_execute_balances _ _ _ _ He); auto.
Qed.

(* C16, exact cost on the native path: gas used is the whole gas limit; every balance changes by
   exactly (what the transaction credits) - (fee and what the transaction takes, for the sender);
   in particular all accounts other than sender / receiver keep their balance.  Equations are
   over Z: nothing wraps. *)
Theorem deliver_native_balances s t s' g :
  deliver s t = (s', Ok g) -> native s t -> tx_wf t -> payload_wf t -> bal_range (work s) ->
  g = t_gas t /\ bal_range (work s') /\
  forall a, room_for (work s) t a ->
    bal_of (work s') a = bal_of (work s) a + tx_in t a - (if decide (a = t_from t) then fee_of t + tx_out t else 0).
Proof.
  intros Hd Hn Hwf Hpl Hr.
  apply deliver_ok_inv in Hd as (sender & lim' & Hs & H0 & H1 & Hv & Hd). cbv zeta in Hd.
  rewrite receiver_of_eq in Hv, Hd. unfold native in Hn. rewrite Hn in Hd.
  destruct Hd as (l' & snd' & snd'' & He & Hsn & Hsub & -> & ->).
  split; [reflexivity|].
  assert (Hr0 : bal_range (work (with_lim (pre_state s t) lim'))).
  { cbn [work with_lim]. rewrite pre_state_work. apply bal_range_find_or_new. exact Hr. }
  destruct (exec_native_balances _ _ _ _ _ _ Hv Hn He Hwf Hpl Hr0) as (Hr' & Hbal).
  pose proof (Hr' _ _ Hsn) as Hsr. pose proof (fee_of_range t) as Hfr.
  apply sub_balance_Some in Hsub as (Hle & Hb'' & _); [|lia|exact Hsr].
  cbn [work with_bctx with_work].
  split; [apply bal_range_set_acct; [exact Hr'|rewrite add_nonce_bal; lia]|].
  intros a Hroom. rewrite bal_of_set_acct.
  assert (Hroom' : room_for (work (with_lim (pre_state s t) lim')) t a).
  { unfold room_for in *. cbn [work with_lim]. rewrite pre_state_work, bal_of_find_or_new. exact Hroom. }
  specialize (Hbal a Hroom'). cbn [work with_lim] in Hbal. rewrite pre_state_work, bal_of_find_or_new in Hbal.
  rewrite add_nonce_bal, Hb''. pose proof (bal_of_lookup _ _ _ Hsn) as Hbs.
  repeat case_decide; subst; try congruence; lia.
Qed.
Print Assumptions deliver_native_balances.

Lemma payload_wf_other t : t_type t <> TRX_WITHDRAW -> payload_wf t.
Proof. intros H req Hty. contradiction. Qed.

Corollary deliver_transfer_cost s t s' g :
  deliver s t = (s', Ok g) -> native s t -> t_type t = TRX_TRANSFER -> tx_wf t -> ranges_ok (work s) ->
  g = t_gas t /\
  (t_from t <> t_to t ->
     bal_of (work s') (t_from t) = bal_of (work s) (t_from t) - fee_of t - t_amount t /\
     (bal_of (work s) (t_to t) + t_amount t < two256 ->
      bal_of (work s') (t_to t) = bal_of (work s) (t_to t) + t_amount t)) /\
  (t_from t = t_to t -> bal_of (work s') (t_from t) = bal_of (work s) (t_from t) - fee_of t) /\
  (forall a, a <> t_from t -> a <> t_to t -> bal_of (work s') a = bal_of (work s) a).
Proof.
  intros Hd Hn Hty Hwf Hr.
  assert (Hpl : payload_wf t) by (apply payload_wf_other; rewrite Hty; discriminate).
  destruct (deliver_native_balances _ _ _ _ Hd Hn Hwf Hpl (ranges_ok_bal_range _ Hr)) as (Hg & _ & Hb).
  split; [exact Hg|].
  assert (Hin : forall a, tx_in t a = if decide (a = t_to t) then t_amount t else 0).
  { intros a. unfold tx_in. rewrite Hty. reflexivity. }
  assert (Hout : tx_out t = t_amount t) by (unfold tx_out; rewrite Hty; reflexivity).
  assert (Hroom : forall a, a <> t_to t -> room_for (work s) t a).
  { intros a Hne. right. rewrite Hin, decide_False by exact Hne.
    pose proof (bal_range_bal_of _ a (ranges_ok_bal_range _ Hr)). lia. }
  split; [|split].
  - intros Hne. split.
    + rewrite (Hb _ (Hroom _ Hne)), Hin, Hout. repeat case_decide; try congruence; lia.
    + intros Hfit. rewrite (Hb (t_to t)).
      * rewrite Hin. repeat case_decide; try congruence; lia.
      * right. rewrite Hin, decide_True by reflexivity. exact Hfit.
  - intros Heq. rewrite (Hb (t_from t)) by (left; auto). rewrite Hin, Hout. repeat case_decide; try congruence; lia.
  - intros a Hna Hnb. rewrite (Hb _ (Hroom _ Hnb)), Hin. repeat case_decide; try congruence; lia.
Qed.

Corollary deliver_staking_cost s t s' g :
  deliver s t = (s', Ok g) -> native s t -> t_type t = TRX_STAKING -> tx_wf t -> ranges_ok (work s) ->
  g = t_gas t /\
  bal_of (work s') (t_from t) = bal_of (work s) (t_from t) - fee_of t - t_amount t /\
  (forall a, a <> t_from t -> bal_of (work s') a = bal_of (work s) a).
Proof.
  intros Hd Hn Hty Hwf Hr.
  assert (Hpl : payload_wf t) by (apply payload_wf_other; rewrite Hty; discriminate).
  destruct (deliver_native_balances _ _ _ _ Hd Hn Hwf Hpl (ranges_ok_bal_range _ Hr)) as (Hg & _ & Hb).
  split; [exact Hg|].
  assert (Hin : forall a, tx_in t a = 0) by (intros a; unfold tx_in; rewrite Hty; reflexivity).
  assert (Hout : tx_out t = t_amount t) by (unfold tx_out; rewrite Hty; reflexivity).
  assert (Hroom : forall a, room_for (work s) t a).
  { intros a. right. rewrite Hin. pose proof (bal_range_bal_of _ a (ranges_ok_bal_range _ Hr)). lia. }
  split.
  - rewrite (Hb _ (Hroom _)), Hin, Hout, decide_True by reflexivity. lia.
  - intros a Hne. rewrite (Hb _ (Hroom _)), Hin, decide_False by exact Hne. lia.
Qed.

Corollary deliver_withdraw_cost s t s' g req :
  deliver s t = (s', Ok g) -> native s t -> t_type t = TRX_WITHDRAW -> t_payload t = PWithdraw req ->
  tx_wf t -> 0 <= req < two256 -> ranges_ok (work s) ->
  bal_of (work s) (t_from t) + req < two256 ->
  g = t_gas t /\
  bal_of (work s') (t_from t) = bal_of (work s) (t_from t) + req - fee_of t /\
  (forall a, a <> t_from t -> bal_of (work s') a = bal_of (work s) a).
Proof.
  intros Hd Hn Hty Hpay Hwf Hreq Hr Hfit.
  assert (Hpl : payload_wf t).
  { intros req' _ Hp'. rewrite Hpay in Hp'. injection Hp' as <-. exact Hreq. }
  destruct (deliver_native_balances _ _ _ _ Hd Hn Hwf Hpl (ranges_ok_bal_range _ Hr)) as (Hg & _ & Hb).
  split; [exact Hg|].
  assert (Hin : forall a, tx_in t a = if decide (a = t_from t) then req else 0).
  { intros a. unfold tx_in. rewrite Hty, Hpay. reflexivity. }
  assert (Hout : tx_out t = 0) by (unfold tx_out; rewrite Hty; reflexivity).
  split.
  - rewrite (Hb (t_from t)).
    + rewrite Hin, Hout, !decide_True by reflexivity. lia.
    + right. rewrite Hin, decide_True by reflexivity. exact Hfit.
  - intros a Hne. rewrite (Hb a).
    + rewrite Hin, !decide_False by exact Hne. lia.
    + right. rewrite Hin, decide_False by exact Hne.
      pose proof (bal_range_bal_of _ a (ranges_ok_bal_range _ Hr)). lia.
Qed.

(* unstaking, proposal, voting, setdoc: the fee and nothing else *)
Corollary deliver_other_cost s t s' g :
  deliver s t = (s', Ok g) -> native s t ->
  t_type t <> TRX_TRANSFER -> t_type t <> TRX_STAKING -> t_type t <> TRX_WITHDRAW ->
  tx_wf t -> ranges_ok (work s) ->
  g = t_gas t /\
  bal_of (work s') (t_from t) = bal_of (work s) (t_from t) - fee_of t /\
  (forall a, a <> t_from t -> bal_of (work s') a = bal_of (work s) a).
Proof.
  intros Hd Hn H1 H2 H8 Hwf Hr.
  assert (Hpl : payload_wf t) by (apply payload_wf_other; exact H8).
  destruct (deliver_native_balances _ _ _ _ Hd Hn Hwf Hpl (ranges_ok_bal_range _ Hr)) as (Hg & _ & Hb).
  split; [exact Hg|].
  apply Z.eqb_neq in H1, H2, H8.
  assert (Hin : forall a, tx_in t a = 0) by (intros a; unfold tx_in; rewrite H1, H8; reflexivity).
  assert (Hout : tx_out t = 0) by (unfold tx_out; rewrite H1, H2; reflexivity).
  assert (Hroom : forall a, room_for (work s) t a).
  { intros a. right. rewrite Hin. pose proof (bal_range_bal_of _ a (ranges_ok_bal_range _ Hr)). lia. }
  split.
  - rewrite (Hb _ (Hroom _)), Hin, Hout, decide_True by reflexivity. lia.
  - intros a Hne. rewrite (Hb _ (Hroom _)), Hin, decide_False by exact Hne. lia.
Qed.

(* ================================================================== the fee sum of the block *)
Lemma deliver_bctx s t s' r :
  deliver s t = (s', r) ->
  b_height (bctx s') = b_height (bctx s) /\ b_proposer (bctx s') = b_proposer (bctx s) /\
  b_feesum (bctx s') = match r with
                       | Ok g => add256 (b_feesum (bctx s)) (mul256 g (g_gasPrice (gparams s)))
                       | _ => b_feesum (bctx s) end /\
  gparams s' = gparams s /\ committed s' = committed s /\ last_height s' = last_height s.
Proof.
  intros H. apply InvFail.deliver_cases in H.
  destruct H as [_|? ? _ Hrej|? lim' ? ? _ _ _ _ [? Hst|l' gas _ _|l' ? _ _ _ _|l' ? ? _ _ _ _]];
    [|destruct Hrej|destruct Hst|..]; repeat split; reflexivity.
Qed.

(* C16: on success (either path) the fee sum grows by gas used x governance price, on failure or
   panic it does not change *)
Theorem deliver_feesum s t s' r :
  deliver s t = (s', r) ->
  b_feesum (bctx s') = match r with
                       | Ok g => add256 (b_feesum (bctx s)) (mul256 g (g_gasPrice (gparams s)))
                       | _ => b_feesum (bctx s) end.
Proof. intros H. apply deliver_bctx in H. tauto. Qed.
Print Assumptions deliver_feesum.

Corollary deliver_native_feesum s t s' g :
  deliver s t = (s', Ok g) -> native s t ->
  b_feesum (bctx s') = add256 (b_feesum (bctx s)) (fee_of t).
Proof.
  intros Hd Hn. rewrite (deliver_feesum _ _ _ _ Hd).
  pose proof (deliver_ok_admission _ _ _ _ Hd) as (Hp & _).
  apply deliver_ok_inv in Hd as (sender & lim' & _ & _ & _ & _ & Hd). cbv zeta in Hd.
  rewrite receiver_of_eq in Hd. unfold native in Hn. rewrite Hn in Hd.
  destruct Hd as (l' & snd' & snd'' & _ & _ & _ & -> & _).
  unfold fee_of, mul256. rewrite Hp, Z.mul_comm. reflexivity.
Qed.

(* ================================================================== end of block *)
Definition res_stuck {A B} (f : res A -> B -> res A) : Prop :=
  (forall e b, f (Err e) b = Err e) /\ (forall p b, f (Panic p) b = Panic p).

Lemma freeze_proposals_money base l h l1 : freeze_proposals base l h = Ok l1 -> same_money l l1.
Proof. intros H. apply (keeps_same_money _ _ _ (freeze_proposals_keeps _ _ _ _ H)); exact I. Qed.

Lemma apply_proposals_money s base l h l2 np : apply_proposals s base l h = Ok (l2, np) -> same_money l l2.
Proof. intros H. apply (keeps_same_money _ _ _ (apply_proposals_keeps _ _ _ _ _ _ H)); exact I. Qed.

(* AcctCtrler.EndBlock: the block's fee sum goes to the proposer *)
Definition pay_proposer (l2 : ledgers) (b : blockctx) : option ledgers :=
  match b_proposer b with
  | Some pa => if 0 <? sign256 (b_feesum b) then
                 match add_balance (default acct0 (accts l2 !! pa)) (b_feesum b) with
                 | Some x => Some (set_acct l2 pa x) | None => None end
               else Some l2
  | None => Some l2 end.

Definition unfreeze_step (h : Z) (acc : res ledgers) (kp : hash * stake) : res ledgers :=
  match acc with
  | Ok l =>
      let s0 := kp.2 in
      if s_refund s0 <=? h then
        match acct_reward l (s_from s0) (power_to_amount (s_power s0)) with
        | None => Panic P_ENDBLOCK
        | Some l1 => Ok (set_frozen l1 (delete kp.1 (frozen l1)))
        end
      else Ok l
  | x => x end.

Lemma unfreeze_eq base l h : unfreeze base l h = foldl (unfreeze_step h) (Ok l) (sorted_items (frozen base)).
Proof. reflexivity. Qed.

(* [pay_proposer] is the function behind SpecFacts.proposer_paid *)
Lemma proposer_paid_pay b l l' : proposer_paid b l l' -> pay_proposer l b = Some l'.
Proof.
  unfold pay_proposer. intros [Ep|pa Ep Ef|pa x Ep Ef Ea]; rewrite Ep; [reflexivity|rewrite Ef; reflexivity|].
  rewrite Ef. change (default acct0 (accts l !! pa)) with (acct_of l pa). rewrite Ea. reflexivity.
Qed.

Lemma end_block_inv s s' r :
  end_block s = (s', r) ->
  match r with
  | Ok ups =>
      exists l1 l2 np l3,
        freeze_proposals (base_of s) (work s) (b_height (bctx s)) = Ok l1 /\
        apply_proposals s (base_of s) l1 (b_height (bctx s)) = Ok (l2, np) /\
        pay_proposer l2 (bctx s) = Some l3 /\
        unfreeze (base_of s) l3 (b_height (bctx s)) = Ok (work s') /\
        bctx s' = bctx s /\ committed s' = committed s /\ gparams s' = gparams s /\ newparams s' = np /\
        last_height s' = last_height s
  | _ => s' = s
  end.
Proof.
  intros H. apply end_block_cases in H. destruct H as [r Hr|l1 l2 np l3 l4 H1 H2 H3 H4 _].
  - destruct r as [ups|e|p]; [destruct (Hr ups eq_refl)|reflexivity..].
  - exists l1, l2, np, l3. apply proposer_paid_pay in H3. repeat split; assumption.
Qed.

Lemma unfreeze_step_inv h l kp l' :
  unfreeze_step h (Ok l) kp = Ok l' ->
  ((s_refund kp.2 <=? h) = false /\ l' = l) \/
  ((s_refund kp.2 <=? h) = true /\
   exists x x', accts l !! s_from kp.2 = Some x /\ add_balance x (power_to_amount (s_power kp.2)) = Some x' /\
     l' = set_frozen (set_acct l (s_from kp.2) x') (delete kp.1 (frozen l))).
Proof.
  unfold unfreeze_step. destruct (s_refund kp.2 <=? h); [|intros [= <-]; left; auto].
  destruct (acct_reward l (s_from kp.2) (power_to_amount (s_power kp.2))) as [l1|] eqn:E; [|discriminate].
  apply InvStake.acct_reward_inv in E as (x & x' & Hx & Ha & ->). intros [= <-]. right. split; [reflexivity|].
  exists x, x'. auto.
Qed.

Definition refund_of (h : Z) (a : addr) (kp : hash * stake) : Z :=
  if (s_refund kp.2 <=? h) && (s_from kp.2 =? a)%N then power_to_amount (s_power kp.2) else 0.
Definition refunds_to (items : list (hash * stake)) (h : Z) (a : addr) : Z := sumZ_with (refund_of h a) items.

Lemma power_to_amount_range p : 0 <= power_to_amount p < two256.
Proof. apply mul256_range. Qed.

Lemma refund_of_nonneg h a kp : 0 <= refund_of h a kp.
Proof. unfold refund_of. destruct (_ && _); [apply power_to_amount_range|lia]. Qed.

Lemma refunds_to_nonneg items h a : 0 <= refunds_to items h a.
Proof. apply sumZ_with_nonneg. intros kp _. apply refund_of_nonneg. Qed.

Lemma unfreeze_fold_balances h items : forall l l4,
  foldl (unfreeze_step h) (Ok l) items = Ok l4 -> bal_range l ->
  bal_range l4 /\
  forall a, bal_of l a + refunds_to items h a < two256 -> bal_of l4 a = bal_of l a + refunds_to items h a.
Proof.
  induction items as [|kp items IH]; intros l l4 Hf Hr.
  - simpl in Hf. injection Hf as <-. split; [exact Hr|]. intros a _. unfold refunds_to. simpl. lia.
  - cbn [foldl] in Hf. destruct (unfreeze_step h (Ok l) kp) as [l1|e|p] eqn:E.
    2:{ rewrite foldl_res_err in Hf by reflexivity. discriminate. }
    2:{ rewrite foldl_res_panic in Hf by reflexivity. discriminate. }
    apply unfreeze_step_inv in E as [(Em & ->)|(Em & x & x' & Hx & Ha & ->)].
    + destruct (IH _ _ Hf Hr) as (Hr4 & Hb). split; [exact Hr4|].
      intros a Hroom. unfold refunds_to in *. simpl in *. unfold refund_of at 1 in Hroom. unfold refund_of at 1.
      rewrite Em in *. cbn [andb] in *. rewrite Hb by lia. lia.
    + pose proof (power_to_amount_range (s_power kp.2)) as Hamt.
      apply add_balance_Some in Ha as (_ & Hb' & _); [|lia].
      assert (Hr1 : bal_range (set_frozen (set_acct l (s_from kp.2) x') (delete kp.1 (frozen l)))).
      { intros a y. rewrite accts_set_frozen. apply bal_range_set_acct; [exact Hr|]. rewrite Hb'. apply add256_range. }
      destruct (IH _ _ Hf Hr1) as (Hr4 & Hb). split; [exact Hr4|].
      intros a Hroom. unfold refunds_to in *. simpl in *. unfold refund_of at 1 in Hroom. unfold refund_of at 1.
      rewrite Em in *. cbn [andb] in *.
      pose proof (refunds_to_nonneg items h a) as Hnn. unfold refunds_to in Hnn.
      pose proof (bal_of_lookup _ _ _ Hx) as Hbx. pose proof (Hr _ _ Hx) as Hxr.
      specialize (Hb a). rewrite bal_of_set_frozen, bal_of_set_acct in Hb.
      destruct (s_from kp.2 =? a)%N eqn:Ea.
      * apply N.eqb_eq in Ea. subst a. destruct (decide (s_from kp.2 = s_from kp.2)); [|congruence].
        rewrite Hb', add256_small in Hb by lia. rewrite Hb by lia. lia.
      * apply N.eqb_neq in Ea. destruct (decide (s_from kp.2 = a)); [contradiction|]. rewrite Hb by lia. lia.
Qed.

Lemma pay_proposer_balances l2 b l3 :
  pay_proposer l2 b = Some l3 -> bal_range l2 -> 0 <= b_feesum b < two256 ->
  let fee := if 0 <? sign256 (b_feesum b) then b_feesum b else 0 in
  dels l3 = dels l2 /\ frozen l3 = frozen l2 /\ rewards l3 = rewards l2 /\ bal_range l3 /\
  forall a, (b_proposer b = Some a -> bal_of l2 a + fee < two256) ->
    bal_of l3 a = bal_of l2 a + (if decide (b_proposer b = Some a) then fee else 0).
Proof.
  unfold pay_proposer. intros Hp Hr Hf. cbv zeta.
  destruct (b_proposer b) as [pa|].
  2:{ injection Hp as <-. refine (conj eq_refl (conj eq_refl (conj eq_refl (conj Hr _)))).
      intros a _. destruct (decide (None = Some a)); [discriminate|lia]. }
  destruct (0 <? sign256 (b_feesum b)) eqn:Es.
  2:{ injection Hp as <-. refine (conj eq_refl (conj eq_refl (conj eq_refl (conj Hr _)))).
      intros a _. destruct (decide (Some pa = Some a)); lia. }
  destruct (add_balance (default acct0 (accts l2 !! pa)) (b_feesum b)) as [x|] eqn:Ea; [|discriminate].
  injection Hp as <-. apply add_balance_Some in Ea as (_ & Hb & _); [|lia].
  refine (conj eq_refl (conj eq_refl (conj eq_refl (conj _ _)))).
  - apply bal_range_set_acct; [exact Hr|]. rewrite Hb. apply add256_range.
  - intros a Hroom. rewrite bal_of_set_acct.
    pose proof (bal_range_bal_of _ pa Hr) as Hpr. change (a_bal (default acct0 (accts l2 !! pa))) with (bal_of l2 pa) in Hb.
    destruct (decide (pa = a)) as [<-|Hne].
    + destruct (decide (Some pa = Some pa)); [|congruence]. specialize (Hroom eq_refl).
      rewrite Hb, add256_small by lia. reflexivity.
    + destruct (decide (Some pa = Some a)) as [Heq|_]; [congruence|]. lia.
Qed.

Definition end_fee (b : blockctx) (a : addr) : Z :=
  if decide (b_proposer b = Some a) then (if 0 <? sign256 (b_feesum b) then b_feesum b else 0) else 0.

(* C16, end of block: every balance grows by exactly the block's fee sum (for the proposer, when
   the sum is positive as the code tests it: 0 < sum < 2^255) plus the refunds of the matured
   unbonding stakes of the committed tree; nobody receives fees when there is no proposer.
   Exact over Z under the stated room hypothesis (InvSupply derives it from the supply bound). *)
Theorem end_block_balances s s' ups :
  end_block s = (s', Ok ups) -> bal_range (work s) -> 0 <= b_feesum (bctx s) < two256 ->
  let h := b_height (bctx s) in
  let items := sorted_items (frozen (base_of s)) in
  bal_range (work s') /\
  forall a, bal_of (work s) a + end_fee (bctx s) a + refunds_to items h a < two256 ->
    bal_of (work s') a = bal_of (work s) a + end_fee (bctx s) a + refunds_to items h a.
Proof.
  intros He Hr Hf. cbv zeta.
  apply end_block_inv in He as (l1 & l2 & np & l3 & H1 & H2 & H3 & H4 & _).
  apply freeze_proposals_money in H1 as (Ha1 & _). apply apply_proposals_money in H2 as (Ha2 & _).
  assert (Hr2 : bal_range l2) by (intros a x; rewrite Ha2, Ha1; apply Hr).
  destruct (pay_proposer_balances _ _ _ H3 Hr2 Hf) as (_ & _ & _ & Hr3 & Hb3).
  rewrite unfreeze_eq in H4. destruct (unfreeze_fold_balances _ _ _ _ H4 Hr3) as (Hr4 & Hb4).
  split; [exact Hr4|]. intros a Hroom.
  pose proof (refunds_to_nonneg (sorted_items (frozen (base_of s))) (b_height (bctx s)) a) as Hnn.
  assert (Hl2 : bal_of l2 a = bal_of (work s) a).
  { rewrite (bal_of_same_accts _ _ a Ha2). apply bal_of_same_accts. exact Ha1. }
  unfold end_fee in *.
  assert (Hb3a : bal_of l3 a = bal_of (work s) a +
            (if decide (b_proposer (bctx s) = Some a) then if 0 <? sign256 (b_feesum (bctx s)) then b_feesum (bctx s) else 0 else 0)).
  { rewrite Hb3, Hl2; [reflexivity|]. intros Hpa. rewrite Hl2.
    destruct (decide (b_proposer (bctx s) = Some a)); [|contradiction]. lia. }
  rewrite Hb4; rewrite Hb3a; lia.
Qed.
Print Assumptions end_block_balances.

Corollary end_block_proposer_credit s s' ups pa :
  end_block s = (s', Ok ups) -> bal_range (work s) -> b_proposer (bctx s) = Some pa ->
  0 < b_feesum (bctx s) < two255 ->
  let refunds := refunds_to (sorted_items (frozen (base_of s))) (b_height (bctx s)) pa in
  bal_of (work s) pa + b_feesum (bctx s) + refunds < two256 ->
  bal_of (work s') pa = bal_of (work s) pa + b_feesum (bctx s) + refunds.
Proof.
  intros He Hr Hp Hf. cbv zeta. intros Hroom.
  assert (Hf' : 0 <= b_feesum (bctx s) < two256) by (pose proof two256_double; lia).
  destruct (end_block_balances _ _ _ He Hr Hf') as (_ & Hb). cbv zeta in Hb.
  assert (Hfee : end_fee (bctx s) pa = b_feesum (bctx s)).
  { unfold end_fee. destruct (decide (b_proposer (bctx s) = Some pa)); [|contradiction].
    assert (Hs : (0 <? sign256 (b_feesum (bctx s))) = true) by (apply sign256_pos; lia). rewrite Hs. reflexivity. }
  rewrite Hb; rewrite Hfee; [reflexivity|exact Hroom].
Qed.

Corollary end_block_no_proposer s s' ups :
  end_block s = (s', Ok ups) -> bal_range (work s) -> b_proposer (bctx s) = None ->
  0 <= b_feesum (bctx s) < two256 ->
  forall a, let refunds := refunds_to (sorted_items (frozen (base_of s))) (b_height (bctx s)) a in
  bal_of (work s) a + refunds < two256 -> bal_of (work s') a = bal_of (work s) a + refunds.
Proof.
  intros He Hr Hp Hf a. cbv zeta. intros Hroom.
  destruct (end_block_balances _ _ _ He Hr Hf) as (_ & Hb). cbv zeta in Hb.
  assert (Hfee : end_fee (bctx s) a = 0).
  { unfold end_fee. rewrite Hp. destruct (decide (None = Some a)); [discriminate|reflexivity]. }
  rewrite Hb; rewrite Hfee; lia.
Qed.

Lemma begin_block_feesum s hd s' r :
  begin_block s hd = (s', r) -> h_height hd = last_height s + 1 ->
  b_feesum (bctx s') = 0 /\ b_proposer (bctx s') = h_proposer hd /\ b_height (bctx s') = h_height hd.
Proof. intros E Hh. apply begin_block_cases in E. destruct E; [contradiction|repeat split; reflexivity..]. Qed.

(* ================================================================== the EVM path *)
(* Oracle hypothesis on an observed effect (the interpreter is trusted, see DESIGN C17): the
   touched accounts are listed once with in-range balances, gas used does not exceed the limit,
   and what the touched accounts lose in total is exactly gas used x price plus a non-negative
   amount [burn] destroyed by the contract semantics (SELFDESTRUCT to self and the like). *)
Definition evm_effect_fee_ok (l : ledgers) (t : tx) (price : Z) (e : evm_effect) (burn : Z) : Prop :=
  NoDup ((fun x : addr * Z * Z => x.1.1) <$> e_accts e) /\
  0 <= e_gas e <= t_gas t /\
  (forall x, x ∈ e_accts e -> 0 <= x.1.2 < two256) /\
  0 <= burn /\
  sumZ_with (fun x : addr * Z * Z => x.1.2 - bal_of l x.1.1) (e_accts e) = - (e_gas e * price) - burn.

(* C16 on the EVM path: gas used is what the interpreter reports (never above the limit under the
   oracle hypothesis) and the fee sum grows by gas used x price; the balance side is
   [deliver_evm_supply] in InvSupply.v *)
Theorem deliver_evm_gas s t s' g :
  deliver s t = (s', Ok g) -> ~ native s t ->
  exists e, t_evm t = Some e /\ e_ok e = true /\ g = e_gas e /\
    b_feesum (bctx s') = add256 (b_feesum (bctx s)) (mul256 (e_gas e) (g_gasPrice (gparams s))) /\
    (forall burn, evm_effect_fee_ok (work s) t (g_gasPrice (gparams s)) e burn -> 0 <= g <= t_gas t).
Proof.
  intros Hd Hn. pose proof (deliver_feesum _ _ _ _ Hd) as Hfs. cbv iota in Hfs.
  apply deliver_ok_inv in Hd as (sender & lim' & _ & _ & _ & _ & Hd). cbv zeta in Hd.
  rewrite receiver_of_eq in Hd. unfold native in Hn.
  destruct (evm_path_of t (acct_of (work s) (t_to t))); [|contradiction Hn; reflexivity].
  destruct Hd as (l' & He & _). unfold evm_execute in He.
  destruct (t_evm t) as [e|]; [|discriminate].
  destruct (e_ok e) eqn:Eok; [|discriminate]. cbn [negb] in He. injection He as _ <-.
  exists e. repeat split; try assumption; try reflexivity; destruct H as (_ & Hg & _); lia.
Qed.
Print Assumptions deliver_evm_gas.

(* ================================================================== the fee sum of a whole block *)
Fixpoint deliver_all (s : state) (txs : list tx) : state * list (res Z) :=
  match txs with
  | [] => (s, [])
  | t :: r => let '(s1, x) := deliver s t in let '(s2, xs) := deliver_all s1 r in (s2, x :: xs)
  end.

Definition fee_of_result (price : Z) (r : res Z) : Z := match r with Ok g => mul256 g price | _ => 0 end.
Definition block_fees (price : Z) (rs : list (res Z)) : Z := sumZ_with (fee_of_result price) rs.

Lemma deliver_all_srun s txs : (deliver_all s txs).1 = srun s (map SDeliver txs).
Proof.
  revert s. induction txs as [|t txs IH]; intros s; [reflexivity|].
  cbn [deliver_all map]. unfold srun in *. cbn [foldl sstep].
  destruct (deliver s t) as [s1 x]. cbn [fst]. rewrite <- IH. destruct (deliver_all s1 txs). reflexivity.
Qed.

Lemma deliver_all_feesum txs : forall s acc,
  b_feesum (bctx s) = wrap256 acc ->
  let '(s2, rs) := deliver_all s txs in
  b_feesum (bctx s2) = wrap256 (acc + block_fees (g_gasPrice (gparams s)) rs) /\
  gparams s2 = gparams s /\ b_proposer (bctx s2) = b_proposer (bctx s) /\ b_height (bctx s2) = b_height (bctx s).
Proof.
  induction txs as [|t txs IH]; intros s acc Hacc; cbn [deliver_all].
  - unfold block_fees. cbn. rewrite Z.add_0_r. auto.
  - destruct (deliver s t) as [s1 x] eqn:Ed.
    destruct (deliver_bctx _ _ _ _ Ed) as (Hh & Hp & Hf & Hg & _).
    assert (Hacc1 : b_feesum (bctx s1) = wrap256 (acc + fee_of_result (g_gasPrice (gparams s)) x)).
    { rewrite Hf, Hacc. destruct x as [g|e|p]; cbn [fee_of_result].
      - unfold add256, wrap256. rewrite Z.add_mod_idemp_l by (pose proof two256_pos; lia). reflexivity.
      - rewrite Z.add_0_r. reflexivity.
      - rewrite Z.add_0_r. reflexivity. }
    specialize (IH s1 _ Hacc1). destruct (deliver_all s1 txs) as [s2 xs].
    destruct IH as (I1 & I2 & I3 & I4). rewrite Hg in I1.
    unfold block_fees in *. rewrite I1.
    change (sumZ_with ?f (x :: xs)) with (f x + sumZ_with f xs).
    split; [f_equal; lia|]. split; [congruence|]. split; congruence.
Qed.

Lemma begin_block_gparams s hd : gparams (begin_block s hd).1 = gparams s.
Proof. destruct (begin_block_control s hd _ _ (surjective_pairing _)) as [->|(_ & l & ->)]; reflexivity. Qed.

(* C16, a whole block: after BeginBlock and the deliveries the fee sum EndBlock will pay out is
   the sum of gas used x governance price over the successful deliveries (modulo 2^256, and
   exactly when that sum is below 2^256) *)
Theorem block_feesum s hd txs :
  h_height hd = last_height s + 1 ->
  let s1 := (begin_block s hd).1 in
  let '(s2, rs) := deliver_all s1 txs in
  s2 = srun s ([SBegin hd] ++ map SDeliver txs) /\
  b_proposer (bctx s2) = h_proposer hd /\
  b_feesum (bctx s2) = wrap256 (block_fees (g_gasPrice (gparams s)) rs) /\
  (block_fees (g_gasPrice (gparams s)) rs < two256 -> b_feesum (bctx s2) = block_fees (g_gasPrice (gparams s)) rs).
Proof.
  intros Hh. cbv zeta.
  destruct (begin_block s hd) as [s1 r1] eqn:Eb. cbn [fst].
  destruct (begin_block_feesum _ _ _ _ Eb Hh) as (Hf0 & Hp0 & _).
  assert (Hg1 : gparams s1 = gparams s) by (pose proof (begin_block_gparams s hd) as H; rewrite Eb in H; exact H).
  assert (Hacc : b_feesum (bctx s1) = wrap256 0) by (rewrite Hf0; reflexivity).
  pose proof (deliver_all_feesum txs s1 0 Hacc) as Hall. pose proof (deliver_all_srun s1 txs) as Hrun.
  destruct (deliver_all s1 txs) as [s2 rs]. destruct Hall as (I1 & _ & I3 & _). cbn [fst] in Hrun.
  rewrite Hg1, Z.add_0_l in I1.
  split; [|split; [congruence|split; [exact I1|]]].
  - rewrite Hrun. unfold srun. cbn [app foldl sstep]. rewrite Eb. reflexivity.
  - intros Hlt. rewrite I1. apply wrap256_small. split; [|exact Hlt].
    apply sumZ_with_nonneg. intros [g|e|p] _; cbn; [apply mul256_range|lia|lia].
Qed.
Print Assumptions block_feesum.

(* ================================================================== examples: the hypotheses are satisfiable *)
Lemma bal_range_decide l :
  bool_decide (map_Forall (fun (_ : addr) (x : account) => 0 <= a_bal x < two256) (accts l)) = true -> bal_range l.
Proof. intros H. apply bool_decide_eq_true in H. intros a x Hx. apply (H a x Hx). Qed.

Lemma ranges_ok_decide l :
  bool_decide (map_Forall (fun (_ : addr) (x : account) => 0 <= a_bal x < two256 /\ 0 <= a_nonce x < two64) (accts l)) = true ->
  bool_decide (Forall (fun s => 0 <= s_power s < two63) (bonded_stakes l ++ frozen_stakes l)) = true ->
  bool_decide (map_Forall (fun (_ : addr) (r : reward) => 0 <= r_cumulated r < two256) (rewards l)) = true ->
  ranges_ok l.
Proof.
  intros H1 H2 H3. apply bool_decide_eq_true in H1, H2, H3. split; [|split].
  - intros a x Hx. apply (H1 a x Hx).
  - intros s Hs. rewrite Forall_forall in H2. apply (H2 s Hs).
  - intros a r Hr. apply (H3 a r Hr).
Qed.

Ltac zclosed := repeat split; vm_compute; congruence.

Definition ex_transfer : tx := demo_tx TRX_TRANSFER 1%N 2%N (5 * amountPerPower) 4000 0 PNone 100%N.
Definition ex_transfer2 : tx := demo_tx TRX_TRANSFER 2%N 3%N amountPerPower 5000 0 PNone 101%N.
Definition ex_staking : tx := demo_tx TRX_STAKING 3%N 11%N (20 * amountPerPower) 4000 0 PNone 102%N.
Definition ex_bad : tx := demo_tx TRX_TRANSFER 1%N 2%N amountPerPower 4000 7 PNone 103%N.   (* wrong nonce *)

(* a transfer on the demo chain meets every hypothesis of [deliver_native_balances], with the
   balances that theorem gives *)
Example ex_transfer_cost :
  let s := demo_s1 in let t := ex_transfer in
  exists s', deliver s t = (s', Ok 4000) /\ native s t /\ tx_wf t /\ payload_wf t /\ ranges_ok (work s) /\
    t_price t = g_gasPrice (gparams s) /\
    bal_of (work s') 1%N = 1000 * amountPerPower - 40000 - 5 * amountPerPower /\
    bal_of (work s') 2%N = 1000 * amountPerPower + 5 * amountPerPower /\
    b_feesum (bctx s') = 40000.
Proof.
  cbv zeta.
  assert (H : let '(s', r) := deliver demo_s1 ex_transfer in
              r = Ok 4000 /\ bal_of (work s') 1%N = 1000 * amountPerPower - 40000 - 5 * amountPerPower /\
              bal_of (work s') 2%N = 1000 * amountPerPower + 5 * amountPerPower /\ b_feesum (bctx s') = 40000)
    by (vm_compute; auto).
  destruct (deliver demo_s1 ex_transfer) as [s' r]. destruct H as (-> & H1 & H2 & Hf).
  exists s'. split; [reflexivity|].
  split; [vm_compute; reflexivity|]. split; [zclosed|]. split; [intros req H; discriminate H|].
  split; [apply ranges_ok_decide; vm_compute; reflexivity|].
  split; [reflexivity|]. split; [exact H1|]. split; [exact H2|exact Hf].
Qed.

(* a block with three successful deliveries and a failed one: the fee sum of [block_feesum],
   and the proposer's credit of [end_block_proposer_credit] *)
Lemma ex_block_run :
  let s1 := (begin_block (init_chain demo_genesis) (demo_hdr 1 (Some 11%N))).1 in
  let '(s2, rs) := deliver_all s1 [ex_transfer; ex_bad; ex_transfer2; ex_staking] in
  let '(s3, r) := end_block s2 in
  rs = [Ok 4000; Err E_NONCE; Ok 5000; Ok 4000] /\ b_feesum (bctx s2) = (4000 + 5000 + 4000) * 10 /\
  bool_decide (map_Forall (fun (_ : addr) (x : account) => 0 <= a_bal x < two256) (accts (work s2))) = true /\
  b_proposer (bctx s2) = Some 11%N /\ 0 < b_feesum (bctx s2) < two255 /\
  r = Ok [] /\ bal_of (work s3) 11%N = bal_of (work s2) 11%N + 130000.
Proof. vm_compute. repeat split. Qed.

Example ex_block :
  let s0 := init_chain demo_genesis in
  let hd := demo_hdr 1 (Some 11%N) in
  let txs := [ex_transfer; ex_bad; ex_transfer2; ex_staking] in
  let s2 := srun s0 ([SBegin hd] ++ map SDeliver txs) in
  h_height hd = last_height s0 + 1 /\
  (deliver_all (begin_block s0 hd).1 txs).2 = [Ok 4000; Err E_NONCE; Ok 5000; Ok 4000] /\
  b_feesum (bctx s2) = (4000 + 5000 + 4000) * 10 /\
  bal_range (work s2) /\ b_proposer (bctx s2) = Some 11%N /\ 0 < b_feesum (bctx s2) < two255 /\
  exists s3 ups, end_block s2 = (s3, Ok ups) /\
    bal_of (work s3) 11%N = bal_of (work s2) 11%N + 130000.
Proof.
  cbv zeta. split; [reflexivity|].
  pose proof ex_block_run as H. cbv zeta in H.
  pose proof (block_feesum (init_chain demo_genesis) (demo_hdr 1 (Some 11%N))
                [ex_transfer; ex_bad; ex_transfer2; ex_staking] eq_refl) as B.
  cbv zeta in B.
  destruct (deliver_all _ _) as [s2 rs]. destruct B as (-> & _).
  destruct (end_block _) as [s3 r]. destruct H as (-> & Hf & Hr & Hp & Hlt & -> & Hb).
  split; [reflexivity|]. split; [exact Hf|]. split; [apply bal_range_decide; exact Hr|].
  split; [exact Hp|]. split; [exact Hlt|]. exists s3, []. split; [reflexivity|exact Hb].
Qed.

(* ================================================================== what fails without the bounds *)
(* INTENDED (C16 literally): "at the end of the block the proposer is credited with exactly the sum
   of the fees".  AcctCtrler.EndBlock tests [SumFee().Sign() > 0] on a uint256 whose Sign() is -1
   from 2^255 on: a fee sum of 2^255 or more is not paid at all.  Reachable under [params_ok] and
   [tx_wf] from a genesis whose supply is of that size (price 2^191, three transactions with the
   maximal gas limit): hence the hypothesis [b_feesum < two255] of [end_block_proposer_credit],
   which InvSupply derives from the supply bound. *)
Definition big_params : params := {|
  g_version := 1; g_maxValidatorCnt := 21; g_minValidatorStake := 7 * amountPerPower;
  g_minDelegatorStake := 0; g_rewardPerPower := 1000; g_lazyRewardBlocks := 10; g_lazyApplyingBlocks := 10;
  g_gasPrice := 2 ^ 191; g_minTrxGas := 4000; g_maxTrxGas := 25000000; g_maxBlockGas := 100000000;
  g_minVotingPeriodBlocks := 1; g_maxVotingPeriodBlocks := 100; g_minSelfStakeRatio := 50;
  g_maxUpdatableStakeRatio := 30; g_maxIndividualStakeRatio := 10000000; g_slashRatio := 50;
  g_signedBlocksWindow := 10000; g_minSignedBlocks := 500 |}.
Definition big_genesis : genesis := {|
  gen_params := big_params; gen_holders := [(1%N, 2 ^ 256 - 1); (2%N, 0)]; gen_validators := [(11%N, 100)] |}.
Definition big_tx (n : Z) : tx :=
  {| t_type := TRX_TRANSFER; t_from := 1%N; t_to := 2%N; t_from_ok := true; t_to_ok := true; t_amount := 0;
     t_price := 2 ^ 191; t_gas := maxInt64; t_nonce := n; t_payload := PNone; t_hash := 0%N; t_sigok := true;
     t_evm := None |}.

(* the run of the refutation, evaluated once: with numbers of this size every evaluation is dear
   for a checker without a compiled evaluator *)
Lemma big_run :
  let s1 := (begin_block (init_chain big_genesis) (demo_hdr 1 (Some 11%N))).1 in
  let '(s2, rs) := deliver_all s1 [big_tx 0; big_tx 1; big_tx 2] in
  let '(s3, r) := end_block s2 in
  rs = [Ok maxInt64; Ok maxInt64; Ok maxInt64] /\ b_proposer (bctx s2) = Some 11%N /\
  two255 <= b_feesum (bctx s2) < two256 /\ r = Ok [] /\ bal_of (work s3) 11%N = bal_of (work s2) 11%N.
Proof. vm_compute. repeat split; discriminate. Qed.

Theorem C16_fee_sum_dropped_refuted :
  exists g txs pa,
    let s0 := init_chain g in
    let hd := demo_hdr 1 (Some pa) in
    let s2 := srun s0 ([SBegin hd] ++ map SDeliver txs) in
    params_ok (gen_params g) /\ Forall tx_wf txs /\ bal_range (work s0) /\
    (deliver_all (begin_block s0 hd).1 txs).2 = [Ok maxInt64; Ok maxInt64; Ok maxInt64] /\
    b_proposer (bctx s2) = Some pa /\ two255 <= b_feesum (bctx s2) < two256 /\
    exists s3 ups, end_block s2 = (s3, Ok ups) /\ bal_of (work s3) pa = bal_of (work s2) pa.
Proof.
  exists big_genesis, [big_tx 0; big_tx 1; big_tx 2], 11%N. cbv zeta.
  split; [zclosed|]. split; [repeat apply Forall_cons_2; try apply Forall_nil_2; zclosed|].
  split; [apply bal_range_decide; vm_compute; reflexivity|].
  pose proof big_run as H. cbv zeta in H.
  pose proof (block_feesum (init_chain big_genesis) (demo_hdr 1 (Some 11%N)) [big_tx 0; big_tx 1; big_tx 2] eq_refl) as B.
  cbv zeta in B.
  destruct (deliver_all _ _) as [s2 rs]. destruct B as (-> & _).
  destruct (end_block _) as [s3 r]. destruct H as (-> & Hp & Hf & -> & Hb).
  split; [reflexivity|]. split; [exact Hp|]. split; [exact Hf|]. exists s3, []. split; [reflexivity|exact Hb].
Qed.

(* INTENDED (C16/C02 literally): "no balance ever wraps".  AddBalance is addition modulo 2^256: a
   transfer to an account whose balance + amount reaches 2^256 wraps.  Hence the explicit room
   hypotheses of [deliver_native_balances]; InvSupply discharges them from the supply bound. *)
Theorem transfer_wrap_refuted :
  exists s t s' g,
    deliver s t = (s', Ok g) /\ native s t /\ tx_wf t /\ bal_range (work s) /\ params_ok (gparams s) /\
    0 < t_amount t /\ bal_of (work s') (t_to t) < bal_of (work s) (t_to t).
Proof.
  set (g := {| gen_params := demo_params; gen_holders := [(1%N, 1000 * amountPerPower); (2%N, 2 ^ 256 - 1)];
               gen_validators := [(11%N, 100)] |}).
  exists (begin_block (init_chain g) (demo_hdr 1 (Some 11%N))).1.
  exists (demo_tx TRX_TRANSFER 1%N 2%N 1 4000 0 PNone 300%N).
  eexists (deliver _ _).1, 4000. split; [apply pair_snd_eq; vm_compute; reflexivity|].
  split; [vm_compute; reflexivity|].
  split; [zclosed|]. split; [apply bal_range_decide; vm_compute; reflexivity|]. split; [zclosed|].
  split; vm_compute; reflexivity.
Qed.

Print Assumptions deliver_ok_admission_literal_refuted.
Print Assumptions deliver_transfer_cost.
Print Assumptions end_block_proposer_credit.
Print Assumptions C16_fee_sum_dropped_refuted.
Print Assumptions transfer_wrap_refuted.
