(* Preimage.v — model of ctrlers/types/trx.go : Trx.EncodeRLP and PreImageToSignTrxRLP,
   and the injectivity facts behind property C03 ("only the key holder of the sender
   address can cause a transaction's effects"): the byte string that is signed
   determines the chain id and every execution-relevant field of the transaction.

   Go source modelled (rigo-go, /repo/ctrlers/types):
     trx.go          trxRPL, Trx.EncodeRLP, PreImageToSignTrxRLP
     trx_staking.go  TrxPayloadStaking (EncodeRLP writes nothing), TrxPayloadUnstaking
     trx_transfer.go TrxPayloadAssetTransfer (EncodeRLP writes nothing)
     trx_withdraw.go trx_contract.go trx_setdoc.go trx_voting.go trx_proposal.go *)
From Coq Require Import List NArith ZArith Lia Bool.
From Coq Require Import Strings.Byte.
From Coq Require Import ZifyN ZifyNat ZifyBool.
From Rigo Require Import Rlp.
Import ListNotations.
Local Open Scope N_scope.

#[local] Ltac Zify.zify_post_hook ::= Z.div_mod_to_equations.

(** * Go integer conversions *)

Definition int64_ok (z : Z) : Prop := (- 2 ^ 63 <= z < 2 ^ 63)%Z.
Definition int32_ok (z : Z) : Prop := (- 2 ^ 31 <= z < 2 ^ 31)%Z.

(* uint64(x) for x int64, and also uint64(x) for x int32 (sign extension, then the
   same bit pattern): the value modulo 2^64 *)
Definition u64_of_Z (z : Z) : N := Z.to_N (z mod 2 ^ 64).
(* uint32(x) for x int32 *)
Definition u32_of_Z (z : Z) : N := Z.to_N (z mod 2 ^ 32).

Arguments u64_of_Z : simpl never.
Arguments u32_of_Z : simpl never.

Lemma int32_int64 (z : Z) : int32_ok z -> int64_ok z.
Proof. unfold int32_ok, int64_ok. lia. Qed.

Lemma u64_of_Z_inj (a b : Z) : int64_ok a -> int64_ok b -> u64_of_Z a = u64_of_Z b -> a = b.
Proof. unfold int64_ok, u64_of_Z. intros Ha Hb H. lia. Qed.

Lemma u32_of_Z_inj (a b : Z) : int32_ok a -> int32_ok b -> u32_of_Z a = u32_of_Z b -> a = b.
Proof. unfold int32_ok, u32_of_Z. intros Ha Hb H. lia. Qed.

Lemma u64_of_Z_range (z : Z) : u64_of_Z z < 2 ^ 64.
Proof. unfold u64_of_Z. lia. Qed.

Lemma u32_of_Z_range (z : Z) : u32_of_Z z < 2 ^ 32.
Proof. unfold u32_of_Z. lia. Qed.

(** * Decoded transactions *)

(* ITrxPayload values.  [PNone] is the nil interface.  Strings (Go string) are their
   UTF-8 bytes. *)
Inductive payload : Type :=
| PNone
| PTransfer                                    (* &TrxPayloadAssetTransfer{} *)
| PStaking                                     (* &TrxPayloadStaking{} *)
| PUnstaking (txhash : list byte)
| PWithdraw (reqamt : N)                       (* *uint256.Int *)
| PContract (data : list byte)
| PSetDoc (name url : list byte)
| PVoting (txhash : list byte) (choice : Z)    (* int32 *)
| PProposal (message : list byte)
            (start_height period applying : Z) (* int64, all three *)
            (opttype : Z)                      (* int32 *)
            (options : list (list byte)).

Record trx : Type := MkTrx {
  t_version  : N;          (* uint32 *)
  t_time     : Z;          (* int64 *)
  t_nonce    : N;          (* uint64 *)
  t_from     : list byte;  (* types.Address = []byte, length NOT fixed by the encoder *)
  t_to       : list byte;
  t_amount   : N;          (* *uint256.Int *)
  t_gas      : N;          (* uint64 *)
  t_gasprice : N;          (* *uint256.Int *)
  t_type     : Z;          (* int32 *)
  t_payload  : payload
}.

Definition ustr (n : N) : item := Str (be_bytes n).

(* what rlp.EncodeToBytes(tx.Payload) produces; [None] = no bytes at all *)
Definition payload_item (p : payload) : option item :=
  match p with
  | PNone | PTransfer | PStaking => None
  | PUnstaking h => Some (Str h)
  | PWithdraw a => Some (ustr a)
  | PContract d => Some (Str d)
  | PSetDoc n u => Some (Lst [Str n; Str u])
  | PVoting h c => Some (Lst [Str h; ustr (u32_of_Z c)])
  | PProposal m s v a o opts =>
      Some (Lst [Str m; ustr (u64_of_Z s); ustr (u64_of_Z v); ustr (u64_of_Z a);
                 ustr (u32_of_Z o); Lst (map Str opts)])
  end.

Definition payload_bytes (p : payload) : list byte :=
  match payload_item p with None => [] | Some i => rlp_encode i end.

(* the eleven fields of trxRPL; Sig is nil while signing *)
Definition trx_fields (t : trx) : list item :=
  [ ustr (t_version t); ustr (u64_of_Z (t_time t)); ustr (t_nonce t);
    Str (t_from t); Str (t_to t); ustr (t_amount t); ustr (t_gas t);
    ustr (t_gasprice t); ustr (u64_of_Z (t_type t));
    Str (payload_bytes (t_payload t)); Str [] ].

Definition trx_item (t : trx) : item := Lst (trx_fields t).
Definition trx_rlp (t : trx) : list byte := rlp_encode (trx_item t).

(** * Well-formedness : the ranges of the Go types *)

Definition payload_wf (p : payload) : Prop :=
  match p with
  | PWithdraw a => a < 2 ^ 256
  | PVoting _ c => int32_ok c
  | PProposal _ s v a o _ => int64_ok s /\ int64_ok v /\ int64_ok a /\ int32_ok o
  | _ => True
  end.

(* The payload object is of the Go type that belongs to tx.Type.  The wire decoder
   (Trx.Decode -> fromProto, and also Trx.DecodeRLP) constructs the payload from
   tx.Type, so every transaction that reaches CheckTx/DeliverTx satisfies this;
   web3.NewTrx* set Type = payload.Type().  The empty-encoding payloads are allowed
   with any type: they put no bytes into the preimage.  See [payload_kind_needed]. *)
Definition payload_kind_ok (ty : Z) (p : payload) : Prop :=
  match p with
  | PNone | PTransfer | PStaking => True
  | PUnstaking _ => ty = 3%Z
  | PProposal _ _ _ _ _ _ => ty = 4%Z
  | PVoting _ _ => ty = 5%Z
  | PContract _ => ty = 6%Z
  | PSetDoc _ _ => ty = 7%Z
  | PWithdraw _ => ty = 8%Z
  end.

Record trx_wf (t : trx) : Prop := MkWf {
  wf_version  : t_version t < 2 ^ 32;
  wf_time     : int64_ok (t_time t);
  wf_nonce    : t_nonce t < 2 ^ 64;
  wf_amount   : t_amount t < 2 ^ 256;
  wf_gas      : t_gas t < 2 ^ 64;
  wf_gasprice : t_gasprice t < 2 ^ 256;
  wf_type     : int32_ok (t_type t);
  wf_payload  : payload_wf (t_payload t);
  wf_kind     : payload_kind_ok (t_type t) (t_payload t);
  (* the encoding fits a Go slice; this bounds every length in it *)
  wf_size     : N.of_nat (length (trx_rlp t)) < 2 ^ 64
}.

(** * The quotient : payload values that put identical bytes into the preimage

   nil, &TrxPayloadAssetTransfer{} and &TrxPayloadStaking{} all encode to zero bytes
   ([payload_quotient_needed] below), so the signature can not tell them apart.  No
   execution path reads anything from these objects (they have no fields; the
   executors only look at tx.Type), and the protobuf wire decoder always produces nil
   for TRX_TRANSFER and TRX_STAKING. *)

Definition payload_norm (p : payload) : payload :=
  match p with
  | PTransfer | PStaking => PNone
  | _ => p
  end.

Definition trx_norm (t : trx) : trx :=
  MkTrx (t_version t) (t_time t) (t_nonce t) (t_from t) (t_to t) (t_amount t)
        (t_gas t) (t_gasprice t) (t_type t) (payload_norm (t_payload t)).

Definition payload_canonical (p : payload) : Prop :=
  match p with PTransfer | PStaking => False | _ => True end.

Lemma payload_norm_canonical (p : payload) : payload_canonical p -> payload_norm p = p.
Proof. destruct p; cbn; tauto. Qed.

Lemma trx_norm_canonical (t : trx) : payload_canonical (t_payload t) -> trx_norm t = t.
Proof.
  intros H. destruct t as [v ti n f to a g gp ty p]. unfold trx_norm. cbn in *.
  rewrite payload_norm_canonical by exact H. reflexivity.
Qed.

Lemma payload_bytes_norm (p : payload) : payload_bytes (payload_norm p) = payload_bytes p.
Proof. destruct p; reflexivity. Qed.

Lemma trx_rlp_norm (t : trx) : trx_rlp (trx_norm t) = trx_rlp t.
Proof.
  unfold trx_rlp, trx_item, trx_fields.
  rewrite <- (payload_bytes_norm (t_payload t)). reflexivity.
Qed.

(** * Injectivity of the RLP body *)

Lemma map_Str_inj (a b : list (list byte)) : map Str a = map Str b -> a = b.
Proof. apply map_inj. intros x y H. injection H as H. exact H. Qed.

Lemma ustr_inj (a b : N) : ustr a = ustr b -> a = b.
Proof. unfold ustr. intros H. injection H as H. apply be_bytes_inj, H. Qed.

Lemma payload_item_inj (ty : Z) (p1 p2 : payload) :
  payload_wf p1 -> payload_wf p2 ->
  payload_kind_ok ty p1 -> payload_kind_ok ty p2 ->
  payload_item p1 = payload_item p2 -> payload_norm p1 = payload_norm p2.
Proof.
  intros W1 W2 K1 K2 E.
  destruct p1 as [ | | |h1|a1|d1|n1 u1|h1 c1|m1 s1 v1 a1 o1 op1];
    destruct p2 as [ | | |h2|a2|d2|n2 u2|h2 c2|m2 s2 v2 a2 o2 op2];
    cbn [payload_item payload_kind_ok payload_wf payload_norm] in *;
    try discriminate E; try lia; try reflexivity.
  (* left: the same constructor on both sides, with fields *)
  - injection E as ->. reflexivity.
  - injection E as Ha. apply be_bytes_inj in Ha. subst. reflexivity.
  - injection E as ->. reflexivity.
  - injection E as -> ->. reflexivity.
  - injection E as -> Hc.
    apply be_bytes_inj, u32_of_Z_inj in Hc; try assumption. subst. reflexivity.
  - injection E as -> Hs Hv Ha Ho Hop.
    destruct W1 as [Ws1 [Wv1 [Wa1 Wo1]]]. destruct W2 as [Ws2 [Wv2 [Wa2 Wo2]]].
    apply be_bytes_inj, u64_of_Z_inj in Hs, Hv, Ha; try assumption.
    apply be_bytes_inj, u32_of_Z_inj in Ho; try assumption.
    apply map_Str_inj in Hop. subst. reflexivity.
Qed.

Lemma payload_bytes_inj (ty : Z) (p1 p2 : payload) :
  payload_wf p1 -> payload_wf p2 ->
  payload_kind_ok ty p1 -> payload_kind_ok ty p2 ->
  N.of_nat (length (payload_bytes p1)) < two64N ->
  N.of_nat (length (payload_bytes p2)) < two64N ->
  payload_bytes p1 = payload_bytes p2 -> payload_norm p1 = payload_norm p2.
Proof.
  intros W1 W2 K1 K2 L1 L2 Heq. apply (payload_item_inj ty); try assumption.
  unfold payload_bytes in *.
  destruct (payload_item p1) as [i1|], (payload_item p2) as [i2|].
  - f_equal. apply rlp_encode_inj; assumption.
  - destruct (rlp_encode_nonempty _ Heq).
  - symmetry in Heq. destruct (rlp_encode_nonempty _ Heq).
  - reflexivity.
Qed.

Lemma trx_item_ok (t : trx) : N.of_nat (length (trx_rlp t)) < 2 ^ 64 -> item_ok (trx_item t).
Proof. unfold item_ok, trx_rlp. rewrite two64N_eq. tauto. Qed.

Lemma trx_payload_len (t : trx) :
  item_ok (trx_item t) -> N.of_nat (length (payload_bytes (t_payload t))) < two64N.
Proof.
  intros Hok. apply item_ok_Lst in Hok.
  apply item_ok_Str.
  apply (proj1 (Forall_forall _ _) Hok).
  unfold trx_fields. cbn [In]. tauto.
Qed.

(* Without any hypothesis on payload kinds: equal encodings have equal scalar fields
   and equal payload BYTES. *)
Theorem trx_rlp_inj_fields (t1 t2 : trx) :
  int64_ok (t_time t1) -> int64_ok (t_time t2) ->
  int32_ok (t_type t1) -> int32_ok (t_type t2) ->
  N.of_nat (length (trx_rlp t1)) < 2 ^ 64 ->
  N.of_nat (length (trx_rlp t2)) < 2 ^ 64 ->
  trx_rlp t1 = trx_rlp t2 ->
  t_version t1 = t_version t2 /\ t_time t1 = t_time t2 /\ t_nonce t1 = t_nonce t2 /\
  t_from t1 = t_from t2 /\ t_to t1 = t_to t2 /\ t_amount t1 = t_amount t2 /\
  t_gas t1 = t_gas t2 /\ t_gasprice t1 = t_gasprice t2 /\ t_type t1 = t_type t2 /\
  payload_bytes (t_payload t1) = payload_bytes (t_payload t2).
Proof.
  intros Ti1 Ti2 Ty1 Ty2 S1 S2 Heq.
  apply trx_item_ok in S1. apply trx_item_ok in S2.
  unfold trx_rlp in Heq. apply (rlp_encode_inj _ _ S1 S2) in Heq.
  unfold trx_item, trx_fields in Heq.
  injection Heq as Hv Hti Hn Hf Hto Ha Hg Hgp Hty Hp.
  apply be_bytes_inj in Hv, Hti, Hn, Ha, Hg, Hgp, Hty.
  apply u64_of_Z_inj in Hti; try assumption.
  apply u64_of_Z_inj in Hty; try (apply int32_int64; assumption).
  repeat split; assumption.
Qed.

Theorem trx_rlp_inj (t1 t2 : trx) :
  trx_wf t1 -> trx_wf t2 -> trx_rlp t1 = trx_rlp t2 -> trx_norm t1 = trx_norm t2.
Proof.
  intros W1 W2 Heq.
  destruct (trx_rlp_inj_fields t1 t2 (wf_time _ W1) (wf_time _ W2) (wf_type _ W1)
              (wf_type _ W2) (wf_size _ W1) (wf_size _ W2) Heq)
    as [Hv [Hti [Hn [Hf [Hto [Ha [Hg [Hgp [Hty Hp]]]]]]]]].
  pose proof (trx_payload_len _ (trx_item_ok _ (wf_size _ W1))) as L1.
  pose proof (trx_payload_len _ (trx_item_ok _ (wf_size _ W2))) as L2.
  pose proof (wf_kind _ W1) as K1. pose proof (wf_kind _ W2) as K2.
  rewrite Hty in K1.
  pose proof (payload_bytes_inj _ _ _ (wf_payload _ W1) (wf_payload _ W2) K1 K2 L1 L2 Hp) as Hpn.
  unfold trx_norm. rewrite Hv, Hti, Hn, Hf, Hto, Ha, Hg, Hgp, Hty, Hpn. reflexivity.
Qed.

(* For transactions as the wire decoder produces them (never a PTransfer / PStaking
   object) the quotient is the identity. *)
Corollary trx_rlp_inj_canonical (t1 t2 : trx) :
  trx_wf t1 -> trx_wf t2 ->
  payload_canonical (t_payload t1) -> payload_canonical (t_payload t2) ->
  trx_rlp t1 = trx_rlp t2 -> t1 = t2.
Proof.
  intros W1 W2 C1 C2 Heq.
  rewrite <- (trx_norm_canonical t1 C1), <- (trx_norm_canonical t2 C2).
  apply trx_rlp_inj; assumption.
Qed.

(** * Decimal *)

Fixpoint dec_le (fuel : nat) (n : N) : list byte :=
  match fuel with
  | O => []
  | S f => if n =? 0 then [] else n2b (48 + n mod 10) :: dec_le f (n / 10)
  end.

(* fmt "%d" of a non-negative int *)
Definition dec_of_N (n : N) : list byte :=
  if n =? 0 then [n2b 48] else rev (dec_le (N.to_nat (N.size n)) n).

Definition dec_of_nat (n : nat) : list byte := dec_of_N (N.of_nat n).

Definition is_digit (b : byte) : Prop := 48 <= b2n b <= 57.

Lemma dec_le_digits (fuel : nat) : forall n, Forall is_digit (dec_le fuel n).
Proof.
  induction fuel as [|f IH]; intros n; cbn [dec_le].
  - constructor.
  - destruct (n =? 0); constructor; [|apply IH].
    unfold is_digit. rewrite b2n_n2b by lia. lia.
Qed.

Lemma dec_of_N_digits (n : N) : Forall is_digit (dec_of_N n).
Proof.
  unfold dec_of_N. destruct (n =? 0).
  - constructor; [|constructor]. unfold is_digit. rewrite b2n_n2b by lia. lia.
  - apply Forall_rev, dec_le_digits.
Qed.

Definition dec_le_val : list byte -> N := digits_val 10 (fun x => b2n x - 48).
Definition dec_val (l : list byte) : N := dec_le_val (rev l).

Lemma dec_le_val_spec (fuel : nat) :
  forall n, n < 2 ^ N.of_nat fuel -> dec_le_val (dec_le fuel n) = n.
Proof.
  apply (digits_val_spec 10 (fun d => n2b (48 + d))); [lia| |reflexivity|reflexivity].
  intros d Hd. rewrite b2n_n2b by lia. lia.
Qed.

Lemma dec_val_dec_of_N (n : N) : dec_val (dec_of_N n) = n.
Proof.
  unfold dec_val, dec_of_N. destruct (N.eqb_spec n 0) as [Hz|Hz].
  - subst. reflexivity.
  - rewrite rev_involutive. apply dec_le_val_spec.
    rewrite N2Nat.id. apply N.size_gt.
Qed.

Lemma dec_of_N_inj (a b : N) : dec_of_N a = dec_of_N b -> a = b.
Proof. apply (cancel_inj dec_of_N dec_val dec_val_dec_of_N). Qed.

(** * The signing preimage *)

(* "\x19RIGO(" *)
Definition pre_head : list byte := bytesN [25; 82; 73; 71; 79; 40].
(* ")" and " Signed Message:\n" *)
Definition rparen : byte := n2b 41.
Definition pre_mid_tail : list byte :=
  bytesN [32; 83; 105; 103; 110; 101; 100; 32; 77; 101; 115; 115; 97; 103; 101; 58; 10].
Definition pre_mid : list byte := rparen :: pre_mid_tail.

Definition preimage (chain : list byte) (t : trx) : list byte :=
  let r := trx_rlp t in
  pre_head ++ chain ++ pre_mid ++ dec_of_nat (length r) ++ r.

Definition no_sub {A} (m c : list A) : Prop := forall a b, c <> a ++ m ++ b.

Lemma not_in_bytes (x : byte) (l : list byte) : existsb (Byte.eqb x) l = false -> ~ In x l.
Proof.
  intros H Hin. rewrite (proj2 (existsb_exists _ _)) in H; [discriminate H|].
  exists x. split; [exact Hin|apply byte_dec_lb; reflexivity].
Qed.

Lemma rparen_not_in_tail : ~ In rparen pre_mid_tail.
Proof. apply not_in_bytes. vm_compute. reflexivity. Qed.

Section Split.
  Context {A : Type}.
  Variable x : A.
  Variable m' : list A.
  Hypothesis Hx : ~ In x m'.

  (* the delimiter x :: m' has no border (no proper suffix is a prefix), so its first
     occurrence after a delimiter-free prefix is where the prefix ends *)
  Lemma split_aux (c l r1 r2 : list A) :
    no_sub (x :: m') (c ++ l) ->
    (x :: m') ++ r2 = l ++ (x :: m') ++ r1 -> l = [].
  Proof.
    intros Hns Heq. destruct l as [|y l']; [reflexivity|exfalso].
    cbn [app] in Heq. injection Heq as Hxy Heq. subst y.
    apply app_eq_app in Heq. destruct Heq as [k [[Hm Hk]|[Hl Hk]]].
    - destruct k as [|z k'].
      + rewrite app_nil_r in Hm. subst l'.
        apply (Hns c []). rewrite app_nil_r. reflexivity.
      + cbn [app] in Hk. injection Hk as Hz _. subst z.
        apply Hx. rewrite Hm. apply in_or_app. right. left. reflexivity.
    - subst l'. apply (Hns c k). reflexivity.
  Qed.

  Lemma split_unique (c1 c2 r1 r2 : list A) :
    no_sub (x :: m') c1 -> no_sub (x :: m') c2 ->
    c1 ++ (x :: m') ++ r1 = c2 ++ (x :: m') ++ r2 -> c1 = c2 /\ r1 = r2.
  Proof.
    intros H1 H2 Heq.
    apply app_eq_app in Heq. destruct Heq as [l [[Hc Hr]|[Hc Hr]]].
    - subst c1. pose proof (split_aux c2 l r1 r2 H1 Hr) as Hl. subst l.
      rewrite app_nil_r. cbn [app] in Hr. injection Hr as Hr.
      apply app_inv_head in Hr. split; [reflexivity|symmetry; exact Hr].
    - subst c2. pose proof (split_aux c1 l r2 r1 H2 Hr) as Hl. subst l.
      rewrite app_nil_r. cbn [app] in Hr. injection Hr as Hr.
      apply app_inv_head in Hr. split; [reflexivity|exact Hr].
  Qed.
End Split.

Lemma no_byte_no_sub (y : byte) (c : list byte) :
  In y pre_mid -> ~ In y c -> no_sub pre_mid c.
Proof.
  intros Hy Hc a b Heq. apply Hc. rewrite Heq.
  apply in_or_app. right. apply in_or_app. left. exact Hy.
Qed.

Lemma no_rparen_no_sub (c : list byte) : ~ In rparen c -> no_sub pre_mid c.
Proof. apply no_byte_no_sub. left. reflexivity. Qed.

Lemma no_newline_no_sub (c : list byte) : ~ In (n2b 10) c -> no_sub pre_mid c.
Proof.
  apply no_byte_no_sub. unfold pre_mid, pre_mid_tail, bytesN. cbn [map In]. tauto.
Qed.

Lemma digits_split (d1 d2 r1 r2 : list byte) :
  Forall is_digit d1 -> Forall is_digit d2 ->
  57 < first r1 -> 57 < first r2 ->
  d1 ++ r1 = d2 ++ r2 -> d1 = d2 /\ r1 = r2.
Proof.
  unfold is_digit. intros D1. revert d2.
  induction D1 as [|x d1 Hx D1 IH]; intros [|y d2] D2 R1 R2 Heq; cbn [app] in Heq.
  - split; [reflexivity|exact Heq].
  - apply Forall_inv in D2. subst r1. cbn [first] in R1. lia.
  - subst r2. cbn [first] in R2. lia.
  - injection Heq as <- Heq.
    destruct (IH d2 (Forall_inv_tail D2) R1 R2 Heq) as [-> ->]. split; reflexivity.
Qed.

Lemma trx_rlp_first (t : trx) : item_ok (trx_item t) -> 57 < first (trx_rlp t).
Proof. intros Hok. pose proof (first_Lst _ Hok). unfold trx_rlp, trx_item. lia. Qed.

(* Main theorem.  Hypothesis on the chain ids: neither contains the 18-byte text
   ") Signed Message:\n".  [preimage_ambiguous] shows that some such hypothesis is
   necessary. *)
Theorem preimage_inj (c1 c2 : list byte) (t1 t2 : trx) :
  no_sub pre_mid c1 -> no_sub pre_mid c2 ->
  trx_wf t1 -> trx_wf t2 ->
  preimage c1 t1 = preimage c2 t2 ->
  c1 = c2 /\ trx_norm t1 = trx_norm t2.
Proof.
  intros N1 N2 W1 W2 Heq. unfold preimage in Heq.
  apply app_inv_head in Heq.
  destruct (split_unique rparen pre_mid_tail rparen_not_in_tail c1 c2 _ _ N1 N2 Heq)
    as [Hc Hrest].
  split; [exact Hc|].
  pose proof (trx_item_ok _ (wf_size _ W1)) as Ok1.
  pose proof (trx_item_ok _ (wf_size _ W2)) as Ok2.
  destruct (digits_split _ _ _ _ (dec_of_N_digits _) (dec_of_N_digits _)
              (trx_rlp_first _ Ok1) (trx_rlp_first _ Ok2) Hrest) as [_ Hr].
  apply trx_rlp_inj; assumption.
Qed.

Corollary preimage_inj_no_rparen (c1 c2 : list byte) (t1 t2 : trx) :
  ~ In rparen c1 -> ~ In rparen c2 ->
  trx_wf t1 -> trx_wf t2 ->
  preimage c1 t1 = preimage c2 t2 ->
  c1 = c2 /\ trx_norm t1 = trx_norm t2.
Proof. intros N1 N2. apply preimage_inj; apply no_rparen_no_sub; assumption. Qed.

(* chain ids without a newline (every printable chain id) *)
Corollary preimage_inj_no_newline (c1 c2 : list byte) (t1 t2 : trx) :
  ~ In (n2b 10) c1 -> ~ In (n2b 10) c2 ->
  trx_wf t1 -> trx_wf t2 ->
  preimage c1 t1 = preimage c2 t2 ->
  c1 = c2 /\ trx_norm t1 = trx_norm t2.
Proof. intros N1 N2. apply preimage_inj; apply no_newline_no_sub; assumption. Qed.

Corollary preimage_inj_canonical (c1 c2 : list byte) (t1 t2 : trx) :
  no_sub pre_mid c1 -> no_sub pre_mid c2 ->
  trx_wf t1 -> trx_wf t2 ->
  payload_canonical (t_payload t1) -> payload_canonical (t_payload t2) ->
  preimage c1 t1 = preimage c2 t2 ->
  c1 = c2 /\ t1 = t2.
Proof.
  intros N1 N2 W1 W2 C1 C2 Heq.
  destruct (preimage_inj c1 c2 t1 t2 N1 N2 W1 W2 Heq) as [Hc Ht].
  rewrite (trx_norm_canonical t1 C1), (trx_norm_canonical t2 C2) in Ht.
  split; assumption.
Qed.

(** * Executable entry points for the Go-generated test vectors *)

Definition preimage_N (chain : list N) (t : trx) : list N :=
  Nbytes (preimage (bytesN chain) t).

Fixpoint list_N_eqb (a b : list N) : bool :=
  match a, b with
  | [], [] => true
  | x :: a', y :: b' => (x =? y) && list_N_eqb a' b'
  | _, _ => false
  end.

Lemma list_N_eqb_eq (a b : list N) : list_N_eqb a b = true <-> a = b.
Proof.
  revert b. induction a as [|x a IH]; intros [|y b]; cbn [list_N_eqb];
    try (split; [discriminate|discriminate]).
  - split; reflexivity.
  - rewrite andb_true_iff, N.eqb_eq, IH. split.
    + intros [-> ->]. reflexivity.
    + intros H. injection H as -> ->. split; reflexivity.
Qed.

Fixpoint check_from (i : nat) (vs : list (list N * trx * list N)) : list nat :=
  match vs with
  | [] => []
  | (c, t, e) :: r =>
      if list_N_eqb (preimage_N c t) e then check_from (S i) r
      else i :: check_from (S i) r
  end.

(* indices (from 0) of the vectors whose expected bytes differ from the model *)
Definition check_vectors (vs : list (list N * trx * list N)) : list nat := check_from 0 vs.

Lemma check_from_nil (vs : list (list N * trx * list N)) (i : nat) :
  check_from i vs = [] -> Forall (fun v => preimage_N (fst (fst v)) (snd (fst v)) = snd v) vs.
Proof.
  revert i. induction vs as [|[[c t] e] r IH]; intros i H.
  - constructor.
  - cbn [check_from] in H. destruct (list_N_eqb (preimage_N c t) e) eqn:E; [|discriminate H].
    constructor; [apply list_N_eqb_eq, E | apply (IH _ H)].
Qed.

Lemma check_vectors_nil (vs : list (list N * trx * list N)) :
  check_vectors vs = [] -> Forall (fun v => preimage_N (fst (fst v)) (snd (fst v)) = snd v) vs.
Proof. apply check_from_nil. Qed.

(** * Examples *)

Definition addr_a : list byte := bytesN [1;2;3;4;5;6;7;8;9;10;11;12;13;14;15;16;17;18;19;20].
Definition addr_b : list byte := bytesN [255;254;253;252;251;250;249;248;247;246;245;244;243;242;241;240;239;238;237;236].

(* a proposal with a negative time stamp and a negative option type *)
Definition ex_proposal : trx :=
  MkTrx 1 (-1695600000000000000)%Z (2 ^ 64 - 1) addr_a addr_b (2 ^ 255) 1000000
        (2 ^ 256 - 1) 4%Z
        (PProposal (bytesN [104;105]) 10%Z 259200%Z 518410%Z (-1)%Z
                   [bytesN [123;125]; []; repeat (n2b 7) 300]).

Definition ex_transfer : trx :=
  MkTrx 1 1695600000000000000%Z 7 addr_a addr_b 1000000000000000000 21000 250000000000 1%Z PNone.

Definition ex_transfer_obj : trx :=
  MkTrx 1 1695600000000000000%Z 7 addr_a addr_b 1000000000000000000 21000 250000000000 1%Z PTransfer.

Ltac solve_wf :=
  constructor;
  [ vm_compute; reflexivity
  | unfold int64_ok; cbn [t_time]; lia
  | vm_compute; reflexivity
  | vm_compute; reflexivity
  | vm_compute; reflexivity
  | vm_compute; reflexivity
  | unfold int32_ok; cbn [t_type]; lia
  | cbn [t_payload payload_wf]; unfold int64_ok, int32_ok; try lia; try (vm_compute; reflexivity); exact I
  | cbn [t_payload t_type payload_kind_ok]; try reflexivity; exact I
  | vm_compute; reflexivity ].

Example ex_proposal_wf : trx_wf ex_proposal.
Proof. unfold ex_proposal. solve_wf. Qed.

Example ex_transfer_wf : trx_wf ex_transfer.
Proof. unfold ex_transfer. solve_wf. Qed.

Example ex_transfer_obj_wf : trx_wf ex_transfer_obj.
Proof. unfold ex_transfer_obj. solve_wf. Qed.

Definition chain_localnet : list byte := bytesN [108;111;99;97;108;110;101;116]. (* "localnet" *)

Example chain_localnet_ok : ~ In rparen chain_localnet /\ no_sub pre_mid chain_localnet.
Proof.
  assert (H : ~ In rparen chain_localnet) by (apply not_in_bytes; vm_compute; reflexivity).
  split; [exact H|apply no_rparen_no_sub, H].
Qed.

(* the preimage of ex_transfer under "localnet", first 30 bytes:
   \x19 R I G O ( l o c a l n e t ) ' ' S i g n e d ' ' M e s s a g *)
Example ex_preimage_prefix :
  firstn 30 (preimage_N [108;111;99;97;108;110;101;116] ex_transfer)
  = [25;82;73;71;79;40;108;111;99;97;108;110;101;116;41;32;83;105;103;110;101;100;32;77;101;115;115;97;103;101].
Proof. vm_compute. reflexivity. Qed.

Example dec_examples :
  Nbytes (dec_of_N 0) = [48] /\ Nbytes (dec_of_N 7) = [55] /\
  Nbytes (dec_of_N 1024) = [49;48;50;52] /\ Nbytes (dec_of_nat 90) = [57;48].
Proof. vm_compute. repeat split; reflexivity. Qed.

(* the theorems apply to the examples *)
Example ex_inj_applies (c : list byte) (t : trx) :
  no_sub pre_mid c -> trx_wf t ->
  preimage chain_localnet ex_proposal = preimage c t ->
  chain_localnet = c /\ trx_norm ex_proposal = trx_norm t.
Proof.
  intros Hc Hw. apply preimage_inj; try assumption.
  - apply chain_localnet_ok.
  - apply ex_proposal_wf.
Qed.

(* The quotient is needed: nil payload and &TrxPayloadAssetTransfer{} sign identically. *)
Example payload_quotient_needed :
  ex_transfer <> ex_transfer_obj /\ trx_wf ex_transfer /\ trx_wf ex_transfer_obj /\
  trx_rlp ex_transfer = trx_rlp ex_transfer_obj /\
  trx_norm ex_transfer = trx_norm ex_transfer_obj.
Proof.
  split; [intros H; discriminate H|].
  split; [apply ex_transfer_wf|]. split; [apply ex_transfer_obj_wf|].
  split; reflexivity.
Qed.

(* [wf_kind] is needed: with tx.Type = TRX_SETDOC, a TrxPayloadSetDoc{"a","b"} and a
   TrxPayloadVoting{TxHash:"a", Choice:'b'} have the same bytes.  (Reachable only by
   building a Trx in process with a payload object that contradicts Type; both wire
   decoders derive the payload type from Type.) *)
Definition ex_setdoc : trx :=
  MkTrx 1 5%Z 0 addr_a addr_b 0 100000 1 7%Z (PSetDoc (bytesN [97]) (bytesN [98])).
Definition ex_setdoc_as_voting : trx :=
  MkTrx 1 5%Z 0 addr_a addr_b 0 100000 1 7%Z (PVoting (bytesN [97]) 98%Z).

Example payload_kind_needed :
  trx_norm ex_setdoc <> trx_norm ex_setdoc_as_voting /\
  trx_rlp ex_setdoc = trx_rlp ex_setdoc_as_voting /\
  trx_wf ex_setdoc /\
  payload_wf (t_payload ex_setdoc_as_voting) /\
  ~ payload_kind_ok (t_type ex_setdoc_as_voting) (t_payload ex_setdoc_as_voting).
Proof.
  split; [intros H; discriminate H|].
  split; [vm_compute; reflexivity|].
  split; [unfold ex_setdoc; solve_wf|].
  split; [cbn; unfold int32_ok; lia|].
  cbn. discriminate.
Qed.

(** * Ambiguity when the chain id may contain ") Signed Message:\n"

   t_b is an ordinary transfer.  t_a is a contract call whose Data is
     ") Signed Message:\n" ++ decimal(len(rlp t_b)) ++ (rlp t_b without its last byte)
   (the last byte of every trx_rlp is the 0x80 of the empty Sig, which t_a's own
   Sig field supplies).  Signing t_a for chain "x" signs exactly the bytes of t_b
   for the chain id  "x) Signed Message:\n<len(rlp t_a)><first bytes of rlp t_a>".
   Both transactions are well formed, with 20-byte addresses. *)

Definition amb_tb : trx := ex_transfer.
Definition amb_data : list byte :=
  pre_mid ++ dec_of_nat (length (trx_rlp amb_tb)) ++ removelast (trx_rlp amb_tb).
Definition amb_ta : trx :=
  MkTrx 1 1695600000000000000%Z 8 addr_b addr_a 0 1000000 250000000000 6%Z (PContract amb_data).
Definition amb_c1 : list byte := bytesN [120].
Definition amb_x : list byte :=
  firstn (length (trx_rlp amb_ta) - S (length amb_data)) (trx_rlp amb_ta).
Definition amb_c2 : list byte :=
  amb_c1 ++ pre_mid ++ dec_of_nat (length (trx_rlp amb_ta)) ++ amb_x.

Example amb_wf : trx_wf amb_ta /\ trx_wf amb_tb.
Proof. split; [unfold amb_ta; solve_wf | apply ex_transfer_wf]. Qed.

Lemma amb_eq : preimage_N (Nbytes amb_c1) amb_ta = preimage_N (Nbytes amb_c2) amb_tb.
Proof. vm_compute. reflexivity. Qed.

Lemma bytesN_Nbytes (l : list byte) : bytesN (Nbytes l) = l.
Proof.
  unfold bytesN, Nbytes. induction l as [|x l IH]; cbn [map]; [reflexivity|].
  rewrite n2b_b2n, IH. reflexivity.
Qed.

Theorem preimage_ambiguous :
  exists c1 c2 t1 t2,
    (c1 <> c2 \/ t1 <> t2) /\ trx_wf t1 /\ trx_wf t2 /\
    payload_canonical (t_payload t1) /\ payload_canonical (t_payload t2) /\
    preimage c1 t1 = preimage c2 t2.
Proof.
  exists amb_c1, amb_c2, amb_ta, amb_tb.
  split; [right; intros H; discriminate H|].
  split; [apply amb_wf|]. split; [apply amb_wf|].
  split; [exact I|]. split; [exact I|].
  pose proof amb_eq as H. unfold preimage_N in H. rewrite !bytesN_Nbytes in H.
  apply Nbytes_inj, H.
Qed.

Example amb_all_differ : amb_c1 <> amb_c2 /\ trx_norm amb_ta <> trx_norm amb_tb /\ length amb_c2 = 93%nat.
Proof.
  split; [intros H; apply (f_equal (@length byte)) in H; vm_compute in H; discriminate H|].
  split; [intros H; discriminate H|].
  vm_compute. reflexivity.
Qed.

Print Assumptions trx_rlp_inj_fields.
Print Assumptions trx_rlp_inj.
Print Assumptions trx_rlp_inj_canonical.
Print Assumptions preimage_inj.
Print Assumptions preimage_inj_no_rparen.
Print Assumptions preimage_inj_no_newline.
Print Assumptions preimage_inj_canonical.
Print Assumptions preimage_ambiguous.
Print Assumptions payload_quotient_needed.
Print Assumptions payload_kind_needed.
Print Assumptions check_vectors_nil.
