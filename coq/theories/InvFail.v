(* InvFail.v — property C05: a failed DeliverTx has no effect.
   Main results:
     deliver_eq                    deliver written with named pieces (pre, validated, finish, ...)
     deliver_cases, finish_cases   its outcomes as a case analysis (delivery, rejected, finished, stopped)
     deliver_ok_validated          success implies both common validations passed (+ corollaries
                                   deliver_ok_sigok / _price / _nonce / _funds / _addrs / _sender)
     deliver_not_ok_no_effect      any answer but Ok → same_obs ∧ same_ctl; the withdrawal hypothesis in its
                                   weakest form (withdraw_fits)
     deliver_fail_no_effect        Err  → same_obs ∧ same_ctl, under five named hypotheses
     deliver_fail_no_effect_wf     the same from tx_wf, payload_wf, params_ok, ranges_ok, reward_headroom
     deliver_panic_no_effect       Panic → same_obs ∧ same_ctl, no hypotheses
     deliver_fail_no_effect_refuted_{price,headroom,balance,amount,gas}
                                   each hypothesis dropped in turn: concrete counterexamples
   The structure of the argument: every validation precedes every write; once validation has
   passed, exeStaking / exeUnstaking cannot fail (so the limiter change made by CheckLimit is
   never followed by an error) and the fee debit of postRunTrx cannot fail (balance ≥ fee +
   amount was checked and the arithmetic does not wrap under the hypotheses). *)
From Rigo Require Import Base.
From stdpp Require Import gmap sorting.
From Rigo Require Import Spec SpecProps SpecFacts.
Local Open Scope Z_scope.

(* ------------------------------------------------------------------ arithmetic *)

Lemma fee_bound p g : 0 ≤ p < 2 ^ 192 → 0 ≤ g ≤ maxInt64 → 0 ≤ p * g < two255.
Proof.
  intros Hp Hg. split; [apply Z.mul_nonneg_nonneg; lia|].
  assert (H1 : p * g ≤ (2 ^ 192 - 1) * maxInt64) by (apply Z.mul_le_mono_nonneg; lia).
  assert (H2 : (2 ^ 192 - 1) * maxInt64 < two255) by reflexivity.
  lia.
Qed.

Local Opaque two256 two255 two64 two63.

(* ------------------------------------------------------------------ deliver, piece by piece *)
Definition bump (s : state) : state :=
  with_bctx s {| b_height := b_height (bctx s); b_proposer := b_proposer (bctx s);
                 b_feesum := b_feesum (bctx s); b_txs := b_txs (bctx s) + 1 |}.

(* the state validation and execution start from: tx counter bumped, receiver account present *)
Definition pre (s : state) (t : tx) : state := with_work (bump s) (find_or_new (work s) (t_to t)).1.
Definition receiver_of (s : state) (t : tx) : account := (find_or_new (work s) (t_to t)).2.

Definition evm_path (s : state) (t : tx) : bool :=
  (t_type t =? TRX_CONTRACT) || ((t_type t =? TRX_TRANSFER) && a_code (receiver_of s t)).

Definition validated (s1 : state) (receiver : account) (t : tx) : res limiter :=
  let ty := t_type t in
  if (ty =? TRX_PROPOSAL) || (ty =? TRX_VOTING) then
    match gov_validate s1 t with Some e => Err e | None => Ok (lim s1) end
  else if (ty =? TRX_TRANSFER) || (ty =? TRX_SETDOC) then
    match acct_validate t with Some e => Err e | None => Ok (lim s1) end
  else if (ty =? TRX_STAKING) || (ty =? TRX_UNSTAKING) || (ty =? TRX_WITHDRAW) then stake_validate s1 t
  else if ty =? TRX_CONTRACT then
    match evm_validate receiver t with Some e => Err e | None => Ok (lim s1) end
  else Err E_TYPE.

Definition exec_native (s2 : state) (t : tx) : res ledgers :=
  let ty := t_type t in
  if (ty =? TRX_PROPOSAL) || (ty =? TRX_VOTING) then gov_execute s2 (work s2) t
  else if (ty =? TRX_TRANSFER) || (ty =? TRX_SETDOC) then acct_execute (work s2) t
  else stake_execute s2 (work s2) t.

Definition add_fee (s2 : state) (l : ledgers) (gas price : Z) : state :=
  with_bctx (with_work s2 l) {| b_height := b_height (bctx s2); b_proposer := b_proposer (bctx s2);
     b_feesum := add256 (b_feesum (bctx s2)) (mul256 gas price); b_txs := b_txs (bctx s2) |}.

(* postRunTrx *)
Definition post_native (price : Z) (s2 : state) (t : tx) (l' : ledgers) : state * res Z :=
  match accts l' !! t_from t with
  | None => (s2, Err E_NOACCT)
  | Some snd' =>
      match sub_balance snd' (fee_of t) with
      | None => (with_work s2 l', Err E_FUND)
      | Some snd'' => (add_fee s2 (set_acct l' (t_from t) (add_nonce snd'')) (t_gas t) price, Ok (t_gas t))
      end
  end.

Definition finish (price : Z) (s2 : state) (t : tx) (evm : bool) : state * res Z :=
  if evm then
    match evm_execute (work s2) t with
    | Ok (l', gas) => (add_fee s2 l' gas price, Ok gas)
    | Err e => (s2, Err e)
    | Panic p => (s2, Panic p)
    end
  else
    match exec_native s2 t with
    | Err e => (s2, Err e)
    | Panic p => (s2, Panic p)
    | Ok l' => post_native price s2 t l'
    end.

Lemma deliver_eq s t :
  deliver s t =
  match accts (work s) !! t_from t with
  | None => (s, Err E_NOACCT)
  | Some sender =>
      let s1 := pre s t in
      match common_validation0 (gparams s) t with Some e => (s1, Err e) | None =>
      match common_validation1 sender t with Some e => (s1, Err e) | None =>
      match validated s1 (receiver_of s t) t with
      | Err e => (s1, Err e)
      | Panic p => (s1, Panic p)
      | Ok lim' => finish (g_gasPrice (gparams s)) (with_lim s1 lim') t (evm_path s t)
      end end end
  end.
Proof.
  unfold deliver, evm_path, pre, receiver_of, bump.
  destruct (accts (work s) !! t_from t) as [sender|]; [|reflexivity].
  cbn [work with_bctx].
  destruct (find_or_new (work s) (t_to t)) as [l0 receiver].
  cbn [fst snd].
  reflexivity.
Qed.

(* ------------------------------------------------------------------ deliver, outcome by outcome *)
Lemma evm_execute_no_panic l t p : evm_execute l t ≠ Panic p.
Proof.
  unfold evm_execute. destruct (t_evm t) as [e|]; [|discriminate].
  destruct (negb (e_ok e)); discriminate.
Qed.

(* validation refused the transaction: the state is [pre s t] *)
Inductive rejected (s : state) (t : tx) (sender : account) : res Z → Prop :=
| rej_common0 e :
    common_validation0 (gparams s) t = Some e → rejected s t sender (Err e)
| rej_common1 e :
    common_validation0 (gparams s) t = None → common_validation1 sender t = Some e →
    rejected s t sender (Err e)
| rej_err e :
    common_validation0 (gparams s) t = None → common_validation1 sender t = None →
    validated (pre s t) (receiver_of s t) t = Err e → rejected s t sender (Err e)
| rej_panic p :
    common_validation0 (gparams s) t = None → common_validation1 sender t = None →
    validated (pre s t) (receiver_of s t) t = Panic p → rejected s t sender (Panic p).

(* execution gave up before postRunTrx wrote anything: the state is still [s2] *)
Inductive stopped (s2 : state) (t : tx) (evm : bool) : res Z → Prop :=
| stop_evm e :
    evm = true → evm_execute (work s2) t = Err e → stopped s2 t evm (Err e)
| stop_err e :
    evm = false → exec_native s2 t = Err e → stopped s2 t evm (Err e)
| stop_panic p :
    evm = false → exec_native s2 t = Panic p → stopped s2 t evm (Panic p)
| stop_nosender l' :
    evm = false → exec_native s2 t = Ok l' → accts l' !! t_from t = None → stopped s2 t evm (Err E_NOACCT).

Inductive finished (price : Z) (s2 : state) (t : tx) (evm : bool) : state → res Z → Prop :=
| fin_stopped r :
    stopped s2 t evm r → finished price s2 t evm s2 r
| fin_evm l' gas :
    evm = true → evm_execute (work s2) t = Ok (l', gas) →
    finished price s2 t evm (add_fee s2 l' gas price) (Ok gas)
| fin_unpaid l' snd' :
    evm = false → exec_native s2 t = Ok l' → accts l' !! t_from t = Some snd' →
    sub_balance snd' (fee_of t) = None →
    finished price s2 t evm (with_work s2 l') (Err E_FUND)
| fin_native l' snd' snd'' :
    evm = false → exec_native s2 t = Ok l' → accts l' !! t_from t = Some snd' →
    sub_balance snd' (fee_of t) = Some snd'' →
    finished price s2 t evm (add_fee s2 (set_acct l' (t_from t) (add_nonce snd'')) (t_gas t) price) (Ok (t_gas t)).

Inductive delivery (s : state) (t : tx) : state → res Z → Prop :=
| dlv_nosender :
    accts (work s) !! t_from t = None → delivery s t s (Err E_NOACCT)
| dlv_rejected sender r :
    accts (work s) !! t_from t = Some sender → rejected s t sender r → delivery s t (pre s t) r
| dlv_validated sender lim' s' r :
    accts (work s) !! t_from t = Some sender →
    common_validation0 (gparams s) t = None → common_validation1 sender t = None →
    validated (pre s t) (receiver_of s t) t = Ok lim' →
    finished (g_gasPrice (gparams s)) (with_lim (pre s t) lim') t (evm_path s t) s' r →
    delivery s t s' r.

Lemma rejected_not_ok s t sender g : ¬ rejected s t sender (Ok g).
Proof. inversion 1. Qed.

Lemma stopped_not_ok s2 t evm g : ¬ stopped s2 t evm (Ok g).
Proof. inversion 1. Qed.

Lemma finish_cases price s2 t evm s' r :
  finish price s2 t evm = (s', r) → finished price s2 t evm s' r.
Proof.
  unfold finish, post_native. intros H. destruct evm.
  - destruct (evm_execute (work s2) t) as [[l' gas]|e|p] eqn:Hx; injection H as <- <-.
    + apply fin_evm; [reflexivity|exact Hx].
    + apply fin_stopped, stop_evm; [reflexivity|exact Hx].
    + destruct (evm_execute_no_panic _ _ _ Hx).
  - destruct (exec_native s2 t) as [l'|e|p] eqn:Hx.
    2:{ injection H as <- <-. apply fin_stopped, stop_err; [reflexivity|exact Hx]. }
    2:{ injection H as <- <-. apply fin_stopped, stop_panic; [reflexivity|exact Hx]. }
    destruct (accts l' !! t_from t) as [snd'|] eqn:Hl.
    2:{ injection H as <- <-. eapply fin_stopped, stop_nosender; [reflexivity|exact Hx|exact Hl]. }
    destruct (sub_balance snd' (fee_of t)) as [snd''|] eqn:Hsb; injection H as <- <-.
    + eapply fin_native; [reflexivity|exact Hx|exact Hl|exact Hsb].
    + eapply fin_unpaid; [reflexivity|exact Hx|exact Hl|exact Hsb].
Qed.

Lemma deliver_cases s t s' r : deliver s t = (s', r) → delivery s t s' r.
Proof.
  rewrite deliver_eq. intros H.
  destruct (accts (work s) !! t_from t) as [sender|] eqn:Hs.
  2:{ injection H as <- <-. apply dlv_nosender. exact Hs. }
  cbv zeta in H.
  destruct (common_validation0 (gparams s) t) as [e|] eqn:Hv0.
  { injection H as <- <-. eapply dlv_rejected, rej_common0; eassumption. }
  destruct (common_validation1 sender t) as [e|] eqn:Hv1.
  { injection H as <- <-. eapply dlv_rejected, rej_common1; eassumption. }
  destruct (validated (pre s t) (receiver_of s t) t) as [lim'|e|p] eqn:Hv.
  - apply finish_cases in H. eapply dlv_validated; eassumption.
  - injection H as <- <-. eapply dlv_rejected, rej_err; eassumption.
  - injection H as <- <-. eapply dlv_rejected, rej_panic; eassumption.
Qed.

Lemma finished_ok price s2 t evm s' g :
  finished price s2 t evm s' (Ok g) →
  (evm = true ∧ ∃ l', evm_execute (work s2) t = Ok (l', g) ∧ s' = add_fee s2 l' g price) ∨
  (evm = false ∧ g = t_gas t ∧ ∃ l' snd' snd'',
     exec_native s2 t = Ok l' ∧ accts l' !! t_from t = Some snd' ∧ sub_balance snd' (fee_of t) = Some snd'' ∧
     s' = add_fee s2 (set_acct l' (t_from t) (add_nonce snd'')) (t_gas t) price).
Proof.
  inversion 1 as [? Hst|l' ? Hp Hx| |l' snd' snd'' Hp Hx Hl Hsb]; subst.
  - destruct (stopped_not_ok _ _ _ _ Hst).
  - left. split; [reflexivity|]. exists l'. split; [exact Hx|reflexivity].
  - right. split; [reflexivity|]. split; [reflexivity|]. exists l', snd', snd''. repeat split; assumption.
Qed.

Lemma deliver_ok_cases s t s' g :
  deliver s t = (s', Ok g) →
  ∃ sender lim', accts (work s) !! t_from t = Some sender ∧
    common_validation0 (gparams s) t = None ∧ common_validation1 sender t = None ∧
    validated (pre s t) (receiver_of s t) t = Ok lim' ∧
    finished (g_gasPrice (gparams s)) (with_lim (pre s t) lim') t (evm_path s t) s' (Ok g).
Proof.
  intros H. apply deliver_cases in H.
  inversion H as [|? ? _ Hr|sender lim' ? ? Hs Hv0 Hv1 Hv Hf]; subst.
  - destruct (rejected_not_ok _ _ _ _ Hr).
  - exists sender, lim'. repeat split; assumption.
Qed.

(* whatever the outcome, a delivery rewrites only the working ledgers, the limiter, the fee sum
   and the transaction counter; every projection of the other fields follows by computation *)
Lemma deliver_control s t s' r :
  deliver s t = (s', r) →
  ∃ l x fee n, s' = with_bctx (with_lim (with_work s l) x)
    {| b_height := b_height (bctx s); b_proposer := b_proposer (bctx s); b_feesum := fee; b_txs := n |}.
Proof.
  intros H. apply deliver_cases in H.
  destruct H as [_|? ? _ _|? lim' ? ? _ _ _ _ [? _|l' gas _ _|l' ? _ _ _ _|l' ? ? _ _ _ _]].
  - exists (work s), (lim s), (b_feesum (bctx s)), (b_txs (bctx s)).
    destruct s as [? ? ? ? ? ? ? [? ? ? ?] ?]. reflexivity.
  - do 4 eexists. reflexivity.
  - do 4 eexists. reflexivity.
  - do 4 eexists. reflexivity.
  - do 4 eexists. reflexivity.
  - do 4 eexists. reflexivity.
Qed.

Lemma deliver_preserves (P : ledgers → Prop) :
  (∀ l a x, P l → P (set_acct l a x)) →
  (∀ s l t l', P l → gov_execute s l t = Ok l' → P l') →
  (∀ l t l', P l → acct_execute l t = Ok l' → P l') →
  (∀ s l t l', P l → stake_execute s l t = Ok l' → P l') →
  (∀ l t l' g, P l → evm_execute l t = Ok (l', g) → P l') →
  ∀ s t, P (work s) → P (work (deliver s t).1).
Proof.
  intros Hset Hgov Hacct Hstake Hevm s t HP.
  assert (HP1 : P (work (pre s t))).
  { unfold pre, find_or_new. cbn. destruct (accts (work s) !! t_to t); [exact HP|apply Hset, HP]. }
  assert (Hexec : ∀ x l', exec_native (with_lim (pre s t) x) t = Ok l' → P l').
  { unfold exec_native. intros x l' Hx.
    destruct ((t_type t =? TRX_PROPOSAL) || (t_type t =? TRX_VOTING)); [eapply Hgov; eassumption|].
    destruct ((t_type t =? TRX_TRANSFER) || (t_type t =? TRX_SETDOC)); [eapply Hacct|eapply Hstake]; eassumption. }
  destruct (deliver s t) as [s' r] eqn:H. apply deliver_cases in H. cbn [fst].
  destruct H as [_|? ? _ _|? lim' ? ? _ _ _ _ [? _|l' gas _ Hx|l' ? _ Hx _ _|l' ? ? _ Hx _ _]].
  - exact HP.
  - exact HP1.
  - exact HP1.
  - eapply Hevm; [exact HP1|exact Hx].
  - eapply Hexec, Hx.
  - apply Hset. eapply Hexec, Hx.
Qed.

(* ------------------------------------------------------------------ observational equality *)
Lemma same_obs_refl l : same_obs l l.
Proof. unfold same_obs. repeat split. Qed.

Lemma same_obs_trans l1 l2 l3 : same_obs l1 l2 → same_obs l2 l3 → same_obs l1 l3.
Proof.
  unfold same_obs. intros (A1 & B1 & C1 & D1 & E1 & F1 & G1) (A2 & B2 & C2 & D2 & E2 & F2 & G2).
  repeat split; try congruence.
Qed.

Lemma same_ctl_refl s : same_ctl s s.
Proof. unfold same_ctl. repeat split. Qed.

Lemma pre_obs s t : same_obs (work s) (work (pre s t)).
Proof.
  split; [intros b; symmetry; apply find_or_new_acct_of|].
  cbn. unfold find_or_new. destruct (accts (work s) !! t_to t); repeat split.
Qed.
Lemma pre_ctl s t : same_ctl s (pre s t).
Proof. unfold same_ctl. repeat split. Qed.
Lemma pre_lim_ctl s t : same_ctl s (with_lim (pre s t) (lim (pre s t))).
Proof. unfold same_ctl. repeat split. Qed.
Lemma pre_sender s t x : accts (work s) !! t_from t = Some x → accts (work (pre s t)) !! t_from t = Some x.
Proof. apply find_or_new_lookup_old. Qed.

(* ------------------------------------------------------------------ what passing validation means *)
Lemma cv0_none g t :
  common_validation0 g t = None →
  t_from_ok t = true ∧ t_to_ok t = true ∧ t_amount t < two255 ∧ t_gas t ≤ maxInt64 ∧
  t_price t < two255 ∧ t_price t = g_gasPrice g ∧
  mul256 (g_minTrxGas g) (g_gasPrice g) ≤ fee_of t ∧ t_sigok t = true.
Proof.
  unfold common_validation0. intros H.
  destruct (t_from_ok t); [|discriminate]. destruct (t_to_ok t); [|discriminate]. cbn [negb] in H.
  destruct (sign256 (t_amount t) <? 0) eqn:Ea; [discriminate|].
  destruct (maxInt64 <? t_gas t) eqn:Eg; [discriminate|].
  destruct (sign256 (t_price t) <? 0) eqn:Ep; [discriminate|]. cbn [orb] in H.
  destruct (t_price t =? g_gasPrice g) eqn:Epr; [|discriminate]. cbn [negb] in H.
  destruct (fee_of t <? mul256 (g_minTrxGas g) (g_gasPrice g)) eqn:Ef; [discriminate|].
  destruct (t_sigok t); [|discriminate].
  apply sign256_nonneg in Ea, Ep. apply Z.ltb_ge in Eg, Ef. apply Z.eqb_eq in Epr.
  repeat split; assumption.
Qed.

Lemma cv1_none sender t :
  common_validation1 sender t = None →
  add256 (fee_of t) (t_amount t) ≤ a_bal sender ∧ a_nonce sender = t_nonce t.
Proof.
  unfold common_validation1. intros H.
  destruct (a_bal sender <? add256 (fee_of t) (t_amount t)) eqn:Eb; [discriminate|].
  destruct (a_nonce sender =? t_nonce t) eqn:En; [|discriminate].
  apply Z.ltb_ge in Eb. apply Z.eqb_eq in En. split; assumption.
Qed.

(* a successful delivery went through both common validations of NewTrxContext *)
Lemma deliver_ok_validated s t s' g :
  deliver s t = (s', Ok g) →
  common_validation0 (gparams s) t = None ∧
  ∃ sender, accts (work s) !! t_from t = Some sender ∧ common_validation1 sender t = None.
Proof.
  intros H. apply deliver_ok_cases in H as (sender & _ & Hs & Hv0 & Hv1 & _).
  split; [exact Hv0|]. exists sender. split; [exact Hs|exact Hv1].
Qed.

Corollary deliver_ok_sigok s t s' g : deliver s t = (s', Ok g) → t_sigok t = true.
Proof. intros H. apply deliver_ok_validated in H as [H0 _]. apply cv0_none in H0. tauto. Qed.

Corollary deliver_ok_price s t s' g : deliver s t = (s', Ok g) → t_price t = g_gasPrice (gparams s).
Proof. intros H. apply deliver_ok_validated in H as [H0 _]. apply cv0_none in H0. tauto. Qed.

Corollary deliver_ok_sender s t s' g :
  deliver s t = (s', Ok g) → ∃ sender, accts (work s) !! t_from t = Some sender.
Proof. intros H. apply deliver_ok_validated in H as (_ & x & Hx & _). exists x. exact Hx. Qed.

Corollary deliver_ok_nonce s t s' g : deliver s t = (s', Ok g) → nonce_of (work s) (t_from t) = t_nonce t.
Proof.
  intros H. apply deliver_ok_validated in H as (_ & x & Hx & H1). apply cv1_none in H1 as [_ Hn].
  unfold nonce_of. rewrite (acct_of_lookup _ _ _ Hx). exact Hn.
Qed.

Corollary deliver_ok_funds s t s' g :
  deliver s t = (s', Ok g) → add256 (fee_of t) (t_amount t) ≤ bal_of (work s) (t_from t).
Proof.
  intros H. apply deliver_ok_validated in H as (_ & x & Hx & H1). apply cv1_none in H1 as [Hb _].
  unfold bal_of. rewrite (acct_of_lookup _ _ _ Hx). exact Hb.
Qed.

Corollary deliver_ok_addrs s t s' g : deliver s t = (s', Ok g) → t_from_ok t = true ∧ t_to_ok t = true.
Proof. intros H. apply deliver_ok_validated in H as [H0 _]. apply cv0_none in H0. tauto. Qed.

(* the amount, the fee and the sender's balance of a transaction that passed the common validations,
   as exact integers *)
Lemma validated_amount g t : common_validation0 g t = None → 0 ≤ t_amount t → 0 ≤ t_amount t < two255.
Proof. intros H0 Ha. apply cv0_none in H0. tauto. Qed.

Lemma validated_fee g t :
  common_validation0 g t = None → 0 ≤ t_gas t → 0 ≤ g_gasPrice g < 2 ^ 192 → 0 ≤ fee_of t < two255.
Proof.
  intros H0 Hgas Hprice. apply cv0_none in H0 as (_ & _ & _ & Hg & _ & Hp & _).
  pose proof two256_double. pose proof two255_pos.
  assert (Hb : 0 ≤ t_price t * t_gas t < two255) by (apply fee_bound; lia).
  unfold fee_of. rewrite mul256_small by lia. exact Hb.
Qed.

Lemma validated_bal g t sender :
  common_validation0 g t = None → common_validation1 sender t = None →
  0 ≤ t_amount t → 0 ≤ t_gas t → 0 ≤ g_gasPrice g < 2 ^ 192 →
  fee_of t + t_amount t ≤ a_bal sender.
Proof.
  intros H0 H1 Ha Hgas Hprice.
  pose proof (validated_amount _ _ H0 Ha). pose proof (validated_fee _ _ H0 Hgas Hprice).
  pose proof two256_double. apply cv1_none in H1 as [Hb _]. rewrite add256_small in Hb by lia. exact Hb.
Qed.

(* ------------------------------------------------------------------ transaction types *)
(* case analysis on [t_type t =? c] that records the (dis)equality *)
Ltac ty_case t c E :=
  destruct (Z.eqb_spec (t_type t) c) as [E|E].

Lemma stake_validate_withdraw s1 t lim' :
  t_type t ≠ TRX_STAKING → t_type t ≠ TRX_UNSTAKING → stake_validate s1 t = Ok lim' →
  lim' = lim s1 ∧ t_amount t = 0 ∧
  ∃ req r, t_payload t = PWithdraw req ∧ rewards (work s1) !! t_from t = Some r ∧ req ≤ r_cumulated r.
Proof.
  intros N2 N3 H. unfold stake_validate in H.
  apply Z.eqb_neq in N2, N3. rewrite N2, N3 in H.
  destruct (t_amount t =? 0) eqn:Ea; [|discriminate]. cbn [negb] in H.
  destruct (t_payload t) as [| | req | | | |] eqn:Ep; try discriminate.
  destruct (rewards (work s1) !! t_from t) as [r|] eqn:Er; [|discriminate].
  destruct (r_cumulated r <? req) eqn:Ec; [discriminate|].
  injection H as <-. apply Z.eqb_eq in Ea. apply Z.ltb_ge in Ec.
  split; [reflexivity|]. split; [exact Ea|]. exists req, r. repeat split; assumption.
Qed.

Lemma validated_lim s1 recv t lim' :
  validated s1 recv t = Ok lim' → t_type t ≠ TRX_STAKING → t_type t ≠ TRX_UNSTAKING → lim' = lim s1.
Proof.
  unfold validated. intros H N2 N3.
  destruct ((t_type t =? TRX_PROPOSAL) || (t_type t =? TRX_VOTING)).
  { destruct (gov_validate s1 t); [discriminate|]. injection H as <-. reflexivity. }
  destruct ((t_type t =? TRX_TRANSFER) || (t_type t =? TRX_SETDOC)).
  { destruct (acct_validate t); [discriminate|]. injection H as <-. reflexivity. }
  destruct ((t_type t =? TRX_STAKING) || (t_type t =? TRX_UNSTAKING) || (t_type t =? TRX_WITHDRAW)).
  { apply stake_validate_withdraw in H; tauto. }
  destruct (t_type t =? TRX_CONTRACT); [|discriminate].
  destruct (evm_validate recv t); [discriminate|]. injection H as <-. reflexivity.
Qed.

Lemma validated_stake s1 recv t :
  t_type t = TRX_STAKING ∨ t_type t = TRX_UNSTAKING ∨ t_type t = TRX_WITHDRAW →
  validated s1 recv t = stake_validate s1 t.
Proof.
  unfold validated. intros [E|[E|E]]; rewrite E; reflexivity.
Qed.

Lemma validated_type s1 recv t lim' :
  validated s1 recv t = Ok lim' →
  t_type t = TRX_TRANSFER ∨ t_type t = TRX_STAKING ∨ t_type t = TRX_UNSTAKING ∨ t_type t = TRX_PROPOSAL ∨
  t_type t = TRX_VOTING ∨ t_type t = TRX_CONTRACT ∨ t_type t = TRX_SETDOC ∨ t_type t = TRX_WITHDRAW.
Proof.
  unfold validated. intros H.
  ty_case t TRX_PROPOSAL E4; [tauto|]. ty_case t TRX_VOTING E5; [tauto|].
  ty_case t TRX_TRANSFER E1; [tauto|]. ty_case t TRX_SETDOC E7; [tauto|].
  ty_case t TRX_STAKING E2; [tauto|]. ty_case t TRX_UNSTAKING E3; [tauto|].
  ty_case t TRX_WITHDRAW E8; [tauto|]. ty_case t TRX_CONTRACT E6; [tauto|].
  cbn in H. discriminate.
Qed.

Lemma evm_path_type s t :
  evm_path s t = true → t_type t = TRX_CONTRACT ∨ t_type t = TRX_TRANSFER.
Proof.
  unfold evm_path. intros H. apply orb_true_iff in H as [H|H].
  - left. apply Z.eqb_eq. exact H.
  - right. apply andb_true_iff in H as [H _]. apply Z.eqb_eq. exact H.
Qed.

Lemma evm_path_false_type s t : evm_path s t = false → t_type t ≠ TRX_CONTRACT.
Proof.
  unfold evm_path. intros H. apply orb_false_iff in H as [H _]. apply Z.eqb_neq. exact H.
Qed.

(* ------------------------------------------------------------------ execution and the sender account *)
Lemma sub_balance_some x amt : 0 ≤ amt < two255 → amt ≤ a_bal x → ∃ x', sub_balance x amt = Some x'.
Proof.
  intros Ha Hb. unfold sub_balance.
  rewrite (proj2 (sign256_nonneg amt)) by lia. rewrite (proj2 (Z.ltb_ge _ _) Hb). eexists. reflexivity.
Qed.

(* After a successful native execution the sender can still pay the fee.  [Hw]: a withdrawal that
   was carried out (AddBalance accepted the request, so it is below 2^255) did not wrap the balance. *)
Section exec_sender.
  Variables (t : tx) (sender : account).
  Hypothesis HA : 0 ≤ t_amount t < two255.
  Hypothesis HF : 0 ≤ fee_of t < two255.
  Hypothesis HB : fee_of t + t_amount t ≤ a_bal sender < two256.
  Hypothesis Hw : ∀ req, t_type t = TRX_WITHDRAW → t_payload t = PWithdraw req → req < two255 →
                         0 ≤ req ∧ a_bal sender + req < two256.

  Lemma acct_execute_sender l l' :
    accts l !! t_from t = Some sender → acct_execute l t = Ok l' →
    ∃ snd', accts l' !! t_from t = Some snd' ∧ fee_of t ≤ a_bal snd'.
  Proof.
    pose proof two256_double as H2.
    intros Hs H. unfold acct_execute in H. rewrite Hs in H.
    destruct (accts l !! t_to t) as [receiver|] eqn:Er; [|discriminate].
    destruct (t_type t =? TRX_TRANSFER).
    - unfold sub_balance in H.
      destruct (sign256 (t_amount t) <? 0); [discriminate|].
      destruct (a_bal sender <? t_amount t); [discriminate|].
      destruct (t_from t =? t_to t)%N eqn:Eft.
      + apply N.eqb_eq in Eft. unfold add_balance in H. cbn [a_bal a_nonce a_code a_name a_doc] in H.
        destruct (sign256 (t_amount t) <? 0); [discriminate|]. injection H as <-.
        eexists. split; [rewrite <- Eft; cbn; apply lookup_insert|]. cbn.
        rewrite sub256_small by lia. rewrite add256_small by lia. lia.
      + apply N.eqb_neq in Eft. unfold add_balance in H.
        destruct (sign256 (t_amount t) <? 0); [discriminate|]. injection H as <-.
        eexists. split; [cbn; rewrite lookup_insert_ne by congruence; apply lookup_insert|]. cbn.
        rewrite sub256_small by lia. lia.
    - destruct (t_payload t); try discriminate. injection H as <-.
      eexists. split; [cbn; apply lookup_insert|]. cbn. lia.
  Qed.

  Lemma stake_execute_sender s l l' :
    accts l !! t_from t = Some sender →
    t_type t = TRX_STAKING ∨ t_type t = TRX_UNSTAKING ∨ t_type t = TRX_WITHDRAW →
    stake_execute s l t = Ok l' →
    ∃ snd', accts l' !! t_from t = Some snd' ∧ fee_of t ≤ a_bal snd'.
  Proof.
    pose proof two256_double as H2.
    intros Hs Hty H. unfold stake_execute in H.
    ty_case t TRX_STAKING E2.
    { destruct (match dels l !! t_to t with Some d => Some d | None => _ end) as [d|]; [|discriminate].
      rewrite Hs in H. unfold sub_balance in H.
      destruct (sign256 (t_amount t) <? 0); [discriminate|].
      destruct (a_bal sender <? t_amount t); [discriminate|]. injection H as <-.
      eexists. split; [cbn; apply lookup_insert|]. cbn. rewrite sub256_small by lia. lia. }
    ty_case t TRX_UNSTAKING E3.
    { destruct (dels l !! t_to t) as [d|]; [|discriminate].
      destruct (t_payload t) as [|hs lo| | | | |]; try discriminate.
      destruct (find_stake hs (d_stakes d)) as [s0|]; [|discriminate].
      destruct (negb (s_from s0 =? t_from t)%N); [discriminate|].
      destruct (if d_self (del_stake d hs) =? 0 then _ else _) as [d2 fr2].
      exists sender. split; [|lia].
      destruct (d_total d2 =? 0); injection H as <-; exact Hs. }
    assert (E8 : t_type t = TRX_WITHDRAW) by tauto.
    destruct (t_payload t) as [| |req| | | |] eqn:Ep; try discriminate.
    destruct (rewards l !! t_from t) as [r|]; [|discriminate].
    destruct (r_height r >? b_height (bctx s)); [discriminate|].
    unfold acct_reward in H. cbn [accts set_rewards] in H. rewrite Hs in H. cbn [mbind option_bind] in H.
    unfold add_balance in H. destruct (sign256 req <? 0) eqn:Er; [discriminate|].
    cbn [mbind option_bind] in H. injection H as <-.
    apply sign256_nonneg in Er. destruct (Hw req E8 eq_refl Er) as [Hr0 Hr1].
    eexists. split; [cbn; apply lookup_insert|]. cbn. rewrite add256_small by lia. lia.
  Qed.

  Lemma exec_native_sender s1 recv lim' s2 l' :
    validated s1 recv t = Ok lim' → t_type t ≠ TRX_CONTRACT →
    accts (work s2) !! t_from t = Some sender → exec_native s2 t = Ok l' →
    ∃ snd', accts l' !! t_from t = Some snd' ∧ fee_of t ≤ a_bal snd'.
  Proof.
    intros Hty Hn Hs H. apply validated_type in Hty. unfold exec_native in H.
    destruct ((t_type t =? TRX_PROPOSAL) || (t_type t =? TRX_VOTING)) eqn:Eg.
    { apply gov_execute_keeps in H. rewrite (keeps_accts _ _ _ H I). exists sender. split; [exact Hs|lia]. }
    destruct ((t_type t =? TRX_TRANSFER) || (t_type t =? TRX_SETDOC)) eqn:Ea.
    { eapply acct_execute_sender; eassumption. }
    eapply stake_execute_sender; try eassumption.
    apply orb_false_iff in Eg as [Eg1 Eg2]. apply orb_false_iff in Ea as [Ea1 Ea2].
    apply Z.eqb_neq in Eg1, Eg2, Ea1, Ea2. tauto.
  Qed.
End exec_sender.

(* ------------------------------------------------------------------ validated staking / unstaking cannot fail in execution *)
(* StakeCtrler.ValidateTrx may have changed the limiter; what it checked is exactly what
   exeStaking / exeUnstaking re-check, so no error can follow the change *)
Lemma staking_validated_exec_ok s1 t lim' sender :
  t_type t = TRX_STAKING →
  stake_validate s1 t = Ok lim' →
  accts (work s1) !! t_from t = Some sender →
  t_amount t < two255 → t_amount t ≤ a_bal sender →
  ∃ l', stake_execute (with_lim s1 lim') (work s1) t = Ok l'.
Proof.
  intros Ety Hv Hs Ha Hb.
  assert (Hsg : (sign256 (t_amount t) <? 0) = false) by (apply sign256_nonneg; exact Ha).
  assert (Hlt : (a_bal sender <? t_amount t) = false) by (apply Z.ltb_ge; exact Hb).
  unfold stake_execute. rewrite Ety. cbn [Z.eqb TRX_STAKING Pos.eqb].
  rewrite Hs. unfold sub_balance. rewrite Hsg, Hlt.
  destruct (dels (work s1) !! t_to t) as [d|] eqn:Ed; [eexists; reflexivity|].
  destruct (t_from t =? t_to t)%N eqn:Eft; [eexists; reflexivity|].
  (* a delegation to a missing delegatee was refused by validation *)
  exfalso. unfold stake_validate in Hv. rewrite Ety in Hv. cbn [Z.eqb TRX_STAKING Pos.eqb] in Hv.
  destruct (t_amount t / amountPerPower <=? 0); [discriminate|].
  destruct (negb (t_amount t mod amountPerPower =? 0)); [discriminate|].
  destruct (amount_to_power (t_amount t)) as [txp|]; [|discriminate].
  rewrite Eft, Ed in Hv. discriminate.
Qed.

Lemma unstaking_validated_exec_ok s1 t lim' :
  t_type t = TRX_UNSTAKING →
  stake_validate s1 t = Ok lim' →
  ∃ l', stake_execute (with_lim s1 lim') (work s1) t = Ok l'.
Proof.
  intros Ety Hv. unfold stake_validate in Hv. unfold stake_execute.
  rewrite Ety in *. cbn [Z.eqb TRX_STAKING TRX_UNSTAKING Pos.eqb] in *.
  destruct (dels (work s1) !! t_to t) as [d|]; [|discriminate].
  destruct (t_payload t) as [|hs lo| | | | |]; try discriminate.
  destruct (negb lo); [discriminate|].
  destruct (find_stake hs (d_stakes d)) as [s0|]; [|discriminate].
  destruct (negb (s_from s0 =? t_from t)%N); [discriminate|].
  destruct (if d_self (del_stake d hs) =? 0 then _ else _) as [d2 fr2].
  destruct (d_total d2 =? 0); eexists; reflexivity.
Qed.

Lemma exec_native_panic_type s2 t p :
  exec_native s2 t = Panic p → t_type t ≠ TRX_STAKING ∧ t_type t ≠ TRX_UNSTAKING.
Proof.
  unfold exec_native. intros H.
  ty_case t TRX_STAKING E2.
  { exfalso. rewrite E2 in H. cbn [Z.eqb orb TRX_STAKING TRX_PROPOSAL TRX_VOTING TRX_TRANSFER TRX_SETDOC Pos.eqb] in H.
    unfold stake_execute in H. rewrite E2 in H. cbn [Z.eqb TRX_STAKING Pos.eqb] in H.
    destruct (match dels (work s2) !! t_to t with Some d => Some d | None => _ end); [|discriminate].
    destruct (accts (work s2) !! t_from t) as [x|]; [|discriminate].
    destruct (sub_balance x (t_amount t)); discriminate. }
  ty_case t TRX_UNSTAKING E3.
  { exfalso. rewrite E3 in H. cbn [Z.eqb orb TRX_UNSTAKING TRX_PROPOSAL TRX_VOTING TRX_TRANSFER TRX_SETDOC Pos.eqb] in H.
    unfold stake_execute in H. rewrite E3 in H. cbn [Z.eqb TRX_STAKING TRX_UNSTAKING Pos.eqb] in H.
    destruct (dels (work s2) !! t_to t) as [d|]; [|discriminate].
    destruct (t_payload t) as [|hs lo| | | | |]; try discriminate.
    destruct (find_stake hs (d_stakes d)) as [s0|]; [|discriminate].
    destruct (negb (s_from s0 =? t_from t)%N); [discriminate|].
    destruct (if d_self (del_stake d hs) =? 0 then _ else _) as [d2 fr2].
    destruct (d_total d2 =? 0); discriminate. }
  split; assumption.
Qed.

(* ------------------------------------------------------------------ C05 *)
Definition sender_bal_ok (s : state) (t : tx) : Prop :=
  ∀ x, accts (work s) !! t_from t = Some x → a_bal x < two256.
(* paying out the whole reward cannot wrap the balance *)
Definition reward_headroom (l : ledgers) (a : addr) : Prop :=
  ∀ x r, accts l !! a = Some x → rewards l !! a = Some r → a_bal x + r_cumulated r < two256.
(* the withdraw request is a uint256 *)
Definition payload_wf (t : tx) : Prop :=
  match t_payload t with PWithdraw req => 0 ≤ req < two256 | _ => True end.
Definition withdraw_ok (s : state) (t : tx) : Prop :=
  t_type t = TRX_WITHDRAW → payload_wf t ∧ reward_headroom (work s) (t_from t).

(* What the argument needs of a withdrawal: crediting the requested amount does not wrap the
   sender's balance.  It is asked only of a request that validation let through (it is covered
   by the reward) and that AddBalance accepted (it is below 2^255). *)
Definition withdraw_fits (s : state) (t : tx) : Prop :=
  ∀ x r req, t_type t = TRX_WITHDRAW → t_payload t = PWithdraw req →
    accts (work s) !! t_from t = Some x → rewards (work s) !! t_from t = Some r →
    req ≤ r_cumulated r → req < two255 → 0 ≤ req ∧ a_bal x + req < two256.

Lemma withdraw_ok_fits s t : withdraw_ok s t → withdraw_fits s t.
Proof.
  intros Hwd x r req E8 Ep Hx Hr Hle _. destruct (Hwd E8) as [Hpw Hh].
  unfold payload_wf in Hpw. rewrite Ep in Hpw. specialize (Hh _ _ Hx Hr). lia.
Qed.

(* Once validation has passed, execution can end without success only before it has written
   anything, and with the limiter validation started from: staking and unstaking, which may
   have changed it, go through, and so does the fee debit of postRunTrx. *)
Section validated_facts.
  Variables (s : state) (t : tx) (sender : account) (lim' : limiter).
  Hypothesis Hamt : 0 ≤ t_amount t.
  Hypothesis Hgas : 0 ≤ t_gas t.
  Hypothesis Hprice : 0 ≤ g_gasPrice (gparams s) < 2 ^ 192.
  Hypothesis Hbal : sender_bal_ok s t.
  Hypothesis Hwd : withdraw_fits s t.
  Hypothesis Hs : accts (work s) !! t_from t = Some sender.
  Hypothesis Hv0 : common_validation0 (gparams s) t = None.
  Hypothesis Hv1 : common_validation1 sender t = None.
  Hypothesis Hv : validated (pre s t) (receiver_of s t) t = Ok lim'.

  Lemma vf_withdraw req :
    t_type t = TRX_WITHDRAW → t_payload t = PWithdraw req → req < two255 →
    0 ≤ req ∧ a_bal sender + req < two256.
  Proof.
    intros E8 Ep Hreq.
    rewrite (validated_stake _ _ _ (or_intror (or_intror E8))) in Hv.
    apply stake_validate_withdraw in Hv as (_ & _ & req' & r & Ep' & Hr & Hle);
      [|rewrite E8; discriminate|rewrite E8; discriminate].
    rewrite Ep in Ep'. injection Ep' as <-.
    cbn [pre work with_work] in Hr. rewrite (keeps_rewards _ _ _ (find_or_new_keeps _ _) I) in Hr.
    exact (Hwd _ _ _ E8 Ep Hs Hr Hle Hreq).
  Qed.

  Lemma vf_exec_ok l' :
    t_type t ≠ TRX_CONTRACT → exec_native (with_lim (pre s t) lim') t = Ok l' →
    ∃ snd' snd'', accts l' !! t_from t = Some snd' ∧ sub_balance snd' (fee_of t) = Some snd''.
  Proof.
    intros Hn Hx.
    pose proof (validated_amount _ _ Hv0 Hamt) as HA. pose proof (validated_fee _ _ Hv0 Hgas Hprice) as HF.
    pose proof (validated_bal _ _ _ Hv0 Hv1 Hamt Hgas Hprice) as HB.
    destruct (exec_native_sender t sender HA HF (conj HB (Hbal _ Hs)) vf_withdraw _ _ _ (with_lim (pre s t) lim') l' Hv Hn)
      as (snd' & Hl & Hf); [apply pre_sender, Hs|exact Hx|].
    destruct (sub_balance_some snd' _ HF Hf) as [snd'' Hsb]. exists snd', snd''. split; assumption.
  Qed.

  Lemma vf_exec_err e : exec_native (with_lim (pre s t) lim') t = Err e → t_type t ≠ TRX_STAKING ∧ t_type t ≠ TRX_UNSTAKING.
  Proof.
    intros Hx. split; intros E.
    - rewrite (validated_stake _ _ _ (or_introl E)) in Hv.
      pose proof (validated_amount _ _ Hv0 Hamt). pose proof (validated_fee _ _ Hv0 Hgas Hprice).
      pose proof (validated_bal _ _ _ Hv0 Hv1 Hamt Hgas Hprice).
      destruct (staking_validated_exec_ok _ _ _ sender E Hv) as [l' Hl]; [apply pre_sender, Hs|lia|lia|].
      unfold exec_native in Hx. rewrite E in Hx. cbn in Hx, Hl. rewrite Hl in Hx. discriminate.
    - rewrite (validated_stake _ _ _ (or_intror (or_introl E))) in Hv.
      destruct (unstaking_validated_exec_ok _ _ _ E Hv) as [l' Hl].
      unfold exec_native in Hx. rewrite E in Hx. cbn in Hx, Hl. rewrite Hl in Hx. discriminate.
  Qed.

  Lemma vf_not_ok price s' r :
    finished price (with_lim (pre s t) lim') t (evm_path s t) s' r → (∀ g, r ≠ Ok g) →
    same_obs (work s) (work s') ∧ same_ctl s s'.
  Proof.
    intros Hf Hr.
    assert (Hlim : t_type t ≠ TRX_STAKING ∧ t_type t ≠ TRX_UNSTAKING →
                   same_obs (work s) (work (with_lim (pre s t) lim')) ∧ same_ctl s (with_lim (pre s t) lim')).
    { intros [N2 N3]. rewrite (validated_lim _ _ _ _ Hv N2 N3).
      split; [apply pre_obs|apply pre_lim_ctl]. }
    destruct Hf as [? [e Hp Hx|e Hp Hx|p Hp Hx|l' Hp Hx Hl]|l' gas _ _|l' snd' Hp Hx Hl Hsb|l' snd' snd'' _ _ _ _].
    - apply Hlim. destruct (evm_path_type _ _ Hp) as [E|E]; rewrite E; split; discriminate.
    - apply Hlim. eapply vf_exec_err, Hx.
    - apply Hlim. eapply exec_native_panic_type, Hx.
    - destruct (vf_exec_ok _ (evm_path_false_type _ _ Hp) Hx) as (? & ? & Hl' & _). congruence.
    - destruct (Hr gas eq_refl).
    - destruct (vf_exec_ok _ (evm_path_false_type _ _ Hp) Hx) as (? & ? & Hl' & Hsb'). congruence.
    - destruct (Hr _ eq_refl).
  Qed.
End validated_facts.

(* ------------------------------------------------------------------ C05, main statement *)
Theorem deliver_not_ok_no_effect s t s' r :
  0 ≤ t_amount t → 0 ≤ t_gas t → 0 ≤ g_gasPrice (gparams s) < 2 ^ 192 →
  sender_bal_ok s t → withdraw_fits s t →
  deliver s t = (s', r) → (∀ g, r ≠ Ok g) →
  same_obs (work s) (work s') ∧ same_ctl s s'.
Proof.
  intros Hamt Hgas Hprice Hbal Hwd H Hr. apply deliver_cases in H.
  destruct H as [_|sender r _ _|sender lim' s' r Hs Hv0 Hv1 Hv Hf].
  - split; [apply same_obs_refl|apply same_ctl_refl].
  - split; [apply pre_obs|apply pre_ctl].
  - exact (vf_not_ok s t sender lim' Hamt Hgas Hprice Hbal Hwd Hs Hv0 Hv1 Hv _ _ _ Hf Hr).
Qed.

(* Intended statement:
     deliver s t = (s', Err e) → same_obs (work s) (work s') ∧ same_ctl s s'
   It needs the five hypotheses below; each is necessary (see the refutations further down). *)
Theorem deliver_fail_no_effect s t s' e :
  0 ≤ t_amount t →                         (* tx_wf *)
  0 ≤ t_gas t →                            (* tx_wf *)
  0 ≤ g_gasPrice (gparams s) < 2 ^ 192 →   (* params_ok *)
  sender_bal_ok s t →                      (* ranges_ok *)
  withdraw_ok s t →
  deliver s t = (s', Err e) →
  same_obs (work s) (work s') ∧ same_ctl s s'.
Proof.
  intros Hamt Hgas Hprice Hbal Hwd H.
  eapply deliver_not_ok_no_effect; [..|exact H|discriminate]; try assumption.
  apply withdraw_ok_fits, Hwd.
Qed.
Print Assumptions deliver_fail_no_effect.

(* the same with the shared vocabulary of SpecProps *)
Corollary deliver_fail_no_effect_wf s t s' e :
  tx_wf t → payload_wf t → params_ok (gparams s) → ranges_ok (work s) →
  reward_headroom (work s) (t_from t) →
  deliver s t = (s', Err e) →
  same_obs (work s) (work s') ∧ same_ctl s s'.
Proof.
  intros (Ha & _ & Hg & _) Hpw (Hp & _) (Hr & _) Hh H.
  eapply deliver_fail_no_effect; try eassumption; try lia.
  - intros x Hx. apply Hr in Hx. lia.
  - intros _. split; assumption.
Qed.
Print Assumptions deliver_fail_no_effect_wf.

(* "Later transactions in the same block observe the unchanged state": what the next delivery
   sees differs from what it would have seen only in the tx counter and possibly an empty
   receiver account, both outside same_obs / same_ctl. *)

(* ------------------------------------------------------------------ C05 for panics (secondary) *)
Theorem deliver_panic_no_effect s t s' p :
  deliver s t = (s', Panic p) → same_obs (work s) (work s') ∧ same_ctl s s'.
Proof.
  intros H. apply deliver_cases in H.
  inversion H as [|sender r _ _|sender lim' s'' r _ _ _ Hv Hf]; subst.
  - split; [apply pre_obs|apply pre_ctl].
  - (* only exec_native panics, and not on the two types that change the limiter *)
    inversion Hf as [r Hst| | |]; subst. inversion Hst as [| |p' _ Hx|]; subst.
    apply exec_native_panic_type in Hx as [N2 N3].
    rewrite (validated_lim _ _ _ _ Hv N2 N3). split; [apply pre_obs|apply pre_lim_ctl].
Qed.
Print Assumptions deliver_panic_no_effect.

(* ------------------------------------------------------------------ concrete states *)
Definition pr0 (price : Z) : params := {|
  g_version := 1; g_maxValidatorCnt := 21; g_minValidatorStake := 10 * amountPerPower;
  g_minDelegatorStake := 0; g_rewardPerPower := 1000; g_lazyRewardBlocks := 10; g_lazyApplyingBlocks := 10;
  g_gasPrice := price; g_minTrxGas := 10; g_maxTrxGas := 1000000; g_maxBlockGas := 10000000;
  g_minVotingPeriodBlocks := 1; g_maxVotingPeriodBlocks := 100; g_minSelfStakeRatio := 50;
  g_maxUpdatableStakeRatio := 30; g_maxIndividualStakeRatio := 100; g_slashRatio := 50;
  g_signedBlocksWindow := 100; g_minSignedBlocks := 10 |}.

Ltac zc := vm_compute; repeat split; try reflexivity; try discriminate.

Lemma pr0_ok : params_ok (pr0 10).
Proof. zc. Qed.

Definition mk_tx (ty : Z) (from to : addr) (amount price gas nonce : Z) (pl : payload) : tx := {|
  t_type := ty; t_from := from; t_to := to; t_from_ok := true; t_to_ok := true; t_amount := amount;
  t_price := price; t_gas := gas; t_nonce := nonce; t_payload := pl; t_hash := 77%N; t_sigok := true;
  t_evm := None |}.

Definition gen0 : genesis := {|
  gen_params := pr0 10;
  gen_holders := [(1%N, 1000 * amountPerPower); (2%N, 500 * amountPerPower)];
  gen_validators := [(1%N, 100)] |}.
Definition st0 : state :=
  (begin_block (init_chain gen0) {| h_height := 1; h_proposer := Some 1%N; h_votes := []; h_evidence := [] |}).1.

Definition tx_bad_nonce := mk_tx TRX_TRANSFER 1%N 3%N 5 10 100 7 PNone.
Definition tx_bad_deleg := mk_tx TRX_STAKING 2%N 3%N amountPerPower 10 100 0 PNone.
Definition tx_bad_fund := mk_tx TRX_TRANSFER 2%N 1%N (500 * amountPerPower) 10 100 0 PNone.

Lemma st0_fail_no_effect t e :
  t_from t = 1%N ∨ t_from t = 2%N → t_type t ≠ TRX_WITHDRAW → 0 ≤ t_amount t → 0 ≤ t_gas t →
  (deliver st0 t).2 = Err e →
  same_obs (work st0) (work (deliver st0 t).1) ∧ same_ctl st0 (deliver st0 t).1.
Proof.
  intros Hf Hty Ha Hg He. apply (deliver_fail_no_effect st0 t _ e Ha Hg).
  - zc.
  - intros x Hx. destruct Hf as [Hf|Hf]; rewrite Hf in Hx; vm_compute in Hx; injection Hx as <-; reflexivity.
  - intros E. contradiction.
  - rewrite <- He. apply surjective_pairing.
Qed.

Example deliver_fail_no_effect_ex :
  (deliver st0 tx_bad_nonce).2 = Err E_NONCE ∧
  (deliver st0 tx_bad_deleg).2 = Err E_NODELEGATEE ∧
  (deliver st0 tx_bad_fund).2 = Err E_FUND ∧
  ∀ t, t ∈ [tx_bad_nonce; tx_bad_deleg; tx_bad_fund] →
       same_obs (work st0) (work (deliver st0 t).1) ∧ same_ctl st0 (deliver st0 t).1.
Proof.
  assert (H1 : (deliver st0 tx_bad_nonce).2 = Err E_NONCE) by (vm_compute; reflexivity).
  assert (H2 : (deliver st0 tx_bad_deleg).2 = Err E_NODELEGATEE) by (vm_compute; reflexivity).
  assert (H3 : (deliver st0 tx_bad_fund).2 = Err E_FUND) by (vm_compute; reflexivity).
  split; [exact H1|]. split; [exact H2|]. split; [exact H3|].
  intros t Ht. rewrite !elem_of_cons, elem_of_nil in Ht. destruct Ht as [->|[->|[->|[]]]].
  - apply st0_fail_no_effect in H1; [exact H1|left; reflexivity|discriminate|discriminate|discriminate].
  - apply st0_fail_no_effect in H2; [exact H2|right; reflexivity|discriminate|discriminate|discriminate].
  - apply st0_fail_no_effect in H3; [exact H3|right; reflexivity|discriminate|discriminate|discriminate].
Qed.

(* ------------------------------------------------------------------ every hypothesis is needed *)
Definition mk_state (price bal : Z) (rw : gmap addr reward) : state := {|
  committed := [];
  work := {| accts := {[ 1%N := {| a_nonce := 0; a_bal := bal; a_code := false; a_name := 0%N; a_doc := 0%N |} ]};
             dels := ∅; frozen := ∅; rewards := rw; props := ∅; fprops := ∅; lparams := pr0 price |};
  gparams := pr0 price; newparams := None; alldels := []; lastvals := []; lim := limiter_reset [] (pr0 price);
  bctx := {| b_height := 1; b_proposer := None; b_feesum := 0; b_txs := 0 |}; last_height := 0 |}.

Lemma mk_state_ranges price bal rw :
  0 ≤ bal < two256 → (∀ a r, rw !! a = Some r → 0 ≤ r_cumulated r < two256) →
  ranges_ok (work (mk_state price bal rw)).
Proof.
  intros Hb Hr. pose proof two64_pos. split; [|split].
  - intros a x Hx. cbn in Hx. apply lookup_singleton_Some in Hx as [_ <-]. cbn. lia.
  - intros s Hs. unfold bonded_stakes, frozen_stakes in Hs. cbn in Hs.
    rewrite !map_to_list_empty in Hs. cbn in Hs. apply elem_of_nil in Hs. contradiction.
  - exact Hr.
Qed.

(* how the witnesses below are checked: the answer, and one account that has changed *)
Lemma effect_witness s t e a :
  (deliver s t).2 = Err e → acct_of (work (deliver s t).1) a ≠ acct_of (work s) a →
  deliver s t = ((deliver s t).1, Err e) ∧ ¬ same_obs (work s) (work (deliver s t).1).
Proof.
  intros He Ha. split; [rewrite <- He; apply surjective_pairing|].
  intros [Hs _]. apply Ha. symmetry. apply Hs.
Qed.

(* (a) gas price beyond 2^192: the fee has bit 255 set, validation lets it through, the transfer
   is carried out and the fee debit is then refused (SubBalance rejects "negative" amounts) *)
Theorem deliver_fail_no_effect_refuted_price :
  ∃ s t s' e, tx_wf t ∧ payload_wf t ∧ ranges_ok (work s) ∧ reward_headroom (work s) (t_from t) ∧
    0 ≤ g_gasPrice (gparams s) < two255 ∧
    deliver s t = (s', Err e) ∧ ¬ same_obs (work s) (work s').
Proof.
  pose (s := mk_state (2 ^ 254) (2 ^ 255 + 1) ∅).
  pose (t := mk_tx TRX_TRANSFER 1%N 2%N 1 (2 ^ 254) 2 0 PNone).
  exists s, t, (deliver s t).1, E_FUND.
  split; [zc|]. split; [exact I|]. split; [apply mk_state_ranges; [zc|intros a r Hr; rewrite lookup_empty in Hr; discriminate]|].
  split; [intros x r _ Hr; cbn in Hr; rewrite lookup_empty in Hr; discriminate|].
  split; [zc|]. apply (effect_witness _ _ _ 1%N); [vm_compute; reflexivity|vm_compute; discriminate].
Qed.

(* (b) no head-room for the reward: the pay-out wraps the balance below the fee *)
Theorem deliver_fail_no_effect_refuted_headroom :
  ∃ s t s' e, tx_wf t ∧ payload_wf t ∧ params_ok (gparams s) ∧ ranges_ok (work s) ∧
    deliver s t = (s', Err e) ∧ ¬ same_obs (work s) (work s').
Proof.
  pose (rw := {| r_issued := 5; r_withdrawn := 0; r_slashed := 0; r_cumulated := 5; r_height := 0 |}).
  pose (s := mk_state 10 (2 ^ 256 - 1) {[ 1%N := rw ]}).
  pose (t := mk_tx TRX_WITHDRAW 1%N 0%N 0 10 10 0 (PWithdraw 5)).
  exists s, t, (deliver s t).1, E_FUND.
  split; [zc|]. split; [zc|]. split; [exact pr0_ok|].
  split; [apply mk_state_ranges; [zc|intros a r Hr; apply lookup_singleton_Some in Hr as [_ <-]; zc]|].
  apply (effect_witness _ _ _ 1%N); [vm_compute; reflexivity|vm_compute; discriminate].
Qed.

(* (c)-(e): values outside the Go types (a balance of 2^256 or more, a negative amount, a negative
   gas) make the model's modular arithmetic misbehave in the same way; they show that the three
   range hypotheses cannot simply be dropped from the statement about the model *)
Ltac sender_ok := let x := fresh in let H := fresh in
  intros x H; vm_compute in H; injection H as <-; reflexivity.
Ltac not_withdraw := let E := fresh in intros E; vm_compute in E; discriminate.

Theorem deliver_fail_no_effect_refuted_balance :
  ∃ s t s' e, 0 ≤ t_amount t ∧ 0 ≤ t_gas t ∧ 0 ≤ g_gasPrice (gparams s) < 2 ^ 192 ∧ withdraw_ok s t ∧
    deliver s t = (s', Err e) ∧ ¬ same_obs (work s) (work s').
Proof.
  pose (s := mk_state 10 (2 ^ 256 + 5) ∅).
  pose (t := mk_tx TRX_TRANSFER 1%N 2%N 5 10 10 0 PNone).
  exists s, t, (deliver s t).1, E_FUND.
  split; [zc|]. split; [zc|]. split; [zc|]. split; [not_withdraw|].
  apply (effect_witness _ _ _ 1%N); [vm_compute; reflexivity|vm_compute; discriminate].
Qed.

Theorem deliver_fail_no_effect_refuted_amount :
  ∃ s t s' e, 0 ≤ t_gas t ∧ 0 ≤ g_gasPrice (gparams s) < 2 ^ 192 ∧ sender_bal_ok s t ∧ withdraw_ok s t ∧
    deliver s t = (s', Err e) ∧ ¬ same_obs (work s) (work s').
Proof.
  pose (s := mk_state 10 99 ∅).
  pose (t := mk_tx TRX_SETDOC 1%N 2%N (-1) 10 10 0 (PSetDoc 5%N 6%N 1 1)).
  exists s, t, (deliver s t).1, E_FUND.
  split; [zc|]. split; [zc|]. split; [sender_ok|]. split; [not_withdraw|].
  apply (effect_witness _ _ _ 1%N); [vm_compute; reflexivity|vm_compute; discriminate].
Qed.

Theorem deliver_fail_no_effect_refuted_gas :
  ∃ s t s' e, 0 ≤ t_amount t ∧ 0 ≤ g_gasPrice (gparams s) < 2 ^ 192 ∧ sender_bal_ok s t ∧ withdraw_ok s t ∧
    deliver s t = (s', Err e) ∧ ¬ same_obs (work s) (work s').
Proof.
  pose (s := mk_state 10 1000 ∅).
  pose (t := mk_tx TRX_TRANSFER 1%N 2%N 10 10 (-1) 0 PNone).
  exists s, t, (deliver s t).1, E_FUND.
  split; [zc|]. split; [zc|]. split; [sender_ok|]. split; [not_withdraw|].
  apply (effect_witness _ _ _ 1%N); [vm_compute; reflexivity|vm_compute; discriminate].
Qed.

(* What a failed delivery does leave behind (deliberately outside same_obs): the receiver account
   is created, empty.  With a zero gas price this is visible to a later transaction FROM that
   address, which is answered "no such account" before and succeeds after. *)
Example failed_delivery_creates_receiver :
  ∃ s t1 t2, (deliver s t1).2 = Err E_NONCE ∧ (deliver s t2).2 = Err E_NOACCT ∧
             (deliver (deliver s t1).1 t2).2 = Ok 0.
Proof.
  exists (mk_state 0 100 ∅), (mk_tx TRX_TRANSFER 1%N 9%N 1 0 100 5 PNone),
         (mk_tx TRX_SETDOC 9%N 9%N 0 0 0 0 (PSetDoc 5%N 6%N 1 1)).
  repeat split; vm_compute; reflexivity.
Qed.

Print Assumptions deliver_ok_validated.
Print Assumptions deliver_fail_no_effect_refuted_price.
Print Assumptions deliver_fail_no_effect_refuted_headroom.
