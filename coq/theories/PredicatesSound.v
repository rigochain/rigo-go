(* PredicatesSound.v — the projection comparator of the per-property checks is sound: when
   [first_diff_in codes] reports nothing, model and implementation agree, as Coq values, on every
   component whose code is in [codes], at every position of the observation lists. *)
From Rigo Require Import Base.
From stdpp Require Import gmap sorting.
From Rigo Require Import Spec SpecProps AppRun AppRunSound Predicates.
Local Open Scope Z_scope.

Definition obs_agree_on (codes : list Z) (m i : aobs) : Prop :=
  match m, i with
  | OInit, OInit => True
  | OBegin a, OBegin b => In 10 codes → res_agree a b
  | ODeliver a, ODeliver b => In 11 codes → res_agree a b
  | OEnd a, OEnd b => In 12 codes → res_agree a b
  | OCommit a, OCommit b =>
      (In 1 codes → sn_accts a = sn_accts b) ∧ (In 2 codes → sn_dels a = sn_dels b) ∧
      (In 3 codes → sn_frozen a = sn_frozen b) ∧ (In 4 codes → sn_rewards a = sn_rewards b) ∧
      (In 5 codes → sn_props a = sn_props b) ∧ (In 6 codes → sn_params a = sn_params b) ∧
      (In 7 codes → sn_total_power a = sn_total_power b)
  | _, _ => False
  end.

Definition keep (codes : list Z) (d : Z) : bool := existsb (Z.eqb d) codes || (d =? 99).

Lemma filter_nil_all {A} (f : A → bool) l : List.filter f l = [] → ∀ x, In x l → f x = false.
Proof.
  induction l as [|y l IH]; intros H x Hx; [destruct Hx|]. cbn in H.
  destruct (f y) eqn:E; [discriminate|]. destruct Hx as [->|Hx]; [exact E|apply IH; assumption].
Qed.

Lemma keep_false_notin codes d : keep codes d = false → ¬ In d codes.
Proof.
  unfold keep. intros H Hin. apply orb_false_iff in H as [H _].
  assert (existsb (Z.eqb d) codes = true) as E.
  { apply existsb_exists. exists d. split; [exact Hin|apply Z.eqb_refl]. }
  congruence.
Qed.

(* a component whose comparison failed contributes its code; if the code is kept, the filter is not empty *)
Lemma component {A} (e : A → A → bool) (x y : A) (code : Z) (L : list Z) codes :
  sound e →
  (∀ d, In d L → keep codes d = false) →
  (e x y = false → In code L) →
  In code codes → x = y.
Proof.
  intros He H HL Hin. destruct (e x y) eqn:E; [apply He; exact E|].
  exfalso. apply (keep_false_notin codes code); [|exact Hin]. apply H. apply HL. reflexivity.
Qed.

Ltac code_in := let E := fresh in intros E; rewrite E; rewrite ?in_app_iff; cbn; tauto.

Theorem obs_diff_codes_sound codes m i :
  List.filter (keep codes) (obs_diff_codes m i) = [] → obs_agree_on codes m i.
Proof.
  intros H. pose proof (filter_nil_all _ _ H) as Hall. clear H.
  destruct m as [|a|a|a|a], i as [|b|b|b|b]; cbn [obs_diff_codes obs_agree_on] in *;
    try exact I;
    try (exfalso; specialize (Hall 99 (or_introl eq_refl)); unfold keep in Hall; cbn in Hall;
         rewrite orb_true_r in Hall; discriminate).
  - intros Hin. destruct (res_class Z.eqb a b) eqn:E; [apply res_class_sound in E; auto with sound|].
    exfalso. apply (keep_false_notin codes 10); [apply Hall; left; reflexivity|exact Hin].
  - intros Hin. destruct (res_class Z.eqb a b) eqn:E; [apply res_class_sound in E; auto with sound|].
    exfalso. apply (keep_false_notin codes 11); [apply Hall; left; reflexivity|exact Hin].
  - intros Hin. destruct (res_class (eqb_list (eqb_pair N.eqb Z.eqb)) a b) eqn:E;
      [apply res_class_sound in E; auto with sound|].
    exfalso. apply (keep_false_notin codes 12); [apply Hall; left; reflexivity|exact Hin].
  - repeat split; intros Hin.
    + apply (component (eqb_list (eqb_pair N.eqb eqb_acct_view)) _ _ 1 _ codes ltac:(auto with sound) Hall); [code_in|exact Hin].
    + apply (component (eqb_list (eqb_pair N.eqb (eqb_opt eqb_del_view))) _ _ 2 _ codes ltac:(auto with sound) Hall); [code_in|exact Hin].
    + apply (component (eqb_list eqb_stake_view) _ _ 3 _ codes ltac:(auto with sound) Hall); [code_in|exact Hin].
    + apply (component (eqb_list (eqb_pair N.eqb (eqb_opt eqb_reward_view))) _ _ 4 _ codes ltac:(auto with sound) Hall); [code_in|exact Hin].
    + apply (component (eqb_list (eqb_pair N.eqb (eqb_opt eqb_prop_view))) _ _ 5 _ codes ltac:(auto with sound) Hall); [code_in|exact Hin].
    + apply (component eqb_params _ _ 6 _ codes ltac:(auto with sound) Hall); [code_in|exact Hin].
    + apply (component Z.eqb _ _ 7 _ codes ltac:(auto with sound) Hall); [code_in|exact Hin].
Qed.

Theorem first_diff_in_sound codes : ∀ m i n,
  first_diff_in codes n m i = None → Forall2 (obs_agree_on codes) m i.
Proof.
  induction m as [|x m IH]; intros [|y i] n H; cbn [first_diff_in] in H; try discriminate; [constructor|].
  change (λ d : Z, existsb (Z.eqb d) codes || (d =? 99)) with (keep codes) in H.
  destruct (List.filter (keep codes) (obs_diff_codes x y)) eqn:E; [|discriminate].
  constructor; [apply obs_diff_codes_sound; exact E|exact (IH _ _ H)].
Qed.

(* the verdict of a per-property check on one case: nothing reported means the model's observations
   agree with the implementation's on the property's projection *)
Theorem check_prop_sound codes P c :
  (check_prop codes P c).1.1 = None → Forall2 (obs_agree_on codes) (model_obs c) (c_obs c).
Proof. unfold check_prop. cbn. apply first_diff_in_sound. Qed.
