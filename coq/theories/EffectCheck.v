(* EffectCheck.v — the EVM "effect contract" as a decidable check.
   The interpreter is go-ethereum's; Spec.v receives what an EVM execution did to balances and
   nonces as an observed value ([t_evm]).  The EVM-path theorems (C02, C04, C16) assume that value
   obeys a contract: [evm_effect_fee_ok] (the touched accounts lose in total exactly gas used x
   price, plus what contract semantics destroy), [evm_effect_nonce_ok] (the sender's nonce + 1) and
   [evm_effect_mono_at] (a sender's nonce is never lowered).  Here the contract is a boolean
   function, proved to imply the hypotheses as the theorems state them, and the correspondence
   check evaluates it on every effect the real node exhibits. *)
From Rigo Require Import Base.
From stdpp Require Import gmap sorting.
From Rigo Require Import Spec SpecProps AppRun InvFail InvFee InvNonce.
Local Open Scope Z_scope.

Fixpoint nodupb (l : list N) : bool :=
  match l with [] => true | x :: r => negb (existsb (N.eqb x) r) && nodupb r end.

Lemma nodupb_sound l : nodupb l = true → NoDup l.
Proof.
  induction l as [|x l IH]; intros H; [constructor|]. cbn in H. apply andb_prop in H as [H1 H2].
  constructor; [|apply IH; exact H2].
  intros Hin. apply negb_true_iff in H1.
  assert (existsb (N.eqb x) l = true) as E.
  { apply existsb_exists. exists x. split; [apply elem_of_list_In; exact Hin|apply N.eqb_refl]. }
  congruence.
Qed.

Definition effect_fee_b (l : ledgers) (t : tx) (price : Z) (e : evm_effect) : bool :=
  nodupb ((λ x : addr * Z * Z, x.1.1) <$> e_accts e) &&
  ((0 <=? e_gas e) && (e_gas e <=? t_gas t)) &&
  forallb (λ x : addr * Z * Z, (0 <=? x.1.2) && (x.1.2 <? two256)) (e_accts e) &&
  (sumZ_with (λ x : addr * Z * Z, x.1.2 - bal_of l x.1.1) (e_accts e) + e_gas e * price <=? 0).

Lemma effect_fee_b_sound l t price e :
  effect_fee_b l t price e = true → ∃ burn, evm_effect_fee_ok l t price e burn.
Proof.
  unfold effect_fee_b. intros H.
  apply andb_prop in H as [H Hsum]. apply andb_prop in H as [H Hrange]. apply andb_prop in H as [Hnd Hgas].
  apply andb_prop in Hgas as [Hg1 Hg2].
  exists (- (sumZ_with (λ x : addr * Z * Z, x.1.2 - bal_of l x.1.1) (e_accts e) + e_gas e * price)).
  unfold evm_effect_fee_ok. repeat split.
  - apply nodupb_sound. exact Hnd.
  - lia.
  - lia.
  - rewrite forallb_forall in Hrange. apply elem_of_list_In in H. specialize (Hrange _ H). lia.
  - rewrite forallb_forall in Hrange. apply elem_of_list_In in H. specialize (Hrange _ H). lia.
  - lia.
  - lia.
Qed.

Definition effect_nonce_b (t : tx) : bool :=
  match t_evm t with
  | None => true
  | Some e => match eff_nonce (e_accts e) (t_from t) with
              | Some n => n =? (t_nonce t + 1) mod two64
              | None => false
              end
  end.

Lemma effect_nonce_b_sound t : effect_nonce_b t = true → evm_effect_nonce_ok t.
Proof.
  unfold effect_nonce_b, evm_effect_nonce_ok. intros H e He. rewrite He in H.
  destruct (eff_nonce (e_accts e) (t_from t)) as [n|]; [|discriminate].
  apply Z.eqb_eq in H. subst n. reflexivity.
Qed.

Definition effect_mono_at_b (a : addr) (s : state) (t : tx) : bool :=
  match t_evm t with
  | None => true
  | Some e => match eff_nonce (e_accts e) a with
              | Some n => nonce_of (work s) a <=? n
              | None => true
              end
  end.

Lemma effect_mono_at_b_sound a s t : effect_mono_at_b a s t = true → evm_effect_mono_at a s t.
Proof.
  unfold effect_mono_at_b, evm_effect_mono_at. intros H e n He Hn. rewrite He, Hn in H. lia.
Qed.

Definition is_ok {A} (r : res A) : bool := match r with Ok _ => true | _ => false end.

Definition effect_contract (senders : list addr) (s : state) (t : tx) : Prop :=
  evm_path s t = true → is_ok (deliver s t).2 = true →
  (∃ e burn, t_evm t = Some e ∧ evm_effect_fee_ok (work s) t (g_gasPrice (gparams s)) e burn) ∧
  evm_effect_nonce_ok t ∧
  ∀ a, a ∈ senders → evm_effect_mono_at a s t.

(* value that vanished: the part of the touched accounts' loss that gas does not explain.  The
   contract allows it (SELFDESTRUCT to the contract's own address destroys the balance); the
   histories of the correspondence check contain no such program and watch every address their
   programs can pay, so there it must be 0 — code 24, reported as lost value *)
Definition effect_burn (l : ledgers) (price : Z) (e : evm_effect) : Z :=
  - (sumZ_with (λ x : addr * Z * Z, x.1.2 - bal_of l x.1.1) (e_accts e) + e_gas e * price).

(* codes: 20 no effect observed, 21 value/fee contract, 22 sender nonce, 23 a sender's nonce lowered, 24 value vanished *)
Definition effect_codes (senders : list addr) (s : state) (t : tx) : list Z :=
  if evm_path s t && is_ok (deliver s t).2 then
    match t_evm t with
    | None => [20]
    | Some e =>
        (if effect_fee_b (work s) t (g_gasPrice (gparams s)) e then [] else [21]) ++
        (if effect_nonce_b t then [] else [22]) ++
        (if forallb (λ a, effect_mono_at_b a s t) senders then [] else [23]) ++
        (if effect_burn (work s) (g_gasPrice (gparams s)) e =? 0 then [] else [24])
    end
  else [].

Lemma effect_codes_sound senders s t : effect_codes senders s t = [] → effect_contract senders s t.
Proof.
  unfold effect_codes, effect_contract. intros H Hp Hok. rewrite Hp, Hok in H. cbn [andb] in H.
  destruct (t_evm t) as [e|] eqn:He; [|discriminate].
  destruct (effect_fee_b _ _ _ _) eqn:Ef; [|discriminate].
  destruct (effect_nonce_b t) eqn:En; [|discriminate].
  destruct (forallb _ senders) eqn:Em; [|discriminate].
  clear H.
  split; [|split].
  - destruct (effect_fee_b_sound _ _ _ _ Ef) as [burn Hb]. exists e, burn. split; [reflexivity|exact Hb].
  - apply effect_nonce_b_sound. exact En.
  - intros a Ha. rewrite forallb_forall in Em. apply effect_mono_at_b_sound. apply Em.
    apply elem_of_list_In. exact Ha.
Qed.

Definition astate (s : state) (o : aop) : state :=
  match o with
  | AInit g => init_chain g
  | ABegin h => (begin_block s h).1
  | ADeliver t => (deliver s t).1
  | AEnd => (end_block s).1
  | ACommit => commit s
  end.

Fixpoint effects_hold (senders : list addr) (s : state) (ops : list aop) : Prop :=
  match ops with
  | [] => True
  | o :: r => match o with ADeliver t => effect_contract senders s t | _ => True end ∧
              effects_hold senders (astate s o) r
  end.

Fixpoint check_effects_from (senders : list addr) (s : state) (i : nat) (ops : list aop) : list (nat * Z) :=
  match ops with
  | [] => []
  | o :: r =>
      (match o with ADeliver t => (λ c, (i, c)) <$> effect_codes senders s t | _ => [] end) ++
      check_effects_from senders (astate s o) (S i) r
  end.

Definition senders_of (ops : list aop) : list addr :=
  omap (λ o, match o with ADeliver t => Some (t_from t) | _ => None end) ops.

Definition check_effects (c : acase) : list (nat * Z) :=
  check_effects_from (senders_of (c_ops c)) state0 0 (c_ops c).

Theorem check_effects_from_sound senders : ∀ ops s i,
  check_effects_from senders s i ops = [] → effects_hold senders s ops.
Proof.
  induction ops as [|o ops IH]; intros s i H; [exact I|]. cbn [check_effects_from effects_hold] in *.
  apply app_eq_nil in H as [H1 H2]. split; [|exact (IH _ _ H2)].
  destruct o as [g|h|t| |]; try exact I.
  apply effect_codes_sound. destruct (effect_codes senders s t); [reflexivity|discriminate].
Qed.

(* the verdict on a case: every EVM effect the node exhibited in this history satisfies the
   hypotheses under which the EVM-path theorems are stated *)
Theorem check_effects_sound c :
  check_effects c = [] → effects_hold (senders_of (c_ops c)) state0 (c_ops c).
Proof. apply check_effects_from_sound. Qed.

(* per case list for the generated files: (case index, [(position, code)]) for the failing ones *)
Fixpoint check_effects_cases_from (i : nat) (cs : list acase) : list (nat * list (nat * Z)) :=
  match cs with
  | [] => []
  | c :: r => match check_effects c with
              | [] => check_effects_cases_from (S i) r
              | bad => (i, bad) :: check_effects_cases_from (S i) r
              end
  end.
Definition check_effects_cases := check_effects_cases_from 0.

(* how many successful EVM-path deliveries a case contains (coverage) *)
Fixpoint count_effects_from (s : state) (ops : list aop) : Z :=
  match ops with
  | [] => 0
  | o :: r => (match o with ADeliver t => if evm_path s t && is_ok (deliver s t).2 then 1 else 0 | _ => 0 end) +
              count_effects_from (astate s o) r
  end.
Definition count_effects (cs : list acase) : Z := sumZ_with (λ c, count_effects_from state0 (c_ops c)) cs.
