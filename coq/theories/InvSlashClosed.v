(* InvSlashClosed.v — property C14 (slashing for misbehaviour evidence, downtime jailing) stated over
   WHOLE RUNS with hypotheses on the INPUTS only.

   Props/C14.v states the property per step, with hypotheses about the state the step starts from
   (distinct stake hashes inside a delegatee, slash ratio in 0..100, strictly increasing miss marks,
   non-negative window parameter, non-negative stake powers, voter powers in the int64 range).  Here
   every one of them is discharged from the reachability theorems of InvReach / InvClosed / InvStake /
   InvSlash, so that the statements quantify over a genesis document [g], a list of operations [pre]
   and the header [hd] of the next BeginBlock, and assume only

     genesis_ok g, hashes_fresh pre, opts_ok pre, blocks Idle 0 (pre ++ [SBegin hd])

   plus, for the jailing theorem, two conditions on the header: the reported non-signers are pairwise
   distinct, and votes are carried only from height 2 on.  Neither the supply bound, nor [txs_ok]
   (so successful EVM executions are allowed), nor any hypothesis on intermediate states is needed:
     C14_run_slash_exact       every stake of a named validator cut once per evidence item
     C14_run_others_untouched  the frame
     C14_run_jail_iff          a delegatee leaves iff non-signer with too few signed blocks; unbonding ledger
     C14_run_voters            voting weights in open proposals (voter powers are int64 in every state:
                               [vp_inv_run_open], from the overflow check of staking, [totals_run])
   [C14_closed_*] restate them under the hypotheses of the closed-run theorems of InvReach / InvClosed
   (genesis_ok, InvPanic.bracketed, hashes_fresh, txs_ok, supply + requested < supply_bound).

   [blocks] is the bracketing Begin Deliver* End Commit with consecutive heights and nothing else: it
   is what makes "the height of the header is the next one" a statement about the list.
   C14_run_example: the hypotheses are satisfiable and the conclusions are the computed values.
   C14_jailed_same_block_set_refuted: "leaves the validator set" is not immediate. *)
From Coq Require Import ZifyBool ZifyNat ZifyN.
From Rigo Require Import Base.
From stdpp Require Import gmap sorting.
From Rigo Require Import Spec SpecProps.
From Rigo Require SpecFacts InvFail InvNonce InvReward InvGov InvPanic InvValSet.
From Rigo Require Import InvStake InvFee InvSupply InvReach InvClosed InvSlash.
Local Open Scope Z_scope.

Local Opaque two256 two255 two64 two63.

(* ================================================================== 0. the height of the next block, from the list *)
(* Begin, Deliver*, End, Commit; block n+1 follows block n.  Nothing is asked of the transactions
   or of the headers beyond their height (InvPanic.bracketed asks more and implies this). *)
Fixpoint blocks (ph : InvPanic.phase) (n : Z) (ops : list sop) : Prop :=
  match ops with
  | [] => True
  | o :: r =>
      match ph, o with
      | InvPanic.Idle, SBegin hd => h_height hd = n + 1 ∧ blocks InvPanic.InBlock n r
      | InvPanic.InBlock, SDeliver _ => blocks InvPanic.InBlock n r
      | InvPanic.InBlock, SEnd => blocks InvPanic.Ended n r
      | InvPanic.Ended, SCommit => blocks InvPanic.Idle (n + 1) r
      | _, _ => False
      end
  end.

Lemma bracketed_blocks ops : ∀ ph n, InvPanic.bracketed ph n ops → blocks ph n ops.
Proof.
  induction ops as [|o r IH]; intros ph n H; [exact I|].
  destruct ph, o as [hd|t| |]; cbn [InvPanic.bracketed blocks] in *; try contradiction.
  - destruct H as (H1 & _ & H2). split; [exact H1|apply IH; exact H2].
  - destruct H as (_ & H2). apply IH; exact H2.
  - apply IH; exact H.
  - apply IH; exact H.
Qed.

Lemma blocks_prefix l k : ∀ ph n, blocks ph n (l ++ k) → blocks ph n l.
Proof.
  induction l as [|o r IH]; intros ph n H; [exact I|].
  destruct ph, o as [hd|t| |]; cbn [app blocks] in *; try contradiction.
  - destruct H as (H1 & H2). split; [exact H1|eapply IH; exact H2].
  - eapply IH; exact H.
  - eapply IH; exact H.
  - eapply IH; exact H.
Qed.

(* what the bracketing keeps about the two heights of the state *)
Definition hinv (ph : InvPanic.phase) (n : Z) (s : state) : Prop :=
  last_height s = n ∧ (ph ≠ InvPanic.Idle → b_height (bctx s) = n + 1).

Lemma blocks_next_height ops : ∀ ph n s hd,
  hinv ph n s → blocks ph n (ops ++ [SBegin hd]) → h_height hd = last_height (srun s ops) + 1.
Proof.
  induction ops as [|o r IH]; intros ph n s hd [Hl Hb] H.
  - destruct ph; cbn [app blocks] in H; try contradiction. destruct H as [H _]. cbn. lia.
  - change (srun s (o :: r)) with (srun (sstep s o) r).
    destruct ph, o as [hd0|t| |]; cbn [app blocks] in H; try contradiction; cbn [sstep].
    + destruct H as (Hh & H). apply (IH InvPanic.InBlock n); [|exact H].
      destruct (begin_block s hd0) as [s' r0] eqn:E. cbn [fst].
      apply SpecFacts.begin_block_cases in E. destruct E as [Hne|_ _|l i _ _ _|e _ _ _|p _ _ _]; [lia|..];
        (split; [exact Hl|]); intros _; cbn; lia.
    + apply (IH InvPanic.InBlock n); [|exact H].
      destruct (deliver s t) as [s' r0] eqn:E. cbn [fst].
      destruct (InvFail.deliver_control _ _ _ _ E) as (l & x & fee & n0 & ->).
      split; [exact Hl|]. intros _. apply Hb. discriminate.
    + apply (IH InvPanic.Ended n); [|exact H].
      destruct (end_block s) as [s' r0] eqn:E. cbn [fst].
      apply SpecFacts.end_block_cases in E. destruct E as [r0 _|l1 l2 np l3 l4 _ _ _ _ _];
        (split; [exact Hl|]); intros _; apply Hb; discriminate.
    + apply (IH InvPanic.Idle (n + 1)); [|exact H].
      split; [|intros C; contradiction]. cbn. apply Hb. discriminate.
Qed.

Lemma init_chain_hinv g : hinv InvPanic.Idle 0 (init_chain g).
Proof. split; [reflexivity|intros C; contradiction]. Qed.

Lemma blocks_height g pre hd :
  blocks InvPanic.Idle 0 (pre ++ [SBegin hd]) → h_height hd = last_height (srun (init_chain g) pre) + 1.
Proof. apply blocks_next_height, init_chain_hinv. Qed.

Lemma blocks_height_pos pre hd : blocks InvPanic.Idle 0 (pre ++ [SBegin hd]) → 1 ≤ h_height hd.
Proof.
  intros H.
  assert (G : ∀ ops ph n, 0 ≤ n → blocks ph n (ops ++ [SBegin hd]) → 1 ≤ h_height hd).
  { induction ops as [|o r IH]; intros ph n Hn Hb.
    - destruct ph; cbn [app blocks] in Hb; try contradiction. lia.
    - destruct ph, o as [hd0|t| |]; cbn [app blocks] in Hb; try contradiction.
      + destruct Hb as [_ Hb]. eapply IH; [|exact Hb]. lia.
      + eapply IH; [|exact Hb]. lia.
      + eapply IH; [|exact Hb]. lia.
      + eapply IH; [|exact Hb]. lia. }
  apply (G pre InvPanic.Idle 0); [lia|exact H].
Qed.

(* as many ledger versions have been committed as blocks were completed *)
Lemma blocks_committed ops : ∀ ph n s hd,
  Z.of_nat (length (committed s)) = n → blocks ph n (ops ++ [SBegin hd]) →
  Z.of_nat (length (committed (srun s ops))) = h_height hd - 1.
Proof.
  induction ops as [|o r IH]; intros ph n s hd Hc H.
  - destruct ph; cbn [app blocks] in H; try contradiction. destruct H as [H _]. cbn. lia.
  - change (srun s (o :: r)) with (srun (sstep s o) r).
    destruct ph, o as [hd0|t| |]; cbn [app blocks] in H; try contradiction; cbn [sstep].
    + destruct H as (_ & H). apply (IH InvPanic.InBlock n); [|exact H].
      destruct (begin_block s hd0) as [s' r0] eqn:E. cbn [fst].
      destruct (SpecFacts.begin_block_control _ _ _ _ E) as [->|(_ & l & ->)]; exact Hc.
    + apply (IH InvPanic.InBlock n); [|exact H].
      destruct (deliver s t) as [s' r0] eqn:E. cbn [fst].
      destruct (InvFail.deliver_control _ _ _ _ E) as (l & x & fee & n0 & ->). exact Hc.
    + apply (IH InvPanic.Ended n); [|exact H].
      destruct (end_block s) as [s' r0] eqn:E. cbn [fst].
      apply SpecFacts.end_block_cases in E. destruct E as [r0 _|l1 l2 np l3 l4 _ _ _ _ _]; exact Hc.
    + apply (IH InvPanic.Idle (n + 1)); [|exact H]. cbn [commit committed]. rewrite app_length. cbn. lia.
Qed.

(* BeginBlock answers Ok in every state of every bracketed run when its header carries votes only
   from height 2 on (consensus has no LastCommitInfo at height 1): the height is the next one, the
   ledger version the voting power refers to has been committed, and the reward-height panic is
   unreachable (InvReward.begin_block_total).  No hypothesis on genesis or transactions. *)
Lemma blocks_begin_ok g pre hd :
  blocks InvPanic.Idle 0 (pre ++ [SBegin hd]) → (h_votes hd = [] ∨ 2 ≤ h_height hd) →
  ∃ iss, (begin_block (srun (init_chain g) pre) hd).2 = Ok iss.
Proof.
  intros Hb Hv. set (s := srun (init_chain g) pre).
  pose proof (blocks_height g pre hd Hb) as Hh. fold s in Hh.
  pose proof (blocks_committed pre InvPanic.Idle 0 (init_chain g) hd eq_refl Hb) as Hc. fold s in Hc.
  apply InvReward.begin_block_total; [apply InvReward.rewards_height_ok_run|exact Hh|].
  destruct Hv as [Hv|Hv]; [left; exact Hv|right].
  unfold ledgers_at, hgt_of_power.
  destruct (h_height hd - 4 <=? 0) eqn:E4.
  - destruct (Z.of_nat (length (committed s)) <? 1) eqn:E1; [lia|]. cbn.
    destruct (committed s) as [|x c]; [cbn in Hc; lia|]. discriminate.
  - destruct (Z.of_nat (length (committed s)) <? h_height hd - 4) eqn:E1; [lia|].
    destruct (h_height hd - 4 <=? 0) eqn:E0; [lia|].
    intros Hn. apply lookup_ge_None in Hn. lia.
Qed.

(* ================================================================== 1. what holds in every reachable state *)
(* the per-step hypotheses of Props/C14.v, from hypotheses on genesis and list *)
Lemma reach_A g pre :
  genesis_ok g → hashes_fresh pre → opts_ok pre →
  let s := srun (init_chain g) pre in
  hu_pt (work s) ∧ dels_ok (work s) ∧ powers_ok (work s) ∧ params_ok (gparams s) ∧ marks_incr (work s).
Proof.
  intros Hg Hh Ho s.
  destruct (run_ok_reachable g pre Hg (fresh_run_reachable g pre Hh) Ho pre (reflexivity _)) as (Hu & _ & Hp & Hpar).
  split; [apply hashes_unique_pt; exact Hu|]. split; [apply (dels_ok_reachable g pre)|].
  split; [exact Hp|]. split; [exact Hpar|apply marks_incr_run].
Qed.

Lemma powers_ok_delegatee l a d :
  powers_ok l → dels l !! a = Some d → Forall (λ st, 0 ≤ s_power st < two63) (d_stakes d).
Proof.
  intros Hp Hd. apply Forall_forall. intros st Hst. apply Hp, elem_of_app. left.
  apply InvStake.elem_of_bonded. eauto.
Qed.

(* ================================================================== 2. n evidence items against one delegatee *)
(* the delegatee [d] stored under [a] after [n] evidence items: each item passes the stake list
   through [slash_kept] (every stake loses floor(power*ratio/100); a stake that would lose less than
   1 is forfeited), self and total power are the sums over what is left, the miss marks stay *)
Definition slashed_n (ratio : Z) (n : nat) (a : addr) (d : delegatee) : delegatee :=
  let kept := Nat.iter n (slash_kept ratio) (d_stakes d) in
  {| d_addr := a; d_self := sum_power_of a kept; d_total := sum_power kept; d_stakes := kept; d_marks := d_marks d |}.

Lemma slash_kept_iter_ok ratio n l :
  0 ≤ ratio ≤ 100 → Forall (λ st, 0 ≤ s_power st < two63) l → NoDup (s_hash <$> l) →
  Forall (λ st, 0 ≤ s_power st < two63) (Nat.iter n (slash_kept ratio) l) ∧
  NoDup (s_hash <$> Nat.iter n (slash_kept ratio) l).
Proof.
  intros Hr Hp Hn. induction n as [|n [IH1 IH2]]; [split; assumption|]. cbn [Nat.iter].
  split; [apply slash_kept_powers; assumption|apply slash_kept_NoDup; assumption].
Qed.

Lemma slash_kept_iter_hash ratio n l st :
  st ∈ Nat.iter n (slash_kept ratio) l → ∃ st0, st0 ∈ l ∧ s_hash st0 = s_hash st.
Proof.
  revert st. induction n as [|n IH]; intros st Hst; [eauto|]. cbn [Nat.iter] in Hst.
  apply elem_of_list_In, slash_kept_elem in Hst as (st1 & H1 & _ & ->).
  apply elem_of_list_In, IH in H1 as (st0 & H0 & E). exists st0. split; [exact H0|]. rewrite E. reflexivity.
Qed.

Lemma slashed_n_0 ratio a d : delegatee_ok a d → slashed_n ratio 0 a d = d.
Proof.
  intros (Ha & Ht & Hs & _). destruct d as [da ds dt dst dm]. cbn in *. subst. reflexivity.
Qed.

Lemma slash1_iter ratio n a d :
  0 ≤ ratio ≤ 100 → delegatee_ok a d → Forall (λ st, 0 ≤ s_power st < two63) (d_stakes d) →
  NoDup (s_hash <$> d_stakes d) →
  Nat.iter n (slash1 ratio) d = slashed_n ratio n a d.
Proof.
  intros Hr Hok Hp Hn. induction n as [|n IH]; [symmetry; apply slashed_n_0; exact Hok|].
  rewrite Nat.iter_succ, IH. unfold slash1.
  destruct (slash_kept_iter_ok ratio n (d_stakes d) Hr Hp Hn) as [K1 K2].
  rewrite slash_all_spec; [reflexivity|lia| |exact K2].
  cbn [slashed_n d_stakes]. eapply Forall_impl; [exact K1|]. intros st Hst. cbn in Hst. lia.
Qed.

(* the ledgers BeginBlock hands to the vote loop: proposals punished, then stakes punished *)
Definition punished (s : state) (hd : header) : ledgers :=
  stake_punish (gov_punish (work s) (g_slashRatio (gparams s)) (h_evidence hd)) (g_slashRatio (gparams s)) (h_evidence hd).

Definition after_evidence (s : state) (hd : header) (a : addr) (d : delegatee) : delegatee :=
  slashed_n (g_slashRatio (gparams s)) (times a (h_evidence hd)) a d.

Lemma punished_dels s hd a :
  0 ≤ g_slashRatio (gparams s) ≤ 100 → hu_pt (work s) → dels_ok (work s) → powers_ok (work s) →
  dels (punished s hd) !! a = after_evidence s hd a <$> dels (work s) !! a.
Proof.
  intros Hr (U1 & _) Hok Hp. unfold punished.
  destruct (stake_punish_spec (gov_punish (work s) (g_slashRatio (gparams s)) (h_evidence hd))
              (g_slashRatio (gparams s)) (h_evidence hd)) as (H & _).
  rewrite H. destruct (gov_punish_spec (work s) (g_slashRatio (gparams s)) (h_evidence hd)) as (_ & _ & -> & _).
  destruct (dels (work s) !! a) as [d|] eqn:Ed; [|reflexivity]. cbn [fmap option_fmap option_map]. f_equal.
  apply slash1_iter; [exact Hr|apply (Hok a d Ed)|eapply powers_ok_delegatee; eassumption|apply (U1 a d Ed)].
Qed.

Lemma punished_frame s hd :
  accts (punished s hd) = accts (work s) ∧ frozen (punished s hd) = frozen (work s) ∧
  rewards (punished s hd) = rewards (work s) ∧ fprops (punished s hd) = fprops (work s) ∧
  lparams (punished s hd) = lparams (work s) ∧
  props (punished s hd) = punish_props (g_slashRatio (gparams s)) (props (work s)) (h_evidence hd).
Proof. unfold punished. rewrite stake_punish_eq, gov_punish_eq. cbn. repeat split. Qed.

Definition nonsigners (votes : list (addr * Z * bool)) : list addr :=
  (λ v : addr * Z * bool, v.1.1) <$> List.filter (λ v : addr * Z * bool, negb v.2) votes.

Lemma elem_of_nonsigners a votes : a ∈ nonsigners votes ↔ ∃ pw, (a, pw, false) ∈ votes.
Proof.
  unfold nonsigners. rewrite elem_of_list_fmap. split.
  - intros ([[b pw] sg] & -> & Hin). apply elem_of_list_In, filter_In in Hin as [Hin Hs]. cbn in Hs.
    destruct sg; [discriminate|]. exists pw. apply elem_of_list_In. exact Hin.
  - intros (pw & Hin). exists (a, pw, false). split; [reflexivity|].
    apply elem_of_list_In, filter_In. split; [apply elem_of_list_In; exact Hin|reflexivity].
Qed.

Lemma jail_votes_nonsigners g h votes : ∀ l, jail_votes g h l votes = foldl (λ l a, jail_step g h l a) l (nonsigners votes).
Proof.
  unfold jail_votes, nonsigners. induction votes as [|[[a pw] sg] votes IH]; intros l; [reflexivity|].
  destruct sg; cbn; apply IH.
Qed.

(* ------------------------------------------------------------------ the vote loop never adds a delegatee, and changes only marks *)
Definition same_but_marks (d d' : delegatee) : Prop :=
  d_addr d' = d_addr d ∧ d_self d' = d_self d ∧ d_total d' = d_total d ∧ d_stakes d' = d_stakes d.

Lemma jail_step_marks_only g h l b a d1 :
  dels (jail_step g h l b) !! a = Some d1 → ∃ d0, dels l !! a = Some d0 ∧ same_but_marks d0 d1.
Proof.
  unfold jail_step. destruct (dels l !! b) as [d|] eqn:Ed.
  2:{ intros H. exists d1. split; [exact H|repeat split]. }
  cbv zeta. destruct (count_in_window _ _ _) as [cnt m2].
  destruct (_ <? g_minSignedBlocks g); cbn [dels set_dels set_frozen]; intros H.
  - apply lookup_delete_Some in H as [_ H]. exists d1. split; [exact H|repeat split].
  - apply lookup_insert_Some in H as [[<- <-]|[_ H]].
    + exists d. split; [exact Ed|repeat split].
    + exists d1. split; [exact H|repeat split].
Qed.

Lemma jail_fold_marks_only g h L : ∀ l a d',
  dels (foldl (λ l a, jail_step g h l a) l L) !! a = Some d' → ∃ d0, dels l !! a = Some d0 ∧ same_but_marks d0 d'.
Proof.
  induction L as [|b L IH]; intros l a d' H; cbn [foldl] in H.
  - exists d'. split; [exact H|repeat split].
  - apply IH in H as (d1 & H1 & (A1 & A2 & A3 & A4)).
    apply jail_step_marks_only in H1 as (d0 & H0 & (B1 & B2 & B3 & B4)).
    exists d0. split; [exact H0|]. repeat split; congruence.
Qed.

Lemma vote_fold_unsigned g old h votes : ∀ l i,
  Forall (λ v : addr * Z * bool, v.2 = false) votes →
  foldl (SpecFacts.vote_step g old h) (Ok (l, i)) votes = Ok (jail_votes g h l votes, i).
Proof.
  induction votes as [|[[a pw] sg] votes IH]; intros l i H; [reflexivity|].
  apply Forall_cons in H as [Hs H]. cbn in Hs. subst sg. cbn [foldl].
  rewrite vote_step_unsigned. rewrite IH by exact H. reflexivity.
Qed.

(* ------------------------------------------------------------------ BeginBlock with the next height, in terms of [punished] *)
Lemma begin_block_cases s hd :
  h_height hd = last_height s + 1 →
  let s' := (begin_block s hd).1 in
  committed s' = committed s ∧ gparams s' = gparams s ∧ newparams s' = newparams s ∧
  lastvals s' = lastvals s ∧ last_height s' = last_height s ∧
  bctx s' = {| b_height := h_height hd; b_proposer := h_proposer hd; b_feesum := 0; b_txs := 0 |} ∧
  accts (work s') = accts (work s) ∧ fprops (work s') = fprops (work s) ∧ lparams (work s') = lparams (work s) ∧
  props (work s') = punish_props (g_slashRatio (gparams s)) (props (work s)) (h_evidence hd) ∧
  match (begin_block s hd).2 with
  | Ok _ => dels (work s') = dels (jail_votes (gparams s) (h_height hd) (punished s hd) (h_votes hd)) ∧
            frozen (work s') = frozen (jail_votes (gparams s) (h_height hd) (punished s hd) (h_votes hd))
  | _ => dels (work s') = dels (punished s hd) ∧ frozen (work s') = frozen (work s) ∧
         rewards (work s') = rewards (work s)
  end.
Proof.
  intros Hh. destruct (begin_block s hd) as [s' r] eqn:E. cbn [fst snd].
  destruct (begin_block_frame _ _ _ _ E) as [_ H]. specialize (H Hh).
  destruct H as (A1 & A2 & A3 & A4 & A5 & A6 & A7 & A8 & A9 & A10 & _ & A12 & A13).
  repeat (split; [assumption|]). unfold punished.
  destruct r as [i|e|p]; [exact A13| |]; destruct A13 as (B1 & B2 & B3); (split; [exact B1|split; [congruence|exact B3]]).
Qed.

Lemma begin_block_rewards_unsigned s hd :
  h_height hd = last_height s + 1 → Forall (λ v : addr * Z * bool, v.2 = false) (h_votes hd) →
  rewards (work (begin_block s hd).1) = rewards (work s).
Proof.
  intros Hh Hv. pose proof (begin_block_cases s hd Hh) as C. cbv zeta in C.
  destruct (begin_block s hd) as [s' r] eqn:E. cbn [fst snd] in *.
  destruct C as (_ & _ & _ & _ & _ & _ & _ & _ & _ & _ & C).
  destruct r as [i|e|p]; [|apply C|apply C].
  destruct (punished_frame s hd) as (_ & _ & R & _).
  destruct (InvReward.begin_block_ok_inv _ _ _ _ E) as (_ & _ & _ & _ & _ & [(_ & W & _)|(_ & s1 & _ & G & P)]).
  - rewrite W. exact R.
  - fold (punished s hd) in P. rewrite SpecFacts.process_votes_eq in P.
    destruct (ledgers_at s1 (hgt_of_power (h_height hd))) as [old|]; [|discriminate].
    rewrite vote_fold_unsigned in P by exact Hv. injection P as <- _.
    destruct (jail_votes_frame (gparams s1) (h_height hd) (h_votes hd) (punished s hd)) as (_ & J & _).
    rewrite J. exact R.
Qed.

(* ================================================================== 3. C14, evidence: exact effect on the stakes *)
(* For each piece of evidence in a block, every stake bonded to the named validator loses the
   governance slash percentage of its power, rounded down; a stake too small to be reduced is
   forfeited; repeated evidence cuts repeatedly; unknown addresses change nothing.
   In every state [s] reachable by a list [pre], for the BeginBlock that continues the list:
   - the slash percentage in force is between 0 and 100;
   - after the punishment phase (the ledgers the vote loop starts from) the entry of EVERY address [a]
     is its old entry with the stake list passed [times a evi] times through [slash_kept], self and
     total power recomputed as sums over the remaining stakes, miss marks untouched;
   - the same is true of the state BeginBlock leaves behind for every delegatee that is not
     reported as a non-signer (those are the subject of C14_run_jail_iff), whatever BeginBlock answers;
   - no delegatee is created. *)
Theorem C14_run_slash_exact g pre hd :
  genesis_ok g → hashes_fresh pre → opts_ok pre → blocks InvPanic.Idle 0 (pre ++ [SBegin hd]) →
  let s := srun (init_chain g) pre in
  let s' := sstep s (SBegin hd) in
  let ratio := g_slashRatio (gparams s) in
  let evi := h_evidence hd in
  0 ≤ ratio ≤ 100 ∧
  (∀ a, dels (punished s hd) !! a = slashed_n ratio (times a evi) a <$> dels (work s) !! a) ∧
  (∀ a d, dels (work s) !! a = Some d → a ∉ nonsigners (h_votes hd) →
     dels (work s') !! a = Some (slashed_n ratio (times a evi) a d)) ∧
  (∀ a, dels (work s) !! a = None → dels (work s') !! a = None).
Proof.
  intros Hg Hh Ho Hb s s' ratio evi.
  destruct (reach_A g pre Hg Hh Ho) as (Hu & Hok & Hp & Hpar & _). fold s in Hu, Hok, Hp, Hpar.
  pose proof (params_ok_slash _ Hpar) as Hr. fold ratio in Hr.
  pose proof (blocks_height g pre hd Hb) as Hhd. fold s in Hhd.
  pose proof (λ a, punished_dels s hd a Hr Hu Hok Hp) as HP.
  split; [exact Hr|]. split; [exact HP|].
  pose proof (begin_block_cases s hd Hhd) as C. cbv zeta in C.
  destruct C as (_ & _ & _ & _ & _ & _ & _ & _ & _ & _ & C). subst s'. cbn [sstep].
  assert (HD : ∀ a, a ∉ nonsigners (h_votes hd) ∨ dels (punished s hd) !! a = None →
               dels (work (begin_block s hd).1) !! a = dels (punished s hd) !! a).
  { intros a Ha. destruct ((begin_block s hd).2) as [i|e|p]; [|destruct C as [-> _]; reflexivity..].
    destruct C as [-> _]. destruct Ha as [Ha|Ha].
    - destruct (jail_votes_frame (gparams s) (h_height hd) (h_votes hd) (punished s hd)) as (_ & _ & _ & _ & _ & F).
      apply F. intros pw Hin. apply Ha, elem_of_nonsigners. eauto.
    - rewrite Ha, jail_votes_nonsigners.
      destruct (dels (foldl _ (punished s hd) (nonsigners (h_votes hd))) !! a) as [d'|] eqn:E; [|reflexivity].
      apply jail_fold_marks_only in E as (d0 & E0 & _). congruence. }
  split.
  - intros a d Hd Ha. rewrite HD by (left; exact Ha). rewrite HP, Hd. reflexivity.
  - intros a Hd. rewrite HD; rewrite HP, Hd; [reflexivity|right; reflexivity].
Qed.
Print Assumptions C14_run_slash_exact.

(* one evidence item, spelled out stake by stake: a stake of the named validator with
   floor(power*ratio/100) >= 1 keeps its owner, target, hash, start and refund height and has
   power - floor(power*ratio/100); the others are gone; the order is kept *)
Corollary C14_run_slash_once g pre hd a d :
  genesis_ok g → hashes_fresh pre → opts_ok pre → blocks InvPanic.Idle 0 (pre ++ [SBegin hd]) →
  let s := srun (init_chain g) pre in
  let ratio := g_slashRatio (gparams s) in
  dels (work s) !! a = Some d → times a (h_evidence hd) = 1%nat →
  ∃ d', dels (punished s hd) !! a = Some d' ∧ d_addr d' = a ∧ d_marks d' = d_marks d ∧
        d_stakes d' = slash_kept ratio (d_stakes d) ∧
        d_total d' = sum_power (d_stakes d') ∧ d_self d' = sum_power_of a (d_stakes d') ∧
        (∀ st', st' ∈ d_stakes d' ↔
           ∃ st, st ∈ d_stakes d ∧ 1 ≤ s_power st * ratio / 100 ∧
                 st' = with_power (s_power st - s_power st * ratio / 100) st) ∧
        (∀ st, st ∈ d_stakes d → s_power st * ratio / 100 < 1 → s_hash st ∉ s_hash <$> d_stakes d') ∧
        sublist (s_hash <$> d_stakes d') (s_hash <$> d_stakes d).
Proof.
  intros Hg Hh Ho Hb s ratio Hd Ht.
  destruct (C14_run_slash_exact g pre hd Hg Hh Ho Hb) as (_ & HP & _). cbv zeta in HP. fold s ratio in HP.
  destruct (reach_A g pre Hg Hh Ho) as ((U1 & _) & _). fold s in U1.
  eexists. split; [rewrite HP, Hd, Ht; reflexivity|]. cbn.
  repeat split.
  - intros Hin. apply elem_of_list_In, slash_kept_elem in Hin as (st & H1 & H2 & ->).
    exists st. split; [apply elem_of_list_In; exact H1|]. split; [exact H2|reflexivity].
  - intros (st & H1 & H2 & ->). apply elem_of_list_In, slash_kept_elem. exists st.
    split; [apply elem_of_list_In; exact H1|]. split; [exact H2|reflexivity].
  - intros st Hst Hc Hin. apply elem_of_list_In in Hin.
    eapply (slash_kept_forfeited ratio (d_stakes d) st); [apply (U1 a d Hd)|apply elem_of_list_In; exact Hst|exact Hc|exact Hin].
  - apply slash_kept_order.
Qed.
Print Assumptions C14_run_slash_once.

Lemma times_notin a evi : a ∉ evi → times a evi = 0%nat.
Proof.
  intros Ha. unfold times. induction evi as [|b evi IH]; [reflexivity|]. cbn.
  apply not_elem_of_cons in Ha as [Hne Ha]. destruct (b =? a)%N eqn:E; [apply N.eqb_eq in E; congruence|]. apply IH, Ha.
Qed.

(* ================================================================== 4. C14, frame: nothing else changes *)
(* ... while no other validator, stake or account changes.  In every reachable state, for the
   BeginBlock that continues the list, whatever it answers:
   - a delegatee that is neither named by the evidence nor reported as a non-signer keeps its entry
     (and no entry appears for an address that had none);
   - a delegatee that is not named keeps address, self power, total power and stake list as long as it
     has an entry: only its miss marks may differ;
   - accounts, frozen proposals, the parameter ledger, the committed versions, the active and the
     pending parameters, the validator set and the last height are unchanged;
   - an open proposal in which no named address is a voter is unchanged, and no proposal appears;
   - the unbonding ledger is unchanged when no vote is marked "did not sign" (otherwise see C14_run_jail_iff);
   - the reward ledger is unchanged when no vote is marked "signed" (otherwise see C13). *)
Theorem C14_run_others_untouched g pre hd :
  genesis_ok g → hashes_fresh pre → opts_ok pre → blocks InvPanic.Idle 0 (pre ++ [SBegin hd]) →
  let s := srun (init_chain g) pre in
  let s' := sstep s (SBegin hd) in
  let evi := h_evidence hd in
  (∀ a, a ∉ evi → a ∉ nonsigners (h_votes hd) → dels (work s') !! a = dels (work s) !! a) ∧
  (∀ a d d', a ∉ evi → dels (work s) !! a = Some d → dels (work s') !! a = Some d' → same_but_marks d d') ∧
  accts (work s') = accts (work s) ∧ fprops (work s') = fprops (work s) ∧ lparams (work s') = lparams (work s) ∧
  committed s' = committed s ∧ gparams s' = gparams s ∧ newparams s' = newparams s ∧
  lastvals s' = lastvals s ∧ last_height s' = last_height s ∧
  (∀ k p, props (work s) !! k = Some p → (∀ a, a ∈ evi → p_voters p !! a = None) → props (work s') !! k = Some p) ∧
  (∀ k, props (work s) !! k = None → props (work s') !! k = None) ∧
  (nonsigners (h_votes hd) = [] → frozen (work s') = frozen (work s)) ∧
  (Forall (λ v : addr * Z * bool, v.2 = false) (h_votes hd) → rewards (work s') = rewards (work s)).
Proof.
  intros Hg Hh Ho Hb s s' evi.
  destruct (reach_A g pre Hg Hh Ho) as (Hu & Hok & Hp & Hpar & _). fold s in Hu, Hok, Hp, Hpar.
  pose proof (params_ok_slash _ Hpar) as Hr.
  pose proof (blocks_height g pre hd Hb) as Hhd. fold s in Hhd.
  destruct (C14_run_slash_exact g pre hd Hg Hh Ho Hb) as (_ & HP & HS & HN). cbv zeta in HP, HS, HN. fold s in HP, HS, HN.
  subst s'. cbn [sstep] in *.
  subst evi. pose proof (λ a, times_notin a (h_evidence hd)) as T0.
  pose proof (begin_block_cases s hd Hhd) as C. cbv zeta in C.
  destruct C as (C1 & C2 & C3 & C4 & C5 & _ & C7 & C8 & C9 & C10 & C).
  split.
  { intros a Ha Hns. destruct (dels (work s) !! a) as [d|] eqn:Ed.
    - rewrite (HS a d Ed Hns), (T0 a Ha), slashed_n_0; [reflexivity|apply (Hok a d Ed)].
    - apply HN, Ed. }
  split.
  { intros a d d' Ha Hd Hd'.
    assert (H2 : dels (punished s hd) !! a = Some d).
    { rewrite HP, Hd, (T0 a Ha). cbn. rewrite slashed_n_0; [reflexivity|apply (Hok a d Hd)]. }
    destruct ((begin_block s hd).2) as [i|e|p].
    - destruct C as [Cd _]. rewrite Cd, jail_votes_nonsigners in Hd'.
      apply jail_fold_marks_only in Hd' as (d0 & E0 & M). congruence.
    - destruct C as [Cd _]. rewrite Cd in Hd'. assert (d' = d) by congruence. subst d'. repeat split.
    - destruct C as [Cd _]. rewrite Cd in Hd'. assert (d' = d) by congruence. subst d'. repeat split. }
  repeat (split; [assumption|]).
  split.
  { intros k p Hk Hno. rewrite C10.
    pose proof (gov_punish_other (work s) (g_slashRatio (gparams s)) (h_evidence hd) k p Hk Hno) as G.
    rewrite gov_punish_eq in G. exact G. }
  split.
  { intros k Hk. rewrite C10, punish_props_lookup, Hk. reflexivity. }
  split.
  { intros Hns. destruct (punished_frame s hd) as (_ & F & _).
    destruct ((begin_block s hd).2) as [i|e|p]; [|apply C|apply C].
    destruct C as [_ ->]. rewrite jail_votes_nonsigners, Hns. exact F. }
  intros Hv. apply begin_block_rewards_unsigned; assumption.
Qed.
Print Assumptions C14_run_others_untouched.

(* ================================================================== 5. C14, downtime *)
(* the miss record of [d] once block h-1 has been recorded as missed, the window
   [max(0, h-1-window), h-1], the misses inside it, and the signed blocks the code derives *)
Definition win_start (g : params) (h : Z) : Z := Z.max 0 (h - 1 - g_signedBlocksWindow g).
Definition missed_marks (h : Z) (d : delegatee) : list Z := mark (d_marks d) (h - 1).
Definition missed_in_window (g : params) (h : Z) (d : delegatee) : Z :=
  Z.of_nat (length (List.filter (in_window (win_start g h) (h - 1)) (missed_marks h d))).
Definition signed_in_window (g : params) (h : Z) (d : delegatee) : Z :=
  g_signedBlocksWindow g - missed_in_window g h d.
Definition jailed (g : params) (h : Z) (d : delegatee) : bool := signed_in_window g h d <? g_minSignedBlocks g.
(* the miss record a non-jailed non-signer is left with: misses below the window are dropped when
   there are at least two of them *)
Definition marks_after (g : params) (h : Z) (d : delegatee) : list Z :=
  if (2 <=? length (List.filter (before_window (win_start g h)) (missed_marks h d)))%nat
  then List.filter (λ x, negb (before_window (win_start g h) x)) (missed_marks h d) else missed_marks h d.

Lemma jail_step_present g h l a d :
  dels l !! a = Some d → incr (d_marks d) → 0 ≤ g_signedBlocksWindow g → 1 ≤ h →
  jail_step g h l a =
    if jailed g h d
    then set_frozen (set_dels l (delete a (dels l))) (freeze_all (frozen l) (h + g_lazyRewardBlocks g) (d_stakes d))
    else set_dels l (<[a := with_marks d (marks_after g h d)]> (dels l)).
Proof. intros Hd Hi Hw Hh. apply (jail_step_spec g h l a d Hd Hi Hw Hh). Qed.

Lemma foldl_ext_in {A B} (f f' : A → B → A) (L : list B) : ∀ x,
  (∀ y b, b ∈ L → f y b = f' y b) → foldl f x L = foldl f' x L.
Proof.
  induction L as [|b L IH]; intros x H; [reflexivity|]. cbn [foldl].
  rewrite (H x b) by left. apply IH. intros y b' Hb'. apply H. right. exact Hb'.
Qed.

(* what one pass of the vote loop freezes, read off the ledgers it starts from *)
Definition freeze_jailed (g : params) (h : Z) (l : ledgers) (fr : gmap hash stake) (a : addr) : gmap hash stake :=
  match dels l !! a with
  | Some d => if jailed g h d then freeze_all fr (h + g_lazyRewardBlocks g) (d_stakes d) else fr
  | None => fr
  end.

(* the jailing pass over pairwise distinct non-signers: each is judged on the entry it had when
   the pass started *)
Lemma jail_fold g h : 0 ≤ g_signedBlocksWindow g → 1 ≤ h → ∀ L l, NoDup L → marks_incr l →
  (∀ a, dels (foldl (λ l a, jail_step g h l a) l L) !! a =
        if decide (a ∈ L)
        then d ← dels l !! a; if jailed g h d then None else Some (with_marks d (marks_after g h d))
        else dels l !! a) ∧
  frozen (foldl (λ l a, jail_step g h l a) l L) = foldl (freeze_jailed g h l) (frozen l) L.
Proof.
  intros Hw Hh. induction L as [|a0 L IH]; intros l Hnd Hm.
  { split; [intros a; rewrite decide_False by apply not_elem_of_nil; reflexivity|reflexivity]. }
  apply NoDup_cons in Hnd as [Hni Hnd]. cbn [foldl].
  set (l1 := jail_step g h l a0).
  assert (Hm1 : marks_incr l1) by (apply jail_step_marks; exact Hm).
  destruct (IH l1 Hnd Hm1) as [ID IF].
  destruct (jail_step_frame g h l a0) as (_ & _ & _ & _ & _ & Fr). fold l1 in Fr.
  assert (H1 : dels l1 !! a0 = (d ← dels l !! a0; if jailed g h d then None else Some (with_marks d (marks_after g h d))) ∧
               frozen l1 = freeze_jailed g h l (frozen l) a0).
  { unfold l1, freeze_jailed. destruct (dels l !! a0) as [d|] eqn:Ed.
    - rewrite (jail_step_present g h l a0 d Ed (Hm a0 d Ed) Hw Hh). cbn [mbind option_bind].
      destruct (jailed g h d); cbn [dels frozen set_dels set_frozen];
        [rewrite lookup_delete|rewrite lookup_insert]; split; reflexivity.
    - rewrite jail_step_absent by exact Ed. rewrite Ed. split; reflexivity. }
  destruct H1 as [H1d H1f]. split.
  - intros a. rewrite ID. destruct (decide (a = a0)) as [->|Hne].
    + rewrite decide_False by exact Hni. rewrite decide_True by left. exact H1d.
    + rewrite (Fr a Hne). destruct (decide (a ∈ L)) as [Hin|Hin].
      * rewrite decide_True by (right; exact Hin). reflexivity.
      * rewrite decide_False; [reflexivity|]. intros Hc. apply elem_of_cons in Hc as [?|?]; contradiction.
  - rewrite IF, H1f. apply foldl_ext_in. intros fr b Hb. unfold freeze_jailed.
    rewrite Fr; [reflexivity|]. intros ->. contradiction.
Qed.

Lemma freeze_fold_other g h l L k : ∀ fr,
  (∀ a d st, a ∈ L → dels l !! a = Some d → jailed g h d = true → st ∈ d_stakes d → s_hash st ≠ k) →
  foldl (freeze_jailed g h l) fr L !! k = fr !! k.
Proof.
  induction L as [|a0 L IH]; intros fr H; [reflexivity|]. cbn [foldl].
  rewrite IH by (intros a d st Ha; apply H; right; exact Ha).
  unfold freeze_jailed. destruct (dels l !! a0) as [d|] eqn:Ed; [|reflexivity].
  destruct (jailed g h d) eqn:Ej; [|reflexivity].
  apply freeze_all_lookup_other. intros st Hst. apply (H a0 d st); [left|exact Ed|exact Ej|apply elem_of_list_In; exact Hst].
Qed.

Lemma freeze_fold_jailed g h l L a d st : ∀ fr,
  (∀ a d, dels l !! a = Some d → NoDup (s_hash <$> d_stakes d)) →
  (∀ a1 a2 d1 d2 s1 s2, dels l !! a1 = Some d1 → dels l !! a2 = Some d2 →
     s1 ∈ d_stakes d1 → s2 ∈ d_stakes d2 → s_hash s1 = s_hash s2 → a1 = a2) →
  NoDup L → a ∈ L → dels l !! a = Some d → jailed g h d = true → st ∈ d_stakes d →
  foldl (freeze_jailed g h l) fr L !! s_hash st = Some (with_refund (h + g_lazyRewardBlocks g) st).
Proof.
  intros fr U1 U2. revert fr. induction L as [|a0 L IH]; intros fr Hnd Ha Hd Hj Hst; [inversion Ha|].
  apply NoDup_cons in Hnd as [Hni Hnd]. cbn [foldl].
  apply elem_of_cons in Ha as [->|Ha]; [|apply IH; assumption].
  rewrite freeze_fold_other.
  - unfold freeze_jailed. rewrite Hd, Hj. apply freeze_all_lookup; [apply (U1 a0 d Hd)|apply elem_of_list_In; exact Hst].
  - intros b db sb Hb Hdb _ Hsb Heq. apply Hni.
    rewrite (U2 a0 b d db st sb Hd Hdb Hst Hsb (eq_sym Heq)). exact Hb.
Qed.

Lemma punished_inv s hd a d2 :
  0 ≤ g_slashRatio (gparams s) ≤ 100 → hu_pt (work s) → dels_ok (work s) → powers_ok (work s) →
  dels (punished s hd) !! a = Some d2 →
  ∃ d, dels (work s) !! a = Some d ∧ d2 = after_evidence s hd a d.
Proof.
  intros Hr Hu Hok Hp H. rewrite punished_dels in H by assumption.
  destruct (dels (work s) !! a) as [d|]; [|discriminate]. injection H as <-. eauto.
Qed.

(* hashes stay distinct through the punishment phase: what is left descends from the old stakes *)
Lemma punished_hu s hd :
  0 ≤ g_slashRatio (gparams s) ≤ 100 → hu_pt (work s) → dels_ok (work s) → powers_ok (work s) →
  (∀ a d, dels (punished s hd) !! a = Some d → NoDup (s_hash <$> d_stakes d)) ∧
  (∀ a1 a2 d1 d2 s1 s2, dels (punished s hd) !! a1 = Some d1 → dels (punished s hd) !! a2 = Some d2 →
     s1 ∈ d_stakes d1 → s2 ∈ d_stakes d2 → s_hash s1 = s_hash s2 → a1 = a2) ∧
  (∀ a d st k x, dels (punished s hd) !! a = Some d → st ∈ d_stakes d → frozen (work s) !! k = Some x → s_hash st ≠ k).
Proof.
  intros Hr Hu Hok Hp. pose proof Hu as (U1 & U2 & U3 & _).
  split; [|split].
  - intros a d2 H. destruct (punished_inv s hd a d2 Hr Hu Hok Hp H) as (d & Hd & ->).
    apply (slash_kept_iter_ok _ _ _ Hr (powers_ok_delegatee _ _ _ Hp Hd) (U1 a d Hd)).
  - intros a1 a2 e1 e2 s1 s2 H1 H2 Hs1 Hs2 Heq.
    destruct (punished_inv s hd a1 e1 Hr Hu Hok Hp H1) as (d1 & Hd1 & ->).
    destruct (punished_inv s hd a2 e2 Hr Hu Hok Hp H2) as (d2 & Hd2 & ->).
    apply slash_kept_iter_hash in Hs1 as (t1 & Ht1 & E1). apply slash_kept_iter_hash in Hs2 as (t2 & Ht2 & E2).
    apply (U2 a1 a2 d1 d2 t1 t2 Hd1 Hd2 Ht1 Ht2). congruence.
  - intros a e st k x H Hst Hk. destruct (punished_inv s hd a e Hr Hu Hok Hp H) as (d & Hd & ->).
    apply slash_kept_iter_hash in Hst as (t & Ht & E). rewrite <- E. apply (U3 a d t k x Hd Ht Hk).
Qed.

Lemma params_ok_window p : params_ok p → 0 ≤ g_signedBlocksWindow p.
Proof. intros (_ & _ & _ & _ & _ & _ & _ & _ & H & _). exact H. Qed.

(* A validator whose signed blocks within the signing window fall below the required minimum has
   all stake bonded to it moved to unbonding and leaves the validator set; validators above the
   threshold are untouched.
   In every reachable state, for the BeginBlock that continues the list and answers Ok, with the
   reported non-signers pairwise distinct (LastCommitInfo lists a validator once):
   - the entry of every delegatee afterwards is determined: not reported -> the entry the evidence left;
     reported and [jailed] -> no entry; reported and not jailed -> the entry the evidence left with the
     miss of block h-1 recorded (and misses below the window dropped);
   - so a delegatee leaves in this block IFF it is reported as a non-signer and its signed blocks in the
     window [max(0,h-1-window), h-1] are fewer than the minimum;
   - every stake it then had is in the unbonding ledger under its hash, with refund height
     h + lazyRewardBlocks and otherwise unchanged; every other key of the unbonding ledger, and every
     entry that was there, is as before; if nobody leaves the unbonding ledger is unchanged. *)
Definition jailing_exact (s : state) (hd : header) : Prop :=
  let s' := sstep s (SBegin hd) in
  let gp := gparams s in
  let h := h_height hd in
  let leaves (a : addr) (d : delegatee) : Prop :=
    a ∈ nonsigners (h_votes hd) ∧ jailed gp h (after_evidence s hd a d) = true in
  0 ≤ g_signedBlocksWindow gp ∧ 1 ≤ h ∧
  (∀ a d, dels (work s) !! a = Some d →
     let d2 := after_evidence s hd a d in
     dels (work s') !! a =
       if decide (a ∈ nonsigners (h_votes hd))
       then if jailed gp h d2 then None else Some (with_marks d2 (marks_after gp h d2))
       else Some d2) ∧
  (∀ a d, dels (work s) !! a = Some d → (dels (work s') !! a = None ↔ leaves a d)) ∧
  (∀ a d st, dels (work s) !! a = Some d → leaves a d → st ∈ d_stakes (after_evidence s hd a d) →
     frozen (work s') !! s_hash st = Some (with_refund (h + g_lazyRewardBlocks gp) st)) ∧
  (∀ k, (∀ a d st, dels (work s) !! a = Some d → leaves a d → st ∈ d_stakes (after_evidence s hd a d) → s_hash st ≠ k) →
     frozen (work s') !! k = frozen (work s) !! k) ∧
  (∀ k x, frozen (work s) !! k = Some x → frozen (work s') !! k = Some x) ∧
  ((∀ a d, dels (work s) !! a = Some d → ¬ leaves a d) → frozen (work s') = frozen (work s)).

(* in any state that satisfies what holds of the reachable ones *)
Lemma jailing_core s hd iss :
  hu_pt (work s) → dels_ok (work s) → powers_ok (work s) → params_ok (gparams s) → marks_incr (work s) →
  h_height hd = last_height s + 1 → 1 ≤ h_height hd → NoDup (nonsigners (h_votes hd)) →
  (begin_block s hd).2 = Ok iss → jailing_exact s hd.
Proof.
  intros Hu Hok Hp Hpar Hmk Hhd Hh1 Hnd Hans. cbv beta delta [jailing_exact]. intros s' gp h leaves.
  pose proof (params_ok_slash _ Hpar) as Hr. pose proof (params_ok_window _ Hpar) as Hw. fold gp in Hw.
  pose proof (λ a, punished_dels s hd a Hr Hu Hok Hp) as HP.
  destruct (punished_hu s hd Hr Hu Hok Hp) as (V1 & V2 & V3).
  destruct (punished_frame s hd) as (_ & FF & _).
  assert (Hm2 : marks_incr (punished s hd)).
  { intros a d2 H. destruct (punished_inv s hd a d2 Hr Hu Hok Hp H) as (d & Hd & ->). apply (Hmk a d Hd). }
  pose proof (begin_block_cases s hd Hhd) as C. cbv zeta in C.
  destruct C as (_ & _ & _ & _ & _ & _ & _ & _ & _ & _ & C). rewrite Hans in C. destruct C as [CD CF].
  rewrite jail_votes_nonsigners in CD, CF. fold gp h in CD, CF.
  destruct (jail_fold gp h Hw Hh1 (nonsigners (h_votes hd)) (punished s hd) Hnd Hm2) as [JD JF].
  rewrite FF in JF. subst s'. cbn [sstep].
  assert (P1 : ∀ a d, dels (work s) !! a = Some d →
     dels (work (begin_block s hd).1) !! a =
       if decide (a ∈ nonsigners (h_votes hd))
       then if jailed gp h (after_evidence s hd a d) then None
            else Some (with_marks (after_evidence s hd a d) (marks_after gp h (after_evidence s hd a d)))
       else Some (after_evidence s hd a d)).
  { intros a d Hd. rewrite CD, JD, HP, Hd. cbn [fmap option_fmap option_map mbind option_bind]. reflexivity. }
  assert (P4 : ∀ k, (∀ a d st, dels (work s) !! a = Some d → leaves a d → st ∈ d_stakes (after_evidence s hd a d) → s_hash st ≠ k) →
     frozen (work (begin_block s hd).1) !! k = frozen (work s) !! k).
  { intros k H. rewrite CF, JF. apply freeze_fold_other. intros a d2 st Ha Hd2 Hj Hst.
    destruct (punished_inv s hd a d2 Hr Hu Hok Hp Hd2) as (d & Hd & ->).
    apply (H a d st Hd); [split; assumption|exact Hst]. }
  split; [exact Hw|]. split; [exact Hh1|]. split; [exact P1|]. split.
  { intros a d Hd. rewrite (P1 a d Hd). unfold leaves.
    destruct (decide (a ∈ nonsigners (h_votes hd))) as [Hin|Hin].
    - destruct (jailed gp h (after_evidence s hd a d)); split; try tauto; try discriminate. intros [_ ?]. discriminate.
    - split; [discriminate|tauto]. }
  split.
  { intros a d st Hd [Hin Hj] Hst. rewrite CF, JF.
    apply (freeze_fold_jailed gp h (punished s hd) (nonsigners (h_votes hd)) a (after_evidence s hd a d) st _ V1 V2 Hnd Hin);
      [rewrite HP, Hd; reflexivity|exact Hj|exact Hst]. }
  split; [exact P4|]. split.
  { intros k x Hk. rewrite P4; [exact Hk|]. intros a d st Hd _ Hst.
    apply (V3 a (after_evidence s hd a d) st k x); [rewrite HP, Hd; reflexivity|exact Hst|exact Hk]. }
  intros Hno. apply map_eq. intros k. apply P4. intros a d st Hd Hl. exfalso. apply (Hno a d Hd Hl).
Qed.

Theorem C14_run_jail_iff_answered g pre hd iss :
  genesis_ok g → hashes_fresh pre → opts_ok pre → blocks InvPanic.Idle 0 (pre ++ [SBegin hd]) →
  NoDup (nonsigners (h_votes hd)) →
  (begin_block (srun (init_chain g) pre) hd).2 = Ok iss →
  jailing_exact (srun (init_chain g) pre) hd.
Proof.
  intros Hg Hh Ho Hb Hnd Hans. destruct (reach_A g pre Hg Hh Ho) as (Hu & Hok & Hp & Hpar & Hmk).
  exact (jailing_core _ hd iss Hu Hok Hp Hpar Hmk (blocks_height g pre hd Hb) (blocks_height_pos pre hd Hb) Hnd Hans).
Qed.
Print Assumptions C14_run_jail_iff_answered.

(* the same with the answer Ok derived: votes are carried only from height 2 on *)
Theorem C14_run_jail_iff g pre hd :
  genesis_ok g → hashes_fresh pre → opts_ok pre → blocks InvPanic.Idle 0 (pre ++ [SBegin hd]) →
  NoDup (nonsigners (h_votes hd)) → (h_votes hd = [] ∨ 2 ≤ h_height hd) →
  (∃ iss, (begin_block (srun (init_chain g) pre) hd).2 = Ok iss) ∧
  jailing_exact (srun (init_chain g) pre) hd.
Proof.
  intros Hg Hh Ho Hb Hnd Hv. destruct (blocks_begin_ok g pre hd Hb Hv) as (iss & Hans).
  split; [exists iss; exact Hans|]. eapply C14_run_jail_iff_answered; eassumption.
Qed.
Print Assumptions C14_run_jail_iff.

(* ================================================================== 6. closed runs; voter powers are int64 in every state *)
(* from the hypotheses of the closed-run theorems (InvReach / InvClosed) to those used above *)
Lemma closed_to_open g ops pre hd post :
  genesis_ok g → InvPanic.bracketed InvPanic.Idle 0 ops → hashes_fresh ops → txs_ok ops →
  supply (work (init_chain g)) + requested ops < supply_bound →
  ops = pre ++ SBegin hd :: post →
  hashes_fresh pre ∧ opts_ok pre ∧ blocks InvPanic.Idle 0 (pre ++ [SBegin hd]) ∧
  (∃ iss, (begin_block (srun (init_chain g) pre) hd).2 = Ok iss) ∧
  (∀ pre' post', ops = pre' ++ post' → reach_ok (srun (init_chain g) pre') ∧ params_ok (gparams (srun (init_chain g) pre'))).
Proof.
  intros Hg Hbr Hh Htx Hb E.
  pose proof (fresh_run_reachable g ops Hh) as Hf.
  pose proof (minted_le_requested ops Htx (init_chain g)) as Hle.
  assert (Hb' : supply (work (init_chain g)) + minted (init_chain g) ops < supply_bound) by lia.
  pose proof (bracketed_opts_ok _ _ _ Hbr) as Hopts.
  destruct (closed_run_total g ops Hg Hbr Hf Htx Hb') as (Hans & _ & Hreach).
  split; [rewrite E in Hh; eapply hashes_fresh_app_l; exact Hh|].
  split; [rewrite E in Hopts; apply opts_ok_app in Hopts as [H _]; exact H|].
  split.
  { apply bracketed_blocks in Hbr. rewrite E in Hbr.
    change (pre ++ SBegin hd :: post) with (pre ++ [SBegin hd] ++ post) in Hbr. rewrite app_assoc in Hbr.
    eapply blocks_prefix. exact Hbr. }
  split.
  { rewrite E in Hans. apply InvPanic.run_answers_at in Hans. exact Hans. }
  intros pre' post' E'. split; [apply (Hreach pre' post' E')|].
  apply (params_ok_reachable g ops); [apply Hg|exact Hopts|exists post'; exact E'].
Qed.

(* C14_run_jail_iff on closed runs: that BeginBlock answers Ok is a consequence (C09), not a hypothesis *)
Theorem C14_closed_jail_iff g ops pre hd post :
  genesis_ok g → InvPanic.bracketed InvPanic.Idle 0 ops → hashes_fresh ops → txs_ok ops →
  supply (work (init_chain g)) + requested ops < supply_bound →
  ops = pre ++ SBegin hd :: post →
  NoDup (nonsigners (h_votes hd)) →
  (∃ iss, (begin_block (srun (init_chain g) pre) hd).2 = Ok iss) ∧
  jailing_exact (srun (init_chain g) pre) hd.
Proof.
  intros Hg Hbr Hh Htx Hb E Hnd.
  destruct (closed_to_open g ops pre hd post Hg Hbr Hh Htx Hb E) as (Hh' & Ho' & Hb' & (iss & Hans) & _).
  split; [exists iss; exact Hans|].
  apply (C14_run_jail_iff_answered g pre hd iss Hg Hh' Ho' Hb' Hnd Hans).
Qed.
Print Assumptions C14_closed_jail_iff.

(* ------------------------------------------------------------------ voter powers are int64 *)
(* the power recorded for a voter is the total power a delegatee had in a committed ledger; the
   invariant [vp_inv] carries that bound from the delegatee ledger through the eligible set and the
   announced validator set into the voter tables *)
Definition total_rng (d : delegatee) : Prop := 0 ≤ d_total d < two63.

Definition vp_inv (s : state) : Prop :=
  map_Forall (λ _ p, voters_ok p) (props (work s)) ∧
  Forall (λ v : addr * Z, 0 ≤ v.2 < two63) (lastvals s) ∧
  Forall total_rng (alldels s) ∧
  (∀ a d, dels (base_of s) !! a = Some d → total_rng d).

Lemma prop_vote_voters_ok p a c p' : prop_vote p a c = Some p' → voters_ok p → voters_ok p'.
Proof.
  unfold prop_vote. destruct (p_voters p !! a) as [v|] eqn:Ev; [|discriminate]. cbn [mbind option_bind].
  assert (H1 : v_power (cancel_vote (p_options p) v).2 = v_power v).
  { unfold cancel_vote. destruct (0 <=? v_choice v); reflexivity. }
  destruct (cancel_vote (p_options p) v) as [o1 v1]. cbn [snd] in H1.
  assert (H2 : v_power (do_vote o1 v1 c).2 = v_power v1).
  { unfold do_vote. destruct (0 <=? c); reflexivity. }
  destruct (do_vote o1 v1 c) as [o2 v2]. cbn [snd] in H2.
  intros [= <-] Hok b w Hw. cbn [p_voters with_voters_opts] in Hw.
  apply lookup_insert_Some in Hw as [[_ <-]|[_ Hw]]; [|apply (Hok b w Hw)].
  rewrite H2, H1. apply (Hok a v Ev).
Qed.

Lemma vp_inv_step s o :
  0 ≤ g_slashRatio (gparams s) ≤ 100 → (∀ a d, dels (work s) !! a = Some d → total_rng d) →
  vp_inv s → vp_inv (sstep s o).
Proof.
  intros Hr Hw (Vp & Vl & Va & Vb). destruct o as [hd|t| |]; cbn [sstep].
  - (* BeginBlock: voters of open proposals are punished, the eligible set is ranked anew *)
    pose proof (InvGov.begin_block_alldels s hd) as Hal. cbv zeta in Hal.
    destruct (begin_block s hd) as [s' r] eqn:E. cbn [fst] in *.
    destruct (InvGov.begin_block_inv _ _ _ _ E) as (A & B & _ & D & _ & _ & Hcase).
    split; [|split; [rewrite D; exact Vl|split; [|rewrite (SpecFacts.base_of_same _ _ A B); exact Vb]]].
    + destruct Hcase as [->|(_ & _ & ->)]; [exact Vp|].
      apply (InvGov.gov_punish_forall voters_ok); [|exact Vp]. intros p a Hp. apply (punish1_voters_ok _ a p Hr Hp).
    + destruct Hal as [->| ->]; [exact Va|]. apply Forall_forall. intros d Hd.
      rewrite InvValSet.sort_power_perm in Hd.
      apply (InvValSet.elem_of_eligible (gparams s) (base_of s)) in Hd as [(a & Ha) _]. apply (Vb a d Ha).
  - (* DeliverTx: a new proposal takes its voters from the validator set, a vote keeps the powers *)
    destruct (deliver s t) as [s' r] eqn:E. cbn [fst].
    pose proof (InvGov.deliver_gov _ _ _ _ E) as Hg.
    destruct (InvFail.deliver_control _ _ _ _ E) as (l & x & fee & n & ->).
    split; [|split; [exact Vl|split; [exact Va|exact Vb]]]. cbn [work with_bctx with_lim with_work] in Hg |- *.
    destruct Hg as [(-> & _)|(_ & [st pe ap ot os pk _ _ ->|ph choice p0 p' _ _ Hpp Hvote ->])]; [exact Vp| |];
      apply map_Forall_insert_2; try exact Vp.
    + exact (InvGov.new_proposal_powers (lastvals s) (t_hash t) st pe ap ot os Vl).
    + exact (prop_vote_voters_ok _ _ _ _ Hvote (Vp _ _ Hpp)).
  - (* EndBlock: no open proposal appears; the announced set is a prefix of the eligible one *)
    destruct (InvGov.end_block_vals s) as [Had Hlv].
    destruct (end_block s) as [s' r] eqn:E. cbn [fst] in *.
    destruct (InvGov.end_block_inv _ _ _ E) as (A & B & _).
    destruct (InvGov.end_block_proposals _ _ _ E) as [Hprops _].
    split; [intros k p Hk; exact (Vp k p (Hprops k p Hk))|].
    split; [|split; [rewrite Had; exact Va|rewrite (SpecFacts.base_of_same _ _ A B); exact Vb]].
    destruct Hlv as [->| ->]; [exact Vl|].
    apply Forall_forall. intros v Hv. apply elem_of_list_In, in_map_iff in Hv as (d & <- & Hd).
    apply elem_of_list_In, elem_of_take in Hd as (i & Hd & _). apply elem_of_list_lookup_2 in Hd.
    rewrite Forall_forall in Va. apply (Va d Hd).
  - (* Commit *)
    split; [exact Vp|]. split; [exact Vl|]. split; [exact Va|]. rewrite InvPanic.base_of_commit. exact Hw.
Qed.

Lemma init_chain_vp_inv g : vp_inv (init_chain g).
Proof.
  destruct (InvGov.init_chain_props g) as (P1 & _).
  split; [rewrite P1; apply map_Forall_empty|]. split; [constructor|]. split; [constructor|].
  intros a d H. unfold base_of in H. change (committed (init_chain g)) with (@nil ledgers) in H. cbn in H.
  rewrite lookup_empty in H. discriminate.
Qed.

(* ------------------------------------------------------------------ total powers are int64 in every state of every run *)
(* The supply bound is not needed for that: a delegation whose addition would take the total power to
   2^63 or beyond is refused by the overflow check of StakeCtrler.ValidateTrx (it panics), and every
   other operation only removes or cuts stakes. *)
Lemma stake_validate_staking s t lim' :
  t_type t = TRX_STAKING → stake_validate s t = Ok lim' →
  ∃ txp, amount_to_power (t_amount t) = Some txp ∧
         0 < wrap64 (match dels (work s) !! t_to t with Some d => d_total d | None => 0 end + txp).
Proof.
  intros Hty. unfold stake_validate. rewrite Hty. change (TRX_STAKING =? TRX_STAKING) with true. cbv iota zeta.
  destruct (_ <=? 0); [discriminate|]. destruct (negb _); [discriminate|].
  destruct (amount_to_power (t_amount t)) as [txp|]; [|discriminate]. intros H. exists txp. split; [reflexivity|].
  (* whichever of the two tests of the delegation is made, the overflow test adds to the delegatee's total *)
  destruct (dels (work s) !! t_to t) as [d|], (t_from t =? t_to t)%N; try discriminate.
  - destruct (amount_to_power (g_minValidatorStake _)); [|discriminate]. destruct (_ <? _); [discriminate|].
    destruct (wrap64 (d_total d + txp) <=? 0) eqn:E; [discriminate|lia].
  - destruct (amount_to_power (g_minDelegatorStake _)); [|discriminate]. destruct (_ && _); [discriminate|].
    destruct (_ =? 0); [discriminate|]. destruct (_ <? _); [discriminate|].
    destruct (wrap64 (d_total d + txp) <=? 0) eqn:E; [discriminate|lia].
  - destruct (amount_to_power (g_minValidatorStake _)); [|discriminate]. destruct (_ <? _); [discriminate|].
    destruct (wrap64 (0 + txp) <=? 0) eqn:E; [discriminate|lia].
Qed.

Lemma deliver_staking_checked s t :
  t_type t = TRX_STAKING →
  dels (work (deliver s t).1) = dels (work s) ∨
  ∃ txp, amount_to_power (t_amount t) = Some txp ∧
         0 < wrap64 (match dels (work s) !! t_to t with Some d => d_total d | None => 0 end + txp).
Proof.
  intros Hty. destruct (deliver s t) as [s' r] eqn:Hd. cbn [fst]. apply InvFail.deliver_cases in Hd.
  pose proof (find_or_new_dels (work s) (t_to t)) as E0.
  destruct Hd as [_|? ? _ _|? lim' ? ? _ _ _ Hv _]; [left; reflexivity|left; exact E0|right].
  rewrite (InvFail.validated_stake _ _ _ (or_introl Hty)) in Hv.
  apply (stake_validate_staking _ _ _ Hty) in Hv. cbn [InvFail.pre work with_work] in Hv. rewrite E0 in Hv. exact Hv.
Qed.

Lemma sum_power_hash_sublist l : ∀ l',
  NoDup (s_hash <$> l) → (s_hash <$> l') `sublist_of` (s_hash <$> l) →
  (∀ s', s' ∈ l' → ∃ s, s ∈ l ∧ s_hash s = s_hash s' ∧ s_power s' ≤ s_power s) →
  (∀ s, s ∈ l → 0 ≤ s_power s) → sum_power l' ≤ sum_power l.
Proof.
  induction l as [|x l IH]; intros l' Hnd Hsub Hm Hp.
  - apply sublist_nil_r in Hsub. destruct l'; [cbn; lia|discriminate].
  - rewrite fmap_cons in Hnd, Hsub. apply NoDup_cons in Hnd as [Hx Hnd].
    assert (Hpx : 0 ≤ s_power x) by (apply Hp; left).
    assert (Hpl : ∀ s, s ∈ l → 0 ≤ s_power s) by (intros; apply Hp; right; assumption).
    rewrite SpecFacts.sum_power_cons.
    apply sublist_cons_r in Hsub as [Hsub|(h' & Eh & Hsub)].
    + assert (sum_power l' ≤ sum_power l); [|lia]. apply IH; auto.
      intros s' Hs'. destruct (Hm s' Hs') as (s & Hs & Ehs & Hle). apply elem_of_cons in Hs as [->|Hs]; [|eauto].
      exfalso. apply Hx. rewrite Ehs. eapply sublist_elem; [exact Hsub|]. apply elem_of_list_fmap_1. exact Hs'.
    + destruct l' as [|y l']; [discriminate|]. rewrite fmap_cons in Eh. injection Eh as Ey Eh. subst h'.
      rewrite SpecFacts.sum_power_cons.
      assert (Hy : s_power y ≤ s_power x).
      { destruct (Hm y ltac:(left)) as (s & Hs & Ehs & Hle). apply elem_of_cons in Hs as [->|Hs]; [exact Hle|].
        exfalso. apply Hx. rewrite <- Ey, <- Ehs. apply elem_of_list_fmap_1. exact Hs. }
      assert (sum_power l' ≤ sum_power l); [|lia]. apply IH; auto.
      intros s' Hs'. destruct (Hm s' ltac:(right; exact Hs')) as (s & Hs & Ehs & Hle).
      apply elem_of_cons in Hs as [->|Hs]; [|eauto].
      exfalso. apply Hx. rewrite Ehs. eapply sublist_elem; [exact Hsub|]. apply elem_of_list_fmap_1. exact Hs'.
Qed.

Lemma totals_evolves (Q : stake → stake → Prop) R l l' :
  (∀ x y, Q x y → s_hash x = s_hash y ∧ (0 ≤ s_power x → 0 ≤ s_power y ≤ s_power x)) →
  evolves Q R l l' → dels_ok l → dels_ok l' → powers_ok l → hu_pt l →
  (∀ a d, dels l !! a = Some d → total_rng d) → (∀ a d, dels l' !! a = Some d → total_rng d).
Proof.
  intros HQ [A _] Hok Hok' Hp (U1 & _) Ht a d' Hd'.
  destruct (A a d' Hd') as (d & Hd & Hsub & Hq).
  destruct (Hok a d Hd) as (_ & Et & _). destruct (Hok' a d' Hd') as (_ & Et' & _).
  pose proof (Ht a d Hd) as Hr. unfold total_rng in *. rewrite Et in Hr. rewrite Et'.
  assert (Hpd : ∀ s, s ∈ d_stakes d → 0 ≤ s_power s).
  { intros s Hs. assert (0 ≤ s_power s < two63); [|lia]. apply Hp, elem_of_app. left. apply InvStake.elem_of_bonded. eauto. }
  split.
  - apply SpecFacts.sum_power_nonneg. intros s' Hs'. destruct (Hq s' Hs') as (s0 & Hs0 & Hqs).
    destruct (HQ _ _ Hqs) as [_ H]. specialize (H (Hpd s0 Hs0)). lia.
  - assert (sum_power (d_stakes d') ≤ sum_power (d_stakes d)); [|lia].
    apply sum_power_hash_sublist; [apply (U1 a d Hd)|exact Hsub| |exact Hpd].
    intros s' Hs'. destruct (Hq s' Hs') as (s0 & Hs0 & Hqs). destruct (HQ _ _ Hqs) as [Hh H].
    specialize (H (Hpd s0 Hs0)). exists s0. split; [exact Hs0|]. split; [exact Hh|lia].
Qed.

Lemma wrap64_pos_small x : 0 ≤ x < two63 + two63 → 0 < wrap64 x → x < two63.
Proof.
  intros Hx Hw. destruct (Z_lt_le_dec x two63) as [H|H]; [exact H|]. exfalso.
  assert (E64 : two64 = two63 + two63) by reflexivity.
  unfold wrap64 in Hw. replace (x + two63) with ((x - two63) + 1 * two64) in Hw by lia.
  rewrite Z.mod_add, Z.mod_small in Hw by lia. lia.
Qed.

Lemma totals_step s o :
  0 ≤ g_slashRatio (gparams s) ≤ 100 → dels_ok (work s) → dels_ok (work (sstep s o)) → powers_ok (work s) → hu_pt (work s) →
  (∀ a d, dels (work s) !! a = Some d → total_rng d) → (∀ a d, dels (work (sstep s o)) !! a = Some d → total_rng d).
Proof.
  intros Hr Hok Hok' Hp Hu Ht.
  assert (Hcut : ∀ x y, stake_cut x y → s_hash x = s_hash y ∧ (0 ≤ s_power x → 0 ≤ s_power y ≤ s_power x)).
  { intros x y Hc. split; [apply (Q_hash _ Qok_cut _ _ Hc)|apply Hc]. }
  assert (Heq : ∀ x y : stake, x = y → s_hash x = s_hash y ∧ (0 ≤ s_power x → 0 ≤ s_power y ≤ s_power x)).
  { intros x y ->. split; [reflexivity|lia]. }
  destruct o as [hd|t| |]; cbn [sstep] in *.
  - eapply totals_evolves; [exact Hcut|apply (begin_block_evolves_cut s hd Hr)|assumption..].
  - pose proof (deliver_staking_checked s t) as Hchk.
    destruct (deliver s t) as [s' r] eqn:E. cbn [fst] in *.
    apply deliver_moves in E as [Hev|(Hty & _ & d & Hd & HD & _)].
    + eapply totals_evolves; [exact Heq|exact Hev|assumption..].
    + intros a d' Hd'. rewrite HD in Hd'. destruct (decide (a = t_to t)) as [->|Hne].
      2:{ rewrite lookup_insert_ne in Hd' by congruence. apply (Ht a d' Hd'). }
      rewrite lookup_insert in Hd'. injection Hd' as <-.
      destruct (Hchk Hty) as [Hsame|(txp & Htxp & Hw)].
      { exfalso. rewrite HD in Hsame.
        assert (H1 : <[t_to t := add_stake d (stake_of_tx t (b_height (bctx s)) (power_of (t_amount t)))]> (dels (work s)) !! t_to t
                     = dels (work s) !! t_to t) by (rewrite Hsame; reflexivity).
        rewrite lookup_insert in H1. destruct Hd as [Hd|(Hd & _)]; rewrite Hd in H1; [|discriminate].
        injection H1 as H1. apply (f_equal (λ x, length (d_stakes x))) in H1. cbn [add_stake d_stakes] in H1.
        rewrite app_length in H1. cbn in H1. lia. }
      assert (Hpo : power_of (t_amount t) = txp) by (unfold power_of; rewrite Htxp; reflexivity).
      pose proof (power_of_range (t_amount t)) as Hpr. rewrite Hpo in Hpr.
      unfold total_rng. cbn [add_stake d_total stake_of_tx s_power]. rewrite Hpo.
      destruct Hd as [Hd|(Hd & _ & ->)].
      * rewrite Hd in Hw. pose proof (Ht _ _ Hd) as Hdr. unfold total_rng in Hdr.
        pose proof (wrap64_pos_small (d_total d + txp) ltac:(lia) Hw). lia.
      * rewrite Hd in Hw. cbn [new_delegatee d_total].
        pose proof (wrap64_pos_small (0 + txp) ltac:(lia) Hw). lia.
  - eapply totals_evolves; [exact Heq|apply (end_block_evolves s 0)|assumption..].
  - exact Ht.
Qed.

Lemma init_chain_totals g :
  Forall (λ v : addr * Z, 0 ≤ v.2 < two63) (gen_validators g) →
  ∀ a d, dels (work (init_chain g)) !! a = Some d → total_rng d.
Proof.
  intros Hv. rewrite init_chain_dels.
  assert (G : ∀ vs (m : gmap addr delegatee), Forall (λ v : addr * Z, 0 ≤ v.2 < two63) vs →
              (∀ a d, m !! a = Some d → total_rng d) →
              ∀ a d, foldl (λ m v, <[v.1 := gdel v]> m) m vs !! a = Some d → total_rng d).
  { induction vs as [|v vs IH]; intros m Hvs Hm; [exact Hm|]. cbn [foldl].
    apply Forall_cons in Hvs as [Hv0 Hvs]. apply IH; [exact Hvs|].
    intros a d Hd. apply lookup_insert_Some in Hd as [[_ <-]|[_ Hd]]; [|apply (Hm a d Hd)].
    unfold total_rng, gdel, add_stake, new_delegatee, genesis_stake. cbn. lia. }
  apply G; [exact Hv|]. intros a d Hd. rewrite lookup_empty in Hd. discriminate.
Qed.

Lemma opts_ok_prefix_app l k : opts_ok (l ++ k) → opts_ok l.
Proof. intros H. apply opts_ok_app in H as [H _]. exact H. Qed.

Lemma totals_run g pre :
  genesis_ok g → hashes_fresh pre → opts_ok pre →
  ∀ a d, dels (work (srun (init_chain g) pre)) !! a = Some d → total_rng d.
Proof.
  intros Hg. induction pre as [|o pre IH] using rev_ind; intros Hh Ho.
  { apply init_chain_totals. apply Hg. }
  pose proof (hashes_fresh_app_l _ _ Hh) as Hh'. pose proof (opts_ok_prefix_app _ _ Ho) as Ho'.
  destruct (reach_A g pre Hg Hh' Ho') as (Hu & Hok & Hp & Hpar & _).
  unfold srun. rewrite foldl_app. cbn [foldl]. fold (srun (init_chain g) pre).
  apply totals_step; [apply params_ok_slash; exact Hpar|exact Hok| |exact Hp|exact Hu|apply IH; assumption].
  pose proof (dels_ok_reachable g (pre ++ [o])) as [H _]. unfold srun in H. rewrite foldl_app in H. exact H.
Qed.

Lemma vp_inv_run_open g pre :
  genesis_ok g → hashes_fresh pre → opts_ok pre → vp_inv (srun (init_chain g) pre).
Proof.
  intros Hg. induction pre as [|o pre IH] using rev_ind; intros Hh Ho; [apply init_chain_vp_inv|].
  pose proof (hashes_fresh_app_l _ _ Hh) as Hh'. pose proof (opts_ok_prefix_app _ _ Ho) as Ho'.
  destruct (reach_A g pre Hg Hh' Ho') as (_ & _ & _ & Hpar & _).
  unfold srun. rewrite foldl_app. cbn [foldl]. fold (srun (init_chain g) pre).
  apply vp_inv_step; [apply params_ok_slash; exact Hpar|apply totals_run; assumption|apply IH; assumption].
Qed.

(* ================================================================== 7. C14, evidence: the voting weight in open proposals *)
(* one evidence item against a recorded voter: its weight shrinks by floor(power*ratio/100); it is
   removed when nothing is left *)
Definition punish_voter (ratio : Z) (v : voter) : option voter :=
  let sl := v_power v * ratio / 100 in
  if v_power v - sl <=? 0 then None else Some {| v_power := v_power v - sl; v_choice := v_choice v |}.

Lemma punish1_voter_lookup ratio a p b :
  0 ≤ ratio ≤ 100 → voters_ok p →
  p_voters (punish1 ratio a p) !! b = if decide (b = a) then p_voters p !! b ≫= punish_voter ratio else p_voters p !! b.
Proof.
  intros Hr Hok. unfold punish1. destruct (p_voters p !! a) as [v|] eqn:Ev.
  - destruct (decide (b = a)) as [->|Hne].
    + rewrite (prop_punish_voter p a ratio v Ev (Hok a v Ev) Hr), Ev. reflexivity.
    + apply (prop_punish_voters p a ratio v b Ev (Hok a v Ev) Hr Hne).
  - rewrite prop_punish_absent by exact Ev. cbn [fst]. destruct (decide (b = a)) as [->|Hne]; [rewrite Ev|]; reflexivity.
Qed.

Lemma punish_fold_voters_ok ratio evi : 0 ≤ ratio ≤ 100 → ∀ p, voters_ok p → voters_ok (foldl (λ p a, punish1 ratio a p) p evi).
Proof.
  intros Hr. induction evi as [|a evi IH]; intros p Hp; [exact Hp|]. cbn [foldl]. apply IH, punish1_voters_ok; assumption.
Qed.

Lemma punish_fold_voters ratio evi b : 0 ≤ ratio ≤ 100 → ∀ p, voters_ok p →
  p_voters (foldl (λ p a, punish1 ratio a p) p evi) !! b
  = Nat.iter (times b evi) (λ o, o ≫= punish_voter ratio) (p_voters p !! b).
Proof.
  intros Hr. induction evi as [|a evi IH]; intros p Hp; [reflexivity|]. cbn [foldl].
  rewrite IH by (apply punish1_voters_ok; assumption). rewrite punish1_voter_lookup by assumption.
  unfold times. cbn [List.filter]. destruct (a =? b)%N eqn:E.
  - apply N.eqb_eq in E. subst a. rewrite decide_True by reflexivity. cbn [length]. rewrite Nat.iter_succ_r. reflexivity.
  - apply N.eqb_neq in E. rewrite decide_False by congruence. reflexivity.
Qed.

Lemma cancel_vote_length opts v : length (cancel_vote opts v).1 = length opts.
Proof. unfold cancel_vote. destruct (0 <=? v_choice v); [apply alter_length|reflexivity]. Qed.

Lemma do_vote_length opts v c : length (do_vote opts v c).1 = length opts.
Proof. unfold do_vote. destruct (0 <=? c); [apply alter_length|reflexivity]. Qed.

Lemma punish1_frame ratio a p :
  p_hash (punish1 ratio a p) = p_hash p ∧ p_start (punish1 ratio a p) = p_start p ∧
  p_end (punish1 ratio a p) = p_end p ∧ p_apply (punish1 ratio a p) = p_apply p ∧
  p_opttype (punish1 ratio a p) = p_opttype p ∧ p_major (punish1 ratio a p) = p_major p ∧
  length (p_options (punish1 ratio a p)) = length (p_options p).
Proof.
  unfold punish1, prop_punish. destruct (p_voters p !! a) as [v|]; [|repeat split].
  pose proof (cancel_vote_length (p_options p) v) as Hc.
  destruct (cancel_vote (p_options p) v) as [o1 v1]. cbn [fst] in Hc. cbv zeta.
  (* only the voter table and the options depend on which way the vote is put back *)
  destruct (if _ <=? 0 then _ else _) as [vs o2] eqn:E.
  cbn [fst p_hash p_start p_end p_apply p_opttype p_major p_options]. repeat split. rewrite <- Hc.
  destruct (_ <=? 0); [injection E as _ <-; reflexivity|].
  destruct (0 <=? v_choice v); [|injection E as _ <-; reflexivity].
  destruct (do_vote o1 _ _) as [o' v'] eqn:Ed. injection E as _ <-.
  apply (f_equal (λ x, length x.1)) in Ed. rewrite do_vote_length in Ed. symmetry. exact Ed.
Qed.

Lemma punish_fold_frame ratio evi : ∀ p,
  let p' := foldl (λ p a, punish1 ratio a p) p evi in
  p_hash p' = p_hash p ∧ p_start p' = p_start p ∧ p_end p' = p_end p ∧ p_apply p' = p_apply p ∧
  p_opttype p' = p_opttype p ∧ p_major p' = p_major p ∧ length (p_options p') = length (p_options p).
Proof.
  induction evi as [|a evi IH]; intros p; [repeat split|]. cbn [foldl]. cbv zeta in *.
  destruct (IH (punish1 ratio a p)) as (A1 & A2 & A3 & A4 & A5 & A6 & A7).
  destruct (punish1_frame ratio a p) as (B1 & B2 & B3 & B4 & B5 & B6 & B7).
  repeat split; congruence.
Qed.

(* the conclusion of the voter theorems, for the BeginBlock [hd] in state [s] *)
Definition voters_punished (s : state) (hd : header) : Prop :=
  let s' := sstep s (SBegin hd) in
  let ratio := g_slashRatio (gparams s) in
  let evi := h_evidence hd in
  0 ≤ ratio ≤ 100 ∧
  (∀ k, props (work s) !! k = None → props (work s') !! k = None) ∧
  (∀ k p, props (work s) !! k = Some p →
     (∀ a v, p_voters p !! a = Some v → 0 ≤ v_power v < two63) ∧
     props (work s') !! k = Some (foldl (λ p a, punish1 ratio a p) p evi) ∧
     (∀ e1 a e2, evi = e1 ++ a :: e2 →
        let q := foldl (λ p a, punish1 ratio a p) p e1 in
        (∀ b w, p_voters q !! b = Some w → 0 ≤ v_power w < two63) ∧
        foldl (λ p a, punish1 ratio a p) p (e1 ++ [a]) = (prop_punish q a ratio).1 ∧
        match p_voters q !! a with
        | Some v => prop_punish q a ratio = (punished_prop q a v (v_power v * ratio / 100), v_power v * ratio / 100)
        | None => prop_punish q a ratio = (q, 0)
        end) ∧
     (let p' := foldl (λ p a, punish1 ratio a p) p evi in
      (∀ a, p_voters p' !! a = Nat.iter (times a evi) (λ o, o ≫= punish_voter ratio) (p_voters p !! a)) ∧
      (∀ a, a ∉ evi → p_voters p' !! a = p_voters p !! a) ∧
      p_hash p' = p_hash p ∧ p_start p' = p_start p ∧ p_end p' = p_end p ∧ p_apply p' = p_apply p ∧
      p_opttype p' = p_opttype p ∧ p_major p' = p_major p ∧ length (p_options p') = length (p_options p))).

Lemma voters_core s hd :
  vp_inv s → 0 ≤ g_slashRatio (gparams s) ≤ 100 → h_height hd = last_height s + 1 → voters_punished s hd.
Proof.
  intros (Vp & _) Hr Hhd. unfold voters_punished.
  set (ratio := g_slashRatio (gparams s)) in *. set (evi := h_evidence hd).
  pose proof (begin_block_cases s hd Hhd) as C. cbv zeta in C.
  destruct C as (_ & _ & _ & _ & _ & _ & _ & _ & _ & C10 & _). fold ratio evi in C10.
  cbn [sstep].
  split; [exact Hr|]. split.
  { intros k Hk. rewrite C10, punish_props_lookup, Hk. reflexivity. }
  intros k p Hk. pose proof (Vp k p Hk) as Hok.
  split; [exact Hok|]. split; [rewrite C10, punish_props_lookup, Hk; reflexivity|]. split.
  { intros e1 a e2 _. set (q := foldl (λ p a, punish1 ratio a p) p e1).
    assert (Hq : voters_ok q) by (apply punish_fold_voters_ok; assumption).
    split; [exact Hq|]. split; [rewrite foldl_app; reflexivity|].
    destruct (p_voters q !! a) as [v|] eqn:Ev.
    - apply (prop_punish_spec q a ratio v Ev (Hq a v Ev) Hr).
    - apply prop_punish_absent, Ev. }
  split; [intros a; apply punish_fold_voters; assumption|]. split.
  { intros a Ha. rewrite punish_fold_voters by assumption. rewrite (times_notin a evi Ha). reflexivity. }
  apply punish_fold_frame.
Qed.

(* ... and the validator's voting weight in open proposals shrinks by the same percentage.
   In every state [s] reachable by a list [pre], for the BeginBlock that continues the list
   ([voters_punished], written out above):
   - every recorded voter of every open proposal has a power in [0, 2^63) and the slash percentage is in
     0..100: the hypotheses of C14_voter hold, and keep holding item after item;
   - every open proposal [p] is replaced by [p] punished for each evidence item in order; no proposal
     appears or disappears;
   - item by item: with [q] the proposal as the items before left it, an item naming a recorded voter
     [v] of [q] turns [q] into [punished_prop q a v (floor(power*ratio/100))] (the voter's weight, the
     option it had chosen and the total lose exactly that amount, the majority threshold is recomputed,
     the voter is removed when nothing is left); an item naming nobody recorded leaves [q] as it is;
   - overall a voter named n times has its weight cut n times ([punish_voter] iterated), voters not named
     keep their record; hash, voting window, apply height, option type, number of options and major
     option of the proposal are unchanged. *)
Theorem C14_run_voters g pre hd :
  genesis_ok g → hashes_fresh pre → opts_ok pre → blocks InvPanic.Idle 0 (pre ++ [SBegin hd]) →
  voters_punished (srun (init_chain g) pre) hd.
Proof.
  intros Hg Hh Ho Hb.
  destruct (reach_A g pre Hg Hh Ho) as (_ & _ & _ & Hpar & _).
  apply voters_core; [apply vp_inv_run_open; assumption|apply params_ok_slash; exact Hpar|apply blocks_height; exact Hb].
Qed.
Print Assumptions C14_run_voters.

(* the same on closed runs *)
Corollary C14_closed_voters g ops pre hd post :
  genesis_ok g → InvPanic.bracketed InvPanic.Idle 0 ops → hashes_fresh ops → txs_ok ops →
  supply (work (init_chain g)) + requested ops < supply_bound →
  ops = pre ++ SBegin hd :: post →
  voters_punished (srun (init_chain g) pre) hd.
Proof.
  intros Hg Hbr Hh Htx Hb E.
  destruct (closed_to_open g ops pre hd post Hg Hbr Hh Htx Hb E) as (F1 & F2 & F3 & _).
  apply C14_run_voters; assumption.
Qed.
Print Assumptions C14_closed_voters.

(* a voter named by exactly one evidence item: floor(power*ratio/100) less, removed at <= 0 *)
Corollary C14_run_voter_once g pre hd k p a v :
  genesis_ok g → hashes_fresh pre → opts_ok pre → blocks InvPanic.Idle 0 (pre ++ [SBegin hd]) →
  let s := srun (init_chain g) pre in
  let ratio := g_slashRatio (gparams s) in
  props (work s) !! k = Some p → p_voters p !! a = Some v → times a (h_evidence hd) = 1%nat →
  0 ≤ v_power v < two63 ∧ 0 ≤ ratio ≤ 100 ∧
  ∃ p', props (work (sstep s (SBegin hd))) !! k = Some p' ∧
        p_voters p' !! a =
          if v_power v - v_power v * ratio / 100 <=? 0 then None
          else Some {| v_power := v_power v - v_power v * ratio / 100; v_choice := v_choice v |}.
Proof.
  intros Hg Hh Ho Hb s ratio Hk Hv Ht.
  destruct (C14_run_voters g pre hd Hg Hh Ho Hb) as (Hr & _ & H). fold s ratio in Hr, H.
  destruct (H k p Hk) as (Hpw & Hp' & _ & Hvs & _).
  split; [apply (Hpw a v Hv)|]. split; [exact Hr|].
  eexists. split; [exact Hp'|]. rewrite Hvs, Ht, Hv. reflexivity.
Qed.
Print Assumptions C14_run_voter_once.

(* ================================================================== 8. the hypotheses are satisfiable: a concrete run *)
(* one validator (11, power 100, also a holder), a delegator (3).  Block 1: 3 delegates 20 to 11.
   Block 2: empty (the validator set is announced from the ledger block 1 committed).  Block 3:
   validator 11 opens a proposal; the voter table records 11 with power 120.  Slash ratio 50 %,
   signing window 2 with at least 2 signed blocks required, unbonding period 1.
   Block 4 carries evidence against 11; in [cx_hd4] validator 11 signed, in [cx_hd4j] it did not. *)
Definition cx_params : params := {|
  g_version := 1; g_maxValidatorCnt := 21; g_minValidatorStake := 7 * amountPerPower;
  g_minDelegatorStake := 0; g_rewardPerPower := 1000; g_lazyRewardBlocks := 1; g_lazyApplyingBlocks := 10;
  g_gasPrice := 10; g_minTrxGas := 4000; g_maxTrxGas := 25000000; g_maxBlockGas := 100000000;
  g_minVotingPeriodBlocks := 1; g_maxVotingPeriodBlocks := 100; g_minSelfStakeRatio := 50;
  g_maxUpdatableStakeRatio := 30; g_maxIndividualStakeRatio := 10000000; g_slashRatio := 50;
  g_signedBlocksWindow := 2; g_minSignedBlocks := 2 |}.
Definition cx_genesis : genesis := {|
  gen_params := cx_params;
  gen_holders := [(3%N, 1000 * amountPerPower); (11%N, 1000 * amountPerPower)];
  gen_validators := [(11%N, 100)] |}.
Definition cx_stake_tx : tx := demo_tx TRX_STAKING 3%N 11%N (20 * amountPerPower) 4000 0 PNone 102%N.
Definition cx_prop_tx : tx :=
  demo_tx TRX_PROPOSAL 11%N 0%N 0 4000 0 (PProposal 5 10 30 0 [(1%N, None); (2%N, None)] false) 55%N.
Definition cx_pre : list sop :=
  [SBegin (demo_hdr 1 (Some 11%N)); SDeliver cx_stake_tx; SEnd; SCommit;
   SBegin (demo_hdr 2 (Some 11%N)); SEnd; SCommit;
   SBegin (demo_hdr 3 (Some 11%N)); SDeliver cx_prop_tx; SEnd; SCommit].
Definition cx_hd4 : header :=
  {| h_height := 4; h_proposer := Some 11%N; h_votes := [(11%N, 120, true)]; h_evidence := [11%N] |}.
Definition cx_hd4j : header :=
  {| h_height := 4; h_proposer := Some 11%N; h_votes := [(11%N, 120, false)]; h_evidence := [11%N] |}.
Definition cx_s : state := srun (init_chain cx_genesis) cx_pre.

Definition cx_val_stake (p : Z) : stake :=
  {| s_from := 11%N; s_to := 11%N; s_hash := 0%N; s_start := 1; s_refund := 0; s_power := p |}.
Definition cx_del_stake (p : Z) : stake :=
  {| s_from := 3%N; s_to := 11%N; s_hash := 102%N; s_start := 2; s_refund := 0; s_power := p |}.

Lemma cx_genesis_ok : genesis_ok cx_genesis.
Proof.
  split; [repeat split; vm_compute; congruence|]. split; [vm_compute; lia|]. split.
  - repeat apply Forall_cons_2; try apply Forall_nil_2; split; vm_compute; congruence.
  - repeat apply Forall_cons_2; try apply Forall_nil_2; split; vm_compute; congruence.
Qed.

Lemma cx_hashes_fresh hd : hashes_fresh (cx_pre ++ [SBegin hd]).
Proof.
  unfold hashes_fresh. replace (stake_hashes (cx_pre ++ [SBegin hd])) with [102%N] by reflexivity.
  apply NoDup_cons. split; [|apply NoDup_singleton]. intros H. apply elem_of_list_singleton in H. discriminate.
Qed.

Lemma cx_tx_wf : tx_wf cx_stake_tx ∧ tx_wf cx_prop_tx.
Proof. split; repeat split; vm_compute; congruence. Qed.

Lemma cx_txs_ok hd : txs_ok (cx_pre ++ [SBegin hd]).
Proof.
  destruct cx_tx_wf as [W1 W2].
  unfold txs_ok, cx_pre. cbn [app]. repeat apply Forall_cons_2; try exact I; try apply Forall_nil_2.
  - split; [exact W1|]. split; [|reflexivity]. intros req Hty. discriminate Hty.
  - split; [exact W2|]. split; [|reflexivity]. intros req Hty. discriminate Hty.
Qed.

Lemma cx_bracketed hd :
  h_height hd = 4 → InvPanic.bracketed InvPanic.Idle 0 (cx_pre ++ [SBegin hd]).
Proof.
  intros H4. destruct cx_tx_wf as [W1 W2]. unfold cx_pre. cbn [app InvPanic.bracketed].
  split; [reflexivity|]. split; [intros H; exfalso; apply H; reflexivity|].
  split; [apply InvPanic.tx_ok_plain; [exact W1|discriminate|discriminate]|].
  split; [reflexivity|]. split; [intros H; exfalso; apply H; reflexivity|].
  split; [reflexivity|]. split; [intros H; exfalso; apply H; reflexivity|].
  split.
  { split; [exact W2|]. split; [intros Hty; discriminate Hty|]. split; [intros Hp; discriminate Hp|].
    unfold InvPanic.proposal_params_ok. cbn. repeat apply Forall_cons_2; try apply Forall_nil_2; intros np Hnp; discriminate Hnp. }
  split; [rewrite H4; reflexivity|]. split; [intros _; lia|exact I].
Qed.

Lemma cx_supply hd : supply (work (init_chain cx_genesis)) + requested (cx_pre ++ [SBegin hd]) < supply_bound.
Proof.
  replace (requested (cx_pre ++ [SBegin hd])) with 0 by reflexivity. vm_compute. reflexivity.
Qed.

(* all input hypotheses of the theorems above hold for both continuations of the run, the delegation
   and the proposal were executed, and block 4 does what the theorems say:
   signed  -> 11 keeps its entry with both stakes halved (100 -> 50, 20 -> 10), self 50, total 60;
   missed  -> the halved stakes are unbonding with refund height 4 + 1 and 11 has left the ledger
              (1 signed block in the window [1,3] where 2 are required);
   in both -> the recorded voting weight of 11 in the open proposal is halved (120 -> 60) *)
Example C14_run_example :
  genesis_ok cx_genesis ∧
  (∀ hd, h_height hd = 4 →
     InvPanic.bracketed InvPanic.Idle 0 (cx_pre ++ [SBegin hd]) ∧ hashes_fresh (cx_pre ++ [SBegin hd]) ∧
     txs_ok (cx_pre ++ [SBegin hd]) ∧ opts_ok (cx_pre ++ [SBegin hd]) ∧
     blocks InvPanic.Idle 0 (cx_pre ++ [SBegin hd]) ∧
     supply (work (init_chain cx_genesis)) + requested (cx_pre ++ [SBegin hd]) < supply_bound) ∧
  (* the state before block 4 *)
  dels (work cx_s) !! 11%N
    = Some {| d_addr := 11%N; d_self := 100; d_total := 120; d_stakes := [cx_val_stake 100; cx_del_stake 20]; d_marks := [] |} ∧
  ((λ p, (p_voters p !! 11%N, p_total p, p_majority p)) <$> props (work cx_s) !! 55%N) = Some (Some {| v_power := 120; v_choice := -1 |}, 120, 80) ∧
  g_slashRatio (gparams cx_s) = 50 ∧
  (* block 4, validator signed *)
  (begin_block cx_s cx_hd4).2 = Ok 120000 ∧
  dels (work (sstep cx_s (SBegin cx_hd4))) !! 11%N
    = Some {| d_addr := 11%N; d_self := 50; d_total := 60; d_stakes := [cx_val_stake 50; cx_del_stake 10]; d_marks := [] |} ∧
  frozen (work (sstep cx_s (SBegin cx_hd4))) = frozen (work cx_s) ∧
  ((λ p, (p_voters p !! 11%N, p_total p, p_majority p)) <$> props (work (sstep cx_s (SBegin cx_hd4))) !! 55%N) = Some (Some {| v_power := 60; v_choice := -1 |}, 60, 40) ∧
  (* block 4, validator did not sign *)
  (begin_block cx_s cx_hd4j).2 = Ok 0 ∧
  jailed (gparams cx_s) 4 (after_evidence cx_s cx_hd4j 11%N
     {| d_addr := 11%N; d_self := 100; d_total := 120; d_stakes := [cx_val_stake 100; cx_del_stake 20]; d_marks := [] |}) = true ∧
  dels (work (sstep cx_s (SBegin cx_hd4j))) !! 11%N = None ∧
  frozen (work (sstep cx_s (SBegin cx_hd4j))) !! 0%N = Some (with_refund 5 (cx_val_stake 50)) ∧
  frozen (work (sstep cx_s (SBegin cx_hd4j))) !! 102%N = Some (with_refund 5 (cx_del_stake 10)) ∧
  accts (work (sstep cx_s (SBegin cx_hd4j))) = accts (work cx_s).
Proof.
  split; [exact cx_genesis_ok|]. split.
  { intros hd H4. pose proof (cx_bracketed hd H4) as Hbr.
    split; [exact Hbr|]. split; [apply cx_hashes_fresh|]. split; [apply cx_txs_ok|].
    split; [eapply bracketed_opts_ok; exact Hbr|]. split; [apply bracketed_blocks; exact Hbr|apply cx_supply]. }
  InvReward.decide_eqs.
Qed.

(* the theorems applied to this run: their conclusions are the computed values *)
Example C14_run_example_applied :
  let d := {| d_addr := 11%N; d_self := 100; d_total := 120; d_stakes := [cx_val_stake 100; cx_del_stake 20]; d_marks := [] |} in
  dels (work (sstep cx_s (SBegin cx_hd4))) !! 11%N = Some (slashed_n 50 1 11%N d) ∧
  slashed_n 50 1 11%N d
    = {| d_addr := 11%N; d_self := 50; d_total := 60; d_stakes := [cx_val_stake 50; cx_del_stake 10]; d_marks := [] |} ∧
  (dels (work (sstep cx_s (SBegin cx_hd4j))) !! 11%N = None ↔
     11%N ∈ nonsigners (h_votes cx_hd4j) ∧ jailed (gparams cx_s) 4 (after_evidence cx_s cx_hd4j 11%N d) = true) ∧
  (∃ p', props (work (sstep cx_s (SBegin cx_hd4))) !! 55%N = Some p' ∧
         p_voters p' !! 11%N = Some {| v_power := 60; v_choice := -1 |}).
Proof.
  intros d. destruct C14_run_example as (_ & _ & Hd & Hk & Hr & _). fold d in Hd.
  assert (H4 : h_height cx_hd4 = 4) by reflexivity. assert (H4j : h_height cx_hd4j = 4) by reflexivity.
  pose proof (cx_bracketed cx_hd4 H4) as Hbr. pose proof (cx_bracketed cx_hd4j H4j) as Hbrj.
  destruct (closed_to_open cx_genesis _ cx_pre cx_hd4 [] cx_genesis_ok Hbr (cx_hashes_fresh _) (cx_txs_ok _) (cx_supply _) eq_refl)
    as (F1 & F2 & F3 & _).
  split.
  { destruct (C14_run_slash_exact cx_genesis cx_pre cx_hd4 cx_genesis_ok F1 F2 F3) as (_ & _ & HS & _).
    cbv zeta in HS. fold cx_s in HS. rewrite Hr in HS.
    apply (HS 11%N d Hd). intros Hin. apply elem_of_nonsigners in Hin as (pw & Hin).
    apply elem_of_list_singleton in Hin. discriminate. }
  split; [vm_compute; reflexivity|]. split.
  { destruct (C14_closed_jail_iff cx_genesis _ cx_pre cx_hd4j [] cx_genesis_ok Hbrj (cx_hashes_fresh _) (cx_txs_ok _) (cx_supply _) eq_refl)
      as (_ & _ & _ & _ & Hiff & _); [apply NoDup_singleton|]. apply (Hiff 11%N d Hd). }
  destruct (props (work cx_s) !! 55%N) as [p|] eqn:Hp; [|discriminate Hk]. injection Hk as Hv _ _.
  destruct (C14_run_voter_once cx_genesis cx_pre cx_hd4 55%N p 11%N _ cx_genesis_ok F1 F2 F3 Hp Hv eq_refl)
    as (_ & _ & p' & Hp' & Hv'). fold cx_s in Hp', Hv'. rewrite Hr in Hv'.
  exists p'. split; [exact Hp'|exact Hv'].
Qed.

(* ================================================================== 9. remarks on the model *)
(* with a slash percentage of 0 every stake "would lose less than 1": one evidence item forfeits
   every stake bonded to the named validator (the delegatee stays, with no stake and power 0) *)
Lemma slash_kept_ratio0 l : slash_kept 0 l = [].
Proof.
  unfold slash_kept. replace (List.filter (survives 0) l) with (@nil stake); [reflexivity|].
  symmetry. induction l as [|st l IH]; [reflexivity|]. cbn [List.filter].
  unfold survives at 1, cut. rewrite Z.mul_0_r. cbn. exact IH.
Qed.

(* "leaves the validator set" is not immediate: the eligible set of a block is built from the
   COMMITTED tree before stakes are punished and non-signers jailed, so the validator jailed (and
   slashed) in BeginBlock of block 4 is still announced, with its old power 120, by EndBlock of
   block 4; it is dropped by EndBlock of block 5 *)
Theorem C14_jailed_same_block_set_refuted :
  ∃ g pre hd,
    genesis_ok g ∧ InvPanic.bracketed InvPanic.Idle 0 (pre ++ [SBegin hd]) ∧ hashes_fresh (pre ++ [SBegin hd]) ∧
    txs_ok (pre ++ [SBegin hd]) ∧ supply (work (init_chain g)) + requested (pre ++ [SBegin hd]) < supply_bound ∧
    let s' := srun (init_chain g) (pre ++ [SBegin hd]) in
    dels (work s') !! 11%N = None ∧
    lastvals (srun s' [SEnd]) = [(11%N, 120)] ∧
    (end_block s').2 = Ok [] ∧
    lastvals (srun s' [SEnd; SCommit; SBegin (demo_hdr 5 (Some 11%N)); SEnd]) = [].
Proof.
  exists cx_genesis, cx_pre, cx_hd4j.
  split; [exact cx_genesis_ok|]. split; [apply cx_bracketed; reflexivity|]. split; [apply cx_hashes_fresh|].
  split; [apply cx_txs_ok|]. split; [apply cx_supply|]. cbv zeta. InvReward.decide_eqs.
Qed.
Print Assumptions C14_jailed_same_block_set_refuted.

(* ================================================================== 10. the evidence theorems on closed runs *)
Corollary C14_closed_slash_exact g ops pre hd post :
  genesis_ok g → InvPanic.bracketed InvPanic.Idle 0 ops → hashes_fresh ops → txs_ok ops →
  supply (work (init_chain g)) + requested ops < supply_bound →
  ops = pre ++ SBegin hd :: post →
  let s := srun (init_chain g) pre in
  let s' := sstep s (SBegin hd) in
  let ratio := g_slashRatio (gparams s) in
  let evi := h_evidence hd in
  0 ≤ ratio ≤ 100 ∧
  (∀ a, dels (punished s hd) !! a = slashed_n ratio (times a evi) a <$> dels (work s) !! a) ∧
  (∀ a d, dels (work s) !! a = Some d → a ∉ nonsigners (h_votes hd) →
     dels (work s') !! a = Some (slashed_n ratio (times a evi) a d)) ∧
  (∀ a, dels (work s) !! a = None → dels (work s') !! a = None).
Proof.
  intros Hg Hbr Hh Htx Hb E.
  destruct (closed_to_open g ops pre hd post Hg Hbr Hh Htx Hb E) as (F1 & F2 & F3 & _).
  apply C14_run_slash_exact; assumption.
Qed.
Print Assumptions C14_closed_slash_exact.
