(* InvJailHistory.v — property C14, downtime: the jailing decision recomputed from the block HEADERS.

   C14_run_jail_iff (InvSlashClosed) states the decision in terms of the miss marks the model keeps
   in the delegatee record ([d_marks]), which BeginBlock also trims.  The harness judges the node by
   a predicate that recomputes the decision from the headers alone: the heights a validator missed
   are { h-1 | the BeginBlock of height h reported it as a non-signer }, collected while it stays a
   delegatee.  This file is the link between the two.

     reported_misses a g ops       the list just described, for the run [ops] from [init_chain g]
     agree_run                     the invariant: marks ⊆ reported misses, and from the start of the
                                   last window on they coincide
     marks_window_agree            (1) inside the window of the next BeginBlock the marks ARE the
                                   reported misses (same list)
     jail_decision_from_headers    (2) [jailed] = the decision computed from reported misses ++ [h-1]
     C14_jail_iff_headers          (2) combined with C14_run_jail_iff
     jh_example_*                  (3) window 4, minimum 2, misses at 1 6 9 10: jailed at block 11
     window_growth_refuted         the claim is FALSE of the model when governance enlarges the window

   Hypotheses: genesis_ok g, opts_ok ops, blocks Idle 0 (ops ++ [SBegin hd]) (InvSlashClosed),
   [votes_from_2] (every header carries votes only from height 2 on, so every BeginBlock answers Ok:
   a BeginBlock that fails discards its marking), and [window_nonincr]: no operation of the run
   enlarges g_signedBlocksWindow ([window_const] implies it; [wconst_from] decides that one on a
   concrete run).  The last one is about the states of the run, not about the inputs alone, and it
   cannot be dropped: BeginBlock drops the marks below the window (when at least two lie there), and
   a later, larger window reaches back below that point — the model then counts fewer misses than
   the headers report.  A window that shrinks does no harm.  Duplicated non-signers in a header do
   no harm either (NoDup is needed only by C14_run_jail_iff). *)
From Coq Require Import ZifyBool ZifyNat ZifyN.
From Rigo Require Import Base.
From stdpp Require Import gmap sorting.
From Rigo Require Import Spec SpecProps.
From Rigo Require SpecFacts InvFail InvNonce InvReward InvGov InvPanic InvValSet.
From Rigo Require Import InvStake InvFee InvSupply InvReach InvClosed InvSlash InvSlashClosed.
Local Open Scope Z_scope.

Local Opaque two256 two255 two64 two63.

(* ================================================================== 1. lists *)
Lemma elem_of_mark m h x : Forall (λ y, y ≤ h) m → x ∈ mark m h ↔ x ∈ m ∨ x = h.
Proof.
  intros Hm. unfold mark. destruct (last m) as [l|] eqn:El.
  - destruct (h <=? l) eqn:E.
    + split; [auto|]. intros [H| ->]; [exact H|]. apply last_Some in El as [m' ->].
      apply Forall_app in Hm as [_ Hl]. apply Forall_cons in Hl as [Hl _].
      assert (l = h) as -> by lia. apply elem_of_app. right. left.
    + rewrite elem_of_app, elem_of_list_singleton. tauto.
  - rewrite elem_of_app, elem_of_list_singleton. tauto.
Qed.

Lemma mark_fresh m h : Forall (λ y, y < h) m → mark m h = m ++ [h].
Proof.
  intros Hm. unfold mark. destruct (last m) as [l|] eqn:El; [|reflexivity].
  apply last_Some in El as [m' ->]. apply Forall_app in Hm as [_ Hl]. apply Forall_cons in Hl as [Hl _].
  destruct (h <=? l) eqn:E; [lia|reflexivity].
Qed.

Lemma incr_filter (f : Z → bool) m : incr m → incr (List.filter f m).
Proof.
  induction m as [|x m IH]; intros Hs; [constructor|]. apply StronglySorted_inv in Hs as [Hs Hx].
  cbn [List.filter]. destruct (f x); [|apply IH, Hs]. constructor; [apply IH, Hs|].
  apply Forall_forall. intros y Hy. apply InvValSet.elem_of_List_filter in Hy as [Hy _].
  rewrite Forall_forall in Hx. apply Hx, Hy.
Qed.

Lemma incr_ext l1 : ∀ l2, incr l1 → incr l2 → (∀ x, x ∈ l1 ↔ x ∈ l2) → l1 = l2.
Proof.
  induction l1 as [|x l1 IH]; intros l2 H1 H2 He.
  - destruct l2 as [|y l2]; [reflexivity|]. exfalso. apply (not_elem_of_nil y), He. left.
  - destruct l2 as [|y l2]; [exfalso; apply (not_elem_of_nil x), He; left|].
    apply StronglySorted_inv in H1 as [H1 Hx]. apply StronglySorted_inv in H2 as [H2 Hy].
    rewrite Forall_forall in Hx, Hy.
    assert (x = y) as ->.
    { pose proof (proj1 (He x) ltac:(left)) as A. pose proof (proj2 (He y) ltac:(left)) as B.
      apply elem_of_cons in A as [A|A]; [exact A|]. apply elem_of_cons in B as [B|B]; [congruence|].
      apply Hy in A. apply Hx in B. lia. }
    f_equal. apply IH; [exact H1|exact H2|]. intros z. split; intros Hz.
    + pose proof (proj1 (He z) ltac:(right; exact Hz)) as A. apply elem_of_cons in A as [->|A]; [|exact A].
      apply Hx in Hz. lia.
    + pose proof (proj2 (He z) ltac:(right; exact Hz)) as A. apply elem_of_cons in A as [->|A]; [|exact A].
      apply Hy in Hz. lia.
Qed.

(* ================================================================== 2. one jailing pass, seen from one address *)
Section one_pass.
  Variables (g : params) (h : Z) (a : addr).
  Hypothesis Hw : 0 ≤ g_signedBlocksWindow g.
  Hypothesis Hh : 1 ≤ h.

  (* the marks [m] follow the set [S]: nothing outside S, everything of S from the window start on *)
  Definition tracks (S m : list Z) : Prop :=
    Forall (λ x, x ≤ h - 1) m ∧ (∀ x, x ∈ m → x ∈ S) ∧ (∀ x, win_start g h ≤ x → x ∈ S → x ∈ m).
  Definition otracks (S : list Z) (o : option delegatee) : Prop :=
    match o with None => True | Some d => tracks S (d_marks d) end.

  Lemma marks_after_tracks S1 S2 d :
    tracks S1 (d_marks d) → (∀ x, x ∈ S1 → x ∈ S2) → (∀ x, x ∈ S2 → x ∈ S1 ∨ x = h - 1) → h - 1 ∈ S2 →
    tracks S2 (marks_after g h d).
  Proof.
    intros (T1 & T2 & T3) H12 H21 Hin.
    pose proof (λ x, elem_of_mark (d_marks d) (h - 1) x T1) as Hm.
    assert (Hs0 : win_start g h ≤ h - 1) by (unfold win_start; lia).
    unfold marks_after, missed_marks.
    destruct (2 <=? length _)%nat.
    - split; [|split].
      + apply Forall_forall. intros x Hx. apply InvValSet.elem_of_List_filter in Hx as [Hx _]. apply Hm in Hx as [Hx| ->]; [|lia].
        rewrite Forall_forall in T1. apply T1, Hx.
      + intros x Hx. apply InvValSet.elem_of_List_filter in Hx as [Hx _]. apply Hm in Hx as [Hx| ->]; [apply H12, T2, Hx|exact Hin].
      + intros x Hx HS. apply InvValSet.elem_of_List_filter. split; [|unfold before_window; lia].
        apply Hm. apply H21 in HS as [HS|HS]; [left; apply T3; assumption|right; exact HS].
    - split; [|split].
      + apply Forall_forall. intros x Hx. apply Hm in Hx as [Hx| ->]; [|lia].
        rewrite Forall_forall in T1. apply T1, Hx.
      + intros x Hx. apply Hm in Hx as [Hx| ->]; [apply H12, T2, Hx|exact Hin].
      + intros x Hx HS. apply Hm. apply H21 in HS as [HS|HS]; [left; apply T3; assumption|right; exact HS].
  Qed.

  Lemma jail_step_tracks S1 S2 l :
    marks_incr l → otracks S1 (dels l !! a) →
    (∀ x, x ∈ S1 → x ∈ S2) → (∀ x, x ∈ S2 → x ∈ S1 ∨ x = h - 1) → h - 1 ∈ S2 →
    otracks S2 (dels (jail_step g h l a) !! a).
  Proof.
    intros Hm Ho H12 H21 Hin. destruct (dels l !! a) as [d|] eqn:Ed.
    - rewrite (jail_step_present g h l a d Ed (Hm a d Ed) Hw Hh).
      destruct (jailed g h d); cbn [dels set_dels set_frozen].
      + rewrite lookup_delete. exact I.
      + rewrite lookup_insert. cbn [otracks with_marks d_marks]. eapply marks_after_tracks; eassumption.
    - rewrite jail_step_absent by exact Ed. rewrite Ed. exact I.
  Qed.

  Notation pass := (foldl (λ l b, jail_step g h l b)).

  Lemma pass_other L : a ∉ L → ∀ l, dels (pass l L) !! a = dels l !! a.
  Proof.
    induction L as [|b L IH]; intros Hni l; [reflexivity|]. cbn [foldl].
    apply not_elem_of_cons in Hni as [Hne Hni]. rewrite IH by exact Hni.
    destruct (jail_step_frame g h l b) as (_ & _ & _ & _ & _ & F). apply F. exact Hne.
  Qed.

  Lemma pass_marks L : ∀ l, marks_incr l → marks_incr (pass l L).
  Proof. induction L as [|b L IH]; intros l H; [exact H|]. cbn [foldl]. apply IH, jail_step_marks, H. Qed.

  Lemma pass_touched S L : ∀ l, marks_incr l → otracks (S ++ [h - 1]) (dels l !! a) →
    otracks (S ++ [h - 1]) (dels (pass l L) !! a).
  Proof.
    induction L as [|b L IH]; intros l Hm Ho; [exact Ho|]. cbn [foldl].
    apply IH; [apply jail_step_marks, Hm|]. destruct (decide (b = a)) as [->|Hne].
    - apply (jail_step_tracks (S ++ [h - 1]) (S ++ [h - 1])); [exact Hm|exact Ho|auto|auto|].
      apply elem_of_app. right. left.
    - destruct (jail_step_frame g h l b) as (_ & _ & _ & _ & _ & F). rewrite F by congruence. exact Ho.
  Qed.

  Lemma pass_first S L : a ∈ L → ∀ l, marks_incr l → otracks S (dels l !! a) →
    otracks (S ++ [h - 1]) (dels (pass l L) !! a).
  Proof.
    induction L as [|b L IH]; intros Hin l Hm Ho; [inversion Hin|]. cbn [foldl].
    destruct (decide (b = a)) as [->|Hne].
    - apply pass_touched; [apply jail_step_marks, Hm|].
      apply (jail_step_tracks S (S ++ [h - 1])); [exact Hm|exact Ho| | |].
      + intros x Hx. apply elem_of_app. left. exact Hx.
      + intros x Hx. apply elem_of_app in Hx as [Hx|Hx]; [left; exact Hx|right]. apply elem_of_list_singleton in Hx. exact Hx.
      + apply elem_of_app. right. left.
    - apply elem_of_cons in Hin as [->|Hin]; [congruence|].
      apply IH; [exact Hin|apply jail_step_marks, Hm|].
      destruct (jail_step_frame g h l b) as (_ & _ & _ & _ & _ & F). rewrite F by congruence. exact Ho.
  Qed.
End one_pass.

(* ================================================================== 3. the misses the headers report *)
Definition is_del (s : state) (a : addr) : bool :=
  match dels (work s) !! a with Some _ => true | None => false end.

Lemma is_del_Some s a : is_del s a = true → is_Some (dels (work s) !! a).
Proof. unfold is_del. destruct (dels (work s) !! a); [eauto|discriminate]. Qed.

(* one operation: a BeginBlock of height h that lists [a] as a non-signer while [a] is a delegatee
   adds h-1; the collection starts afresh when [a] is not a delegatee afterwards *)
Definition rm_step (a : addr) (acc : state * list Z) (o : sop) : state * list Z :=
  let s' := sstep acc.1 o in
  let R1 := match o with
            | SBegin hd => if is_del acc.1 a && bool_decide (a ∈ nonsigners (h_votes hd))
                           then acc.2 ++ [h_height hd - 1] else acc.2
            | _ => acc.2 end in
  (s', if is_del s' a then R1 else []).
Definition rm_run (a : addr) (g : genesis) (ops : list sop) : state * list Z :=
  foldl (rm_step a) (init_chain g, []) ops.
Definition reported_misses (a : addr) (g : genesis) (ops : list sop) : list Z := (rm_run a g ops).2.

Lemma rm_fold_fst a ops : ∀ acc, (foldl (rm_step a) acc ops).1 = srun acc.1 ops.
Proof. induction ops as [|o ops IH]; intros acc; [reflexivity|]. cbn [foldl]. rewrite IH. reflexivity. Qed.

Lemma rm_run_fst a g ops : (rm_run a g ops).1 = srun (init_chain g) ops.
Proof. apply rm_fold_fst. Qed.

Lemma rm_run_snoc a g ops o : rm_run a g (ops ++ [o]) = rm_step a (rm_run a g ops) o.
Proof. unfold rm_run. rewrite foldl_app. reflexivity. Qed.

Lemma rm_step_cases a acc o :
  (rm_step a acc o).2 = [] ∨ (rm_step a acc o).2 = acc.2 ∨
  ∃ hd, o = SBegin hd ∧ (rm_step a acc o).2 = acc.2 ++ [h_height hd - 1].
Proof.
  unfold rm_step. cbn [snd]. destruct (is_del _ a); [|left; reflexivity].
  destruct o as [hd|t| |]; try (right; left; reflexivity).
  destruct (_ && _); [right; right; eauto|right; left; reflexivity].
Qed.

Definition ph_off (ph : InvPanic.phase) : Z := match ph with InvPanic.Idle => 0 | _ => 1 end.

(* the collected list is strictly increasing and lies below the height of the next block: a fact
   about the list of headers only *)
Lemma rm_incr a ops : ∀ ph n acc hd,
  blocks ph n (ops ++ [SBegin hd]) → incr acc.2 → Forall (λ x, x < n + ph_off ph) acc.2 →
  incr (foldl (rm_step a) acc ops).2 ∧ Forall (λ x, x < h_height hd - 1) (foldl (rm_step a) acc ops).2.
Proof.
  induction ops as [|o ops IH]; intros ph n acc hd Hb Hi Hf.
  - cbn [foldl]. destruct ph; cbn [app blocks] in Hb; try contradiction. destruct Hb as [Hh _].
    split; [exact Hi|]. eapply Forall_impl; [exact Hf|]. cbn. intros x Hx. lia.
  - cbn [foldl].
    assert (G : ∀ ph' n', blocks ph' n' (ops ++ [SBegin hd]) →
                (∀ hd0, o = SBegin hd0 → h_height hd0 - 1 = n ∧ ph = InvPanic.Idle) →
                n + ph_off ph ≤ n' + ph_off ph' → (o ≠ SCommit → n' + ph_off ph' = n + 1) →
                incr (foldl (rm_step a) (rm_step a acc o) ops).2 ∧
                Forall (λ x, x < h_height hd - 1) (foldl (rm_step a) (rm_step a acc o) ops).2).
    { intros ph' n' Hb' Ho Hle Hnc. apply (IH ph' n' _ hd Hb').
      - destruct (rm_step_cases a acc o) as [->|[->|(hd0 & -> & ->)]]; [constructor|exact Hi|].
        destruct (Ho hd0 eq_refl) as [-> ->]. cbn in Hf. apply incr_snoc; [exact Hi|].
        eapply Forall_impl; [exact Hf|]. cbn. intros x Hx. lia.
      - destruct (rm_step_cases a acc o) as [->|[->|(hd0 & -> & ->)]]; [constructor| |].
        + eapply Forall_impl; [exact Hf|]. cbn. intros x Hx. lia.
        + destruct (Ho hd0 eq_refl) as [E ->]. cbn in Hf. apply Forall_app. split.
          * eapply Forall_impl; [exact Hf|]. cbn. intros x Hx. specialize (Hnc ltac:(discriminate)). lia.
          * constructor; [|constructor]. specialize (Hnc ltac:(discriminate)). lia. }
    destruct ph, o as [hd0|t| |]; cbn [app blocks] in Hb; try contradiction.
    + destruct Hb as [Hh0 Hb]. apply (G InvPanic.InBlock n Hb); cbn; [|lia|lia].
      intros hd1 [= <-]. split; [lia|reflexivity].
    + apply (G InvPanic.InBlock n Hb); cbn; [|lia|lia]. intros hd1 [=].
    + apply (G InvPanic.Ended n Hb); cbn; [|lia|lia]. intros hd1 [=].
    + apply (G InvPanic.Idle (n + 1) Hb); cbn; [|lia|congruence]. intros hd1 [=].
Qed.

(* ================================================================== 4. heights and the punishment phase *)
(* the two heights of the state, in every run whatsoever *)
Definition heights_ok (s : state) : Prop := last_height s ≤ b_height (bctx s) ≤ last_height s + 1.

Lemma heights_step s o : heights_ok s → heights_ok (sstep s o).
Proof.
  unfold heights_ok. intros H. destruct o as [hd|t| |]; cbn [sstep].
  - destruct (begin_block s hd) as [s' r] eqn:E. cbn [fst].
    destruct (SpecFacts.begin_block_control _ _ _ _ E) as [->|(Hh & l & ->)]; [exact H|cbn; lia].
  - destruct (deliver s t) as [s' r] eqn:E. cbn [fst].
    destruct (InvFail.deliver_control _ _ _ _ E) as (l & x & fee & n & ->). exact H.
  - destruct (end_block s) as [s' r] eqn:E. cbn [fst].
    apply SpecFacts.end_block_cases in E. destruct E as [r _|l1 l2 np l3 l4 _ _ _ _ _]; exact H.
  - cbn. lia.
Qed.

Lemma heights_run g ops : heights_ok (srun (init_chain g) ops).
Proof.
  assert (H0 : heights_ok (init_chain g)) by (unfold heights_ok; cbn; lia).
  revert H0. unfold srun. generalize (init_chain g).
  induction ops as [|o ops IH]; intros s Hs; [exact Hs|]. cbn [foldl]. apply IH, heights_step, Hs.
Qed.

Lemma punished_marks s hd a :
  match dels (work s) !! a with
  | Some d => ∃ d2, dels (punished s hd) !! a = Some d2 ∧ d_marks d2 = d_marks d
  | None => dels (punished s hd) !! a = None
  end.
Proof.
  unfold punished.
  destruct (stake_punish_spec (gov_punish (work s) (g_slashRatio (gparams s)) (h_evidence hd))
              (g_slashRatio (gparams s)) (h_evidence hd)) as (H & _).
  rewrite H. rewrite gov_punish_eq. cbn [dels set_props].
  destruct (dels (work s) !! a) as [d|]; [|reflexivity]. cbn [fmap option_fmap option_map].
  eexists. split; [reflexivity|]. induction (times a (h_evidence hd)) as [|n IH]; [reflexivity|]. exact IH.
Qed.

Lemma punished_marks_incr s hd : marks_incr (work s) → marks_incr (punished s hd).
Proof.
  intros H. unfold punished. apply stake_punish_marks. eapply marks_incr_dels; [|exact H].
  rewrite gov_punish_eq. reflexivity.
Qed.

(* ================================================================== 5. the invariant of the run *)
(* the start of the window of the last BeginBlock, for the window parameter now in force *)
Definition cutoff (s : state) : Z := Z.max 0 (b_height (bctx s) - 1 - g_signedBlocksWindow (gparams s)).

(* the marks of [a] and the list [R] collected from the headers: the marks are among R, and from
   the start of the last window on every element of R is a mark *)
Definition agree (s : state) (a : addr) (R : list Z) : Prop :=
  match dels (work s) !! a with
  | None => R = []
  | Some d => Forall (λ x, x ≤ last_height s) (d_marks d) ∧ (∀ x, x ∈ d_marks d → x ∈ R) ∧
              (∀ x, cutoff s ≤ x → x ∈ R → x ∈ d_marks d)
  end.

Definition window_const (g : genesis) (ops : list sop) : Prop :=
  ∀ pre post, ops = pre ++ post →
    g_signedBlocksWindow (gparams (srun (init_chain g) pre)) = g_signedBlocksWindow (gen_params g).
Definition window_nonincr (g : genesis) (ops : list sop) : Prop :=
  ∀ pre o post, ops = pre ++ o :: post →
    g_signedBlocksWindow (gparams (sstep (srun (init_chain g) pre) o))
    ≤ g_signedBlocksWindow (gparams (srun (init_chain g) pre)).
Lemma window_const_nonincr g ops : window_const g ops → window_nonincr g ops.
Proof.
  intros H pre o post E. rewrite <- SpecFacts.srun_snoc.
  rewrite (H (pre ++ [o]) post), (H pre (o :: post)); [lia|exact E|rewrite E, <- app_assoc; reflexivity].
Qed.
(* votes are carried only from height 2 on (consensus has no LastCommitInfo at height 1) *)
Definition votes_from_2 (ops : list sop) : Prop :=
  Forall (λ o, match o with SBegin hd => h_votes hd = [] ∨ 2 ≤ h_height hd | _ => True end) ops.

Lemma agree_quiet s s' a R :
  agree s a R → marks_kept (work s) (work s') → cutoff s ≤ cutoff s' →
  last_height s ≤ last_height s' → agree s' a (if is_del s' a then R else []).
Proof.
  unfold agree, is_del. intros H Hk Hb Hl.
  destruct (dels (work s') !! a) as [d'|] eqn:E'; [|reflexivity]. specialize (Hk a d' E').
  destruct (dels (work s) !! a) as [d|].
  - rewrite Hk. destruct H as (F & A & B). split; [|split].
    + eapply Forall_impl; [exact F|]. cbn. intros x Hx. lia.
    + exact A.
    + intros x Hx. apply B. lia.
  - subst R. rewrite Hk. split; [constructor|]. split; intros x Hx; [inversion Hx|]. intros Hx'. inversion Hx'.
Qed.

(* one operation.  A BeginBlock is asked to carry the next height and to answer Ok (one that fails
   discards its marking); the window in force may shrink but not grow *)
Lemma agree_step s o a R :
  heights_ok s → marks_incr (work s) → 0 ≤ g_signedBlocksWindow (gparams s) →
  g_signedBlocksWindow (gparams (sstep s o)) ≤ g_signedBlocksWindow (gparams s) →
  (∀ hd, o = SBegin hd →
     h_height hd = last_height s + 1 ∧ 1 ≤ h_height hd ∧ ∃ iss, (begin_block s hd).2 = Ok iss) →
  agree s a R → agree (sstep s o) a (rm_step a (s, R) o).2.
Proof.
  unfold heights_ok. intros Hhs Hm Hwgp HW Hbegin IH. unfold rm_step. cbn [fst snd].
  destruct o as [hd|t| |].
  - destruct (Hbegin hd eq_refl) as (Hh & Hh1 & iss & Hans).
    pose proof (begin_block_cases s hd Hh) as C. cbv zeta in C.
    destruct C as (_ & G & _ & _ & L & B & _ & _ & _ & _ & C). rewrite Hans in C. destruct C as [CD _].
    rewrite jail_votes_nonsigners in CD.
    pose proof (punished_marks s hd a) as PM. pose proof (punished_marks_incr s hd Hm) as PI.
    cbn [sstep]. unfold agree, is_del. rewrite CD.
    destruct (dels (foldl _ (punished s hd) (nonsigners (h_votes hd))) !! a) as [d'|] eqn:E'; [|reflexivity].
    destruct (jail_fold_marks_only _ _ _ _ _ _ E') as (d2 & Hd2 & _).
    unfold agree in IH.
    destruct (dels (work s) !! a) as [d|] eqn:Ed; [|congruence].
    destruct PM as (d2' & Hd2' & Hm2). rewrite Hd2 in Hd2'. injection Hd2' as <-.
    destruct IH as (F & A & Bc). cbn [andb].
    destruct (decide (a ∈ nonsigners (h_votes hd))) as [Hin|Hni].
    + rewrite bool_decide_eq_true_2 by exact Hin.
      pose proof (pass_first (gparams s) (h_height hd) a Hwgp Hh1 R _ Hin (punished s hd) PI) as PF.
      rewrite Hd2, E' in PF. cbn [otracks] in PF.
      assert (T : tracks (gparams s) (h_height hd) R (d_marks d2)).
      { rewrite Hm2. split; [|split].
        - eapply Forall_impl; [exact F|]. cbn. intros x Hx. lia.
        - exact A.
        - intros x Hx HR. apply Bc; [|exact HR]. unfold cutoff. unfold win_start in Hx. lia. }
      destruct (PF T) as (F' & A' & B').
      split; [|split].
      * rewrite L. eapply Forall_impl; [exact F'|]. cbn. intros x Hx. lia.
      * exact A'.
      * intros x Hx. apply B'. unfold cutoff in Hx. rewrite B, G in Hx. cbn [b_height] in Hx. unfold win_start. lia.
    + rewrite bool_decide_eq_false_2 by exact Hni.
      rewrite pass_other in E' by exact Hni. rewrite Hd2 in E'. injection E' as <-. rewrite Hm2.
      split; [|split].
      * rewrite L. exact F.
      * exact A.
      * intros x Hx. apply Bc. unfold cutoff in *. rewrite B, G in Hx. cbn [b_height] in Hx. lia.
  - apply (agree_quiet s); [exact IH|apply deliver_kept| |]; cbn [sstep];
      destruct (deliver s t) as [s' r] eqn:E; cbn [fst];
      destruct (InvFail.deliver_control _ _ _ _ E) as (l & x & fee & n & ->); [unfold cutoff|]; cbn; lia.
  - apply (agree_quiet s); [exact IH|apply marks_kept_dels, end_block_dels| |]; cbn [sstep];
      destruct (end_block s) as [s' r] eqn:E; cbn [fst];
      apply SpecFacts.end_block_cases in E; destruct E as [r _|l1 l2 np l3 l4 _ _ _ _ _]; [unfold cutoff..|]; cbn; lia.
  - apply (agree_quiet s); [exact IH|apply marks_kept_dels; reflexivity| |cbn; lia].
    cbn [sstep] in HW |- *. unfold cutoff. change (b_height (bctx (commit s))) with (b_height (bctx s)). lia.
Qed.

Theorem agree_run g ops a :
  params_ok (gen_params g) → opts_ok ops → blocks InvPanic.Idle 0 ops → votes_from_2 ops → window_nonincr g ops →
  agree (srun (init_chain g) ops) a (reported_misses a g ops).
Proof.
  intros Hg. induction ops as [|o ops IH] using rev_ind; intros Ho Hb Hv Hc.
  - unfold agree, reported_misses. cbn [rm_run foldl snd srun].
    destruct (dels (work (init_chain g)) !! a) as [d|] eqn:Ed; [|reflexivity].
    rewrite (init_chain_no_marks g a d Ed). split; [constructor|].
    split; intros x Hx; [inversion Hx|]. intros Hx'; inversion Hx'.
  - pose proof (blocks_prefix _ _ _ _ Hb) as Hb0. apply Forall_app in Hv as [Hv0 Hvo].
    apply Forall_cons in Hvo as [Hvo _]. pose proof Ho as Ho1. apply Forall_app in Ho1 as [Ho0 _].
    assert (Hc0 : window_nonincr g ops).
    { intros pre o' post E. apply (Hc pre o' (post ++ [o])). rewrite E, <- app_assoc. reflexivity. }
    specialize (IH Ho0 Hb0 Hv0 Hc0).
    unfold reported_misses in *. rewrite rm_run_snoc, SpecFacts.srun_snoc.
    pose proof (rm_run_fst a g ops) as Hfst. destruct (rm_run a g ops) as [s_ R]. cbn [fst snd] in *. subst s_.
    apply agree_step; [apply heights_run|apply marks_incr_run| |exact (Hc ops o [] eq_refl)| |exact IH].
    + exact (params_ok_window _ (params_ok_reachable g ops Hg Ho0 ops (reflexivity _))).
    + intros hd ->. split; [exact (blocks_height g ops hd Hb)|].
      split; [exact (blocks_height_pos ops hd Hb)|exact (blocks_begin_ok g ops hd Hb Hvo)].
Qed.
Print Assumptions agree_run.

(* ================================================================== 6. (1) marks and reported misses agree inside the window *)
Lemma genesis_window g : genesis_ok g → 0 ≤ g_signedBlocksWindow (gen_params g).
Proof. intros (H & _). apply params_ok_window, H. Qed.

(* In the state a BeginBlock of height h starts from, for every delegatee: the marks inside the
   window [max 0 (h-1-window), h-1] are exactly the reported misses inside it (the same list); with
   the miss of h-1 recorded on both sides likewise; no mark is ever outside the reported misses;
   the reported misses are strictly increasing and below h-1.  So trimming only ever removes marks
   that lie outside every later window — as long as the window parameter does not change. *)
Theorem marks_window_agree g ops hd a d :
  genesis_ok g → opts_ok ops → blocks InvPanic.Idle 0 (ops ++ [SBegin hd]) → votes_from_2 ops → window_nonincr g ops →
  let s := srun (init_chain g) ops in
  let h := h_height hd in
  let s0 := win_start (gparams s) h in
  let R := reported_misses a g ops in
  dels (work s) !! a = Some d →
  List.filter (in_window s0 (h - 1)) (d_marks d) = List.filter (in_window s0 (h - 1)) R ∧
  List.filter (in_window s0 (h - 1)) (missed_marks h d) = List.filter (in_window s0 (h - 1)) (R ++ [h - 1]) ∧
  (∀ x, x ∈ d_marks d → x ∈ R) ∧
  incr R ∧ Forall (λ x, x < h - 1) R.
Proof.
  intros Hg Ho Hb Hv Hc s h s0 R Ed.
  pose proof (agree_run g ops a (proj1 Hg) Ho (blocks_prefix _ _ _ _ Hb) Hv Hc) as HA. fold s R in HA.
  unfold agree in HA. rewrite Ed in HA. destruct HA as (F & A & B).
  destruct (rm_incr a ops InvPanic.Idle 0 (init_chain g, []) hd Hb) as [RI RB]; [constructor|constructor|].
  change (foldl (rm_step a) (init_chain g, []) ops).2 with R in RI, RB. fold h in RB.
  pose proof (blocks_height g ops hd Hb) as Hh. fold s h in Hh.
  pose proof (heights_run g ops) as Hhs. fold s in Hhs. unfold heights_ok in Hhs.
  pose proof (marks_incr_run g ops a d Ed) as MI.
  assert (E1 : List.filter (in_window s0 (h - 1)) (d_marks d) = List.filter (in_window s0 (h - 1)) R).
  { apply incr_ext; [apply incr_filter, MI|apply incr_filter, RI|]. intros x. rewrite !InvValSet.elem_of_List_filter.
    split; intros [Hx Hi]; (split; [|exact Hi]).
    - apply A, Hx.
    - apply B; [|exact Hx]. unfold in_window in Hi. unfold cutoff. subst s0. unfold win_start in Hi. lia. }
  split; [exact E1|]. split; [|split; [exact A|split; [exact RI|exact RB]]].
  unfold missed_marks. rewrite mark_fresh.
  - rewrite !List.filter_app, E1. reflexivity.
  - apply Forall_forall. intros x Hx. apply A in Hx. rewrite Forall_forall in RB. apply RB, Hx.
Qed.
Print Assumptions marks_window_agree.

(* ================================================================== 7. (2) the decision from the headers *)
(* the decision the harness computes: the reported misses, the miss of h-1 added, restricted to the
   window; window − their number < minimum *)
Definition header_decision (gp : params) (h : Z) (R : list Z) : bool :=
  g_signedBlocksWindow gp
    - Z.of_nat (length (List.filter (in_window (win_start gp h) (h - 1)) (R ++ [h - 1])))
  <? g_minSignedBlocks gp.

(* h-1 is counted once: it is not among the reported misses *)
Lemma header_decision_count gp h R :
  0 ≤ g_signedBlocksWindow gp → 1 ≤ h →
  header_decision gp h R =
    (g_signedBlocksWindow gp - (Z.of_nat (length (List.filter (in_window (win_start gp h) (h - 1)) R)) + 1)
     <? g_minSignedBlocks gp).
Proof.
  intros Hw Hh. unfold header_decision. rewrite List.filter_app, app_length. cbn [List.filter].
  assert (E : in_window (win_start gp h) (h - 1) (h - 1) = true) by (unfold in_window, win_start; lia).
  rewrite E. cbn [length]. f_equal. lia.
Qed.

Theorem jail_decision_from_headers g ops hd a d :
  genesis_ok g → opts_ok ops → blocks InvPanic.Idle 0 (ops ++ [SBegin hd]) → votes_from_2 ops → window_nonincr g ops →
  let s := srun (init_chain g) ops in
  dels (work s) !! a = Some d →
  jailed (gparams s) (h_height hd) (after_evidence s hd a d)
  = header_decision (gparams s) (h_height hd) (reported_misses a g ops).
Proof.
  intros Hg Ho Hb Hv Hc s Ed.
  destruct (marks_window_agree g ops hd a d Hg Ho Hb Hv Hc Ed) as (_ & E2 & _). fold s in E2.
  unfold jailed, signed_in_window, missed_in_window, header_decision.
  change (missed_marks (h_height hd) (after_evidence s hd a d)) with (missed_marks (h_height hd) d).
  rewrite E2. reflexivity.
Qed.
Print Assumptions jail_decision_from_headers.

(* C14_run_jail_iff with the decision read off the headers: a delegatee leaves in the block of
   header [hd] iff [hd] reports it as a non-signer and the header decision is "jail" *)
Theorem C14_jail_iff_headers g pre hd :
  genesis_ok g → hashes_fresh pre → opts_ok pre → blocks InvPanic.Idle 0 (pre ++ [SBegin hd]) →
  NoDup (nonsigners (h_votes hd)) → votes_from_2 (pre ++ [SBegin hd]) → window_nonincr g pre →
  let s := srun (init_chain g) pre in
  ∀ a d, dels (work s) !! a = Some d →
    (dels (work (sstep s (SBegin hd))) !! a = None ↔
     a ∈ nonsigners (h_votes hd) ∧
     header_decision (gparams s) (h_height hd) (reported_misses a g pre) = true).
Proof.
  intros Hg Hh Ho Hb Hnd Hv Hc s a d Ed. subst s.
  apply Forall_app in Hv as [Hv0 Hvo]. apply Forall_cons in Hvo as [Hvo _].
  destruct (C14_run_jail_iff g pre hd Hg Hh Ho Hb Hnd Hvo) as [_ J].
  unfold jailing_exact in J. cbv zeta in J. destruct J as (_ & _ & _ & J4 & _).
  rewrite (J4 a d Ed). rewrite (jail_decision_from_headers g pre hd a d Hg Ho Hb Hv0 Hc Ed). reflexivity.
Qed.
Print Assumptions C14_jail_iff_headers.

(* ================================================================== 8. (3) a concrete run *)
(* [window_const] is decidable on a concrete run *)
Fixpoint wconst_from (w : Z) (s : state) (ops : list sop) : bool :=
  (g_signedBlocksWindow (gparams s) =? w) &&
  match ops with [] => true | o :: r => wconst_from w (sstep s o) r end.

Lemma wconst_from_ok w ops : ∀ s, wconst_from w s ops = true →
  ∀ pre post, ops = pre ++ post → g_signedBlocksWindow (gparams (srun s pre)) = w.
Proof.
  induction ops as [|o ops IH]; intros s H pre post E; cbn [wconst_from] in H; apply andb_true_iff in H as [H1 H2].
  - destruct pre; [|discriminate]. cbn. lia.
  - destruct pre as [|o' pre]; [cbn; lia|]. cbn [app] in E. injection E as <- E.
    change (srun s (o :: pre)) with (srun (sstep s o) pre). apply (IH _ H2 pre post E).
Qed.

Lemma window_const_check g ops :
  wconst_from (g_signedBlocksWindow (gen_params g)) (init_chain g) ops = true → window_const g ops.
Proof. intros H pre post E. apply (wconst_from_ok _ ops _ H pre post E). Qed.

(* one validator (11, power 100); signing window 4, at least 2 signed blocks required.  Ten empty
   blocks; the headers of blocks 2, 7 and 10 report 11 as a non-signer (misses at heights 1, 6, 9).
   Block 11 reports the miss of height 10. *)
Definition jh_params : params := {|
  g_version := 1; g_maxValidatorCnt := 21; g_minValidatorStake := 7 * amountPerPower;
  g_minDelegatorStake := 0; g_rewardPerPower := 1000; g_lazyRewardBlocks := 1; g_lazyApplyingBlocks := 1;
  g_gasPrice := 10; g_minTrxGas := 4000; g_maxTrxGas := 25000000; g_maxBlockGas := 100000000;
  g_minVotingPeriodBlocks := 1; g_maxVotingPeriodBlocks := 100; g_minSelfStakeRatio := 50;
  g_maxUpdatableStakeRatio := 30; g_maxIndividualStakeRatio := 10000000; g_slashRatio := 50;
  g_signedBlocksWindow := 4; g_minSignedBlocks := 2 |}.
Definition jh_genesis : genesis := {|
  gen_params := jh_params; gen_holders := [(11%N, 1000 * amountPerPower)]; gen_validators := [(11%N, 100)] |}.
Definition jh_hdr (h : Z) (signed : bool) : header :=
  {| h_height := h; h_proposer := Some 11%N;
     h_votes := if h =? 1 then [] else [(11%N, 100, signed)]; h_evidence := [] |}.
Definition jh_block (h : Z) (signed : bool) : list sop := [SBegin (jh_hdr h signed); SEnd; SCommit].
Definition jh_pre9 : list sop :=
  jh_block 1 true ++ jh_block 2 false ++ jh_block 3 true ++ jh_block 4 true ++ jh_block 5 true ++
  jh_block 6 true ++ jh_block 7 false ++ jh_block 8 true ++ jh_block 9 true.
Definition jh_pre : list sop := jh_pre9 ++ jh_block 10 false.
Definition jh_s9 : state := srun (init_chain jh_genesis) jh_pre9.
Definition jh_s : state := srun (init_chain jh_genesis) jh_pre.

Lemma jh_genesis_ok : genesis_ok jh_genesis.
Proof.
  split; [repeat split; vm_compute; congruence|]. split; [vm_compute; lia|]. split.
  - repeat apply Forall_cons_2; try apply Forall_nil_2; split; vm_compute; congruence.
  - repeat apply Forall_cons_2; try apply Forall_nil_2; split; vm_compute; congruence.
Qed.

Lemma jh_inputs sg :
  hashes_fresh jh_pre ∧ opts_ok jh_pre ∧ blocks InvPanic.Idle 0 (jh_pre ++ [SBegin (jh_hdr 11 sg)]) ∧
  NoDup (nonsigners (h_votes (jh_hdr 11 sg))) ∧ votes_from_2 (jh_pre ++ [SBegin (jh_hdr 11 sg)]) ∧
  window_const jh_genesis jh_pre.
Proof.
  split; [apply NoDup_singleton|]. split; [repeat constructor|]. split; [cbn; repeat split|].
  split; [destruct sg; cbn; [apply NoDup_nil_2|apply NoDup_singleton]|].
  split; [|apply window_const_check; vm_compute; reflexivity].
  unfold votes_from_2. cbn [jh_pre jh_pre9 jh_block app].
  repeat apply Forall_cons_2; try apply Forall_nil_2; try exact I;
    first [left; reflexivity|right; discriminate].
Qed.

(* the runs are evaluated once; the two examples below read their values off this *)
Lemma jh_values :
  let R9 := reported_misses 11%N jh_genesis jh_pre9 in
  let R := reported_misses 11%N jh_genesis jh_pre in
  let s9 := jh_s9 in
  let s := jh_s in
  R9 = [1; 6] ∧ R = [1; 6; 9] ∧
  (d_marks <$> dels (work s9) !! 11%N) = Some [1; 6] ∧ (d_marks <$> dels (work s) !! 11%N) = Some [1; 6; 9] ∧
  header_decision (gparams s9) 10 R9 = false ∧ header_decision (gparams s) 11 R = true ∧
  is_del s 11%N = true ∧ dels (work (sstep s (SBegin (jh_hdr 11 false)))) !! 11%N = None ∧
  is_del (sstep s (SBegin (jh_hdr 11 true))) 11%N = true ∧
  reported_misses 11%N jh_genesis (jh_pre ++ [SBegin (jh_hdr 11 false)]) = [] ∧
  win_start (gparams s) 11 = 6.
Proof. vm_compute. repeat split. Qed.

(* the values: the reported misses before block 11 are 1, 6, 9 and so are the marks; with the miss
   of height 10 the window [6,10] holds three misses, 4 - 3 < 2: jailed at block 11.  One block
   earlier the window [5,9] held two, 4 - 2 = 2: not jailed — the decision flips exactly at the
   threshold; and had 11 signed block 10 it would have stayed. *)
Example jh_example_values :
  reported_misses 11%N jh_genesis jh_pre9 = [1; 6] ∧
  reported_misses 11%N jh_genesis jh_pre = [1; 6; 9] ∧
  (d_marks <$> dels (work jh_s9) !! 11%N) = Some [1; 6] ∧
  (d_marks <$> dels (work jh_s) !! 11%N) = Some [1; 6; 9] ∧
  header_decision (gparams jh_s9) 10 (reported_misses 11%N jh_genesis jh_pre9) = false ∧
  header_decision (gparams jh_s) 11 (reported_misses 11%N jh_genesis jh_pre) = true ∧
  is_Some (dels (work jh_s) !! 11%N) ∧
  dels (work (sstep jh_s (SBegin (jh_hdr 11 false)))) !! 11%N = None ∧
  is_Some (dels (work (sstep jh_s (SBegin (jh_hdr 11 true)))) !! 11%N) ∧
  reported_misses 11%N jh_genesis (jh_pre ++ [SBegin (jh_hdr 11 false)]) = [].
Proof.
  destruct jh_values as (E1 & E2 & E3 & E4 & E5 & E6 & E7 & E8 & E9 & E10 & _).
  split; [exact E1|]. split; [exact E2|]. split; [exact E3|]. split; [exact E4|]. split; [exact E5|].
  split; [exact E6|]. split; [apply is_del_Some, E7|]. split; [exact E8|]. split; [apply is_del_Some, E9|exact E10].
Qed.

(* the theorems applied to this run *)
Example jh_example_applied :
  ∃ d, dels (work jh_s) !! 11%N = Some d ∧
  List.filter (in_window 6 10) (d_marks d) = List.filter (in_window 6 10) [1; 6; 9] ∧
  jailed (gparams jh_s) 11 (after_evidence jh_s (jh_hdr 11 false) 11%N d) = true ∧
  (dels (work (sstep jh_s (SBegin (jh_hdr 11 false)))) !! 11%N = None ↔
   11%N ∈ nonsigners (h_votes (jh_hdr 11 false)) ∧ header_decision (gparams jh_s) 11 [1; 6; 9] = true).
Proof.
  destruct jh_values as (_ & ER & _ & _ & _ & HD & Ed & _ & _ & _ & EW). apply is_del_Some in Ed as [d Ed].
  exists d. split; [exact Ed|].
  destruct (jh_inputs false) as (I1 & I2 & I3 & I4 & I5 & I6).
  assert (I5' : votes_from_2 jh_pre) by (apply Forall_app in I5 as [H _]; exact H).
  apply window_const_nonincr in I6.
  split; [|split].
  - destruct (marks_window_agree jh_genesis jh_pre (jh_hdr 11 false) 11%N d jh_genesis_ok I2 I3 I5' I6 Ed) as (H & _).
    fold jh_s in H. change (h_height (jh_hdr 11 false)) with 11 in H. rewrite EW, ER in H. exact H.
  - pose proof (jail_decision_from_headers jh_genesis jh_pre (jh_hdr 11 false) 11%N d jh_genesis_ok I2 I3 I5' I6 Ed) as JD.
    cbv zeta in JD. fold jh_s in JD. change (h_height (jh_hdr 11 false)) with 11 in JD. rewrite JD. exact HD.
  - rewrite <- ER. apply (C14_jail_iff_headers jh_genesis jh_pre (jh_hdr 11 false) jh_genesis_ok I1 I2 I3 I4 I5 I6 11%N d Ed).
Qed.
Print Assumptions jh_example_applied.

(* ================================================================== 9. the general claim is false: governance can enlarge the window *)
(* One validator (11), window 2, minimum 0.  Misses at heights 1, 2 (blocks 2, 3) and 5 (block 6):
   at block 6 the window is [3,5], two marks lie before it, the record is trimmed to [5].  A
   parameter proposal (submitted in block 3, voted in block 4, frozen at the end of block 7,
   applied at the end of block 8) sets the window to 100 and the minimum to 97.  At block 9 the
   window is [0,8]: the model counts the marks 5 and 8 (100 - 2 = 98, not below 97: stays), the
   headers report 1, 2, 5 and 8 (100 - 4 = 96 < 97: jail).  Every other hypothesis of the
   theorems above holds; only [window_const] fails. *)
Definition jr_params : params := {|
  g_version := 1; g_maxValidatorCnt := 21; g_minValidatorStake := 7 * amountPerPower;
  g_minDelegatorStake := 0; g_rewardPerPower := 1000; g_lazyRewardBlocks := 1; g_lazyApplyingBlocks := 1;
  g_gasPrice := 10; g_minTrxGas := 4000; g_maxTrxGas := 25000000; g_maxBlockGas := 100000000;
  g_minVotingPeriodBlocks := 1; g_maxVotingPeriodBlocks := 100; g_minSelfStakeRatio := 50;
  g_maxUpdatableStakeRatio := 30; g_maxIndividualStakeRatio := 10000000; g_slashRatio := 50;
  g_signedBlocksWindow := 2; g_minSignedBlocks := 0 |}.
Definition jr_doc : params := {|
  g_version := 0; g_maxValidatorCnt := 0; g_minValidatorStake := 0; g_minDelegatorStake := 0;
  g_rewardPerPower := 0; g_lazyRewardBlocks := 0; g_lazyApplyingBlocks := 0; g_gasPrice := 0;
  g_minTrxGas := 0; g_maxTrxGas := 0; g_maxBlockGas := 0; g_minVotingPeriodBlocks := 0;
  g_maxVotingPeriodBlocks := 0; g_minSelfStakeRatio := 0; g_maxUpdatableStakeRatio := 0;
  g_maxIndividualStakeRatio := 0; g_slashRatio := 0; g_signedBlocksWindow := 100; g_minSignedBlocks := 97 |}.
Definition jr_genesis : genesis := {|
  gen_params := jr_params; gen_holders := [(11%N, 1000 * amountPerPower)]; gen_validators := [(11%N, 100)] |}.
Definition jr_hdr (h : Z) (missed : bool) : header :=
  {| h_height := h; h_proposer := Some 11%N;
     h_votes := if missed then [(11%N, 100, false)] else []; h_evidence := [] |}.
Definition jr_prop_tx : tx :=
  demo_tx TRX_PROPOSAL 11%N 0%N 0 4000 0 (PProposal 4 2 8 PROPOSAL_GOVPARAMS [(1%N, Some jr_doc)] true) 55%N.
Definition jr_vote_tx : tx := demo_tx TRX_VOTING 11%N 0%N 0 4000 1 (PVoting 55%N 0) 56%N.
Definition jr_pre : list sop :=
  [SBegin (jr_hdr 1 false); SEnd; SCommit;
   SBegin (jr_hdr 2 true); SEnd; SCommit;
   SBegin (jr_hdr 3 true); SDeliver jr_prop_tx; SEnd; SCommit;
   SBegin (jr_hdr 4 false); SDeliver jr_vote_tx; SEnd; SCommit;
   SBegin (jr_hdr 5 false); SEnd; SCommit;
   SBegin (jr_hdr 6 true); SEnd; SCommit;
   SBegin (jr_hdr 7 false); SEnd; SCommit;
   SBegin (jr_hdr 8 false); SEnd; SCommit].
Definition jr_s := srun (init_chain jr_genesis) jr_pre.

Lemma jr_genesis_ok : genesis_ok jr_genesis.
Proof.
  split; [repeat split; vm_compute; congruence|]. split; [vm_compute; lia|]. split.
  - repeat apply Forall_cons_2; try apply Forall_nil_2; split; vm_compute; congruence.
  - repeat apply Forall_cons_2; try apply Forall_nil_2; split; vm_compute; congruence.
Qed.

Lemma jr_opts_ok : opts_ok jr_pre.
Proof.
  unfold opts_ok, jr_pre. repeat apply Forall_cons_2; try apply Forall_nil_2; try exact I.
  - intros _ _ o q Ho Hq. apply elem_of_list_singleton in Ho. subst o. injection Hq as <-.
    apply doc_fields_ok_doc_ok. unfold doc_fields_ok, unset_or. cbn.
    repeat split; first [left; reflexivity|right; lia].
  - intros H. vm_compute in H. discriminate H.
Qed.

(* the run is evaluated once; every computed value of the theorem below is read off this *)
Lemma jr_values :
  let s := srun (init_chain jr_genesis) jr_pre in
  let R := reported_misses 11%N jr_genesis jr_pre in
  let d := {| d_addr := 11%N; d_self := 100; d_total := 100; d_stakes := [genesis_stake (11%N, 100)]; d_marks := [5] |} in
  g_signedBlocksWindow (gparams s) = 100 ∧ dels (work s) !! 11%N = Some d ∧ R = [1; 2; 5] ∧
  win_start (gparams s) 9 = 0 ∧ jailed (gparams s) 9 (after_evidence s (jr_hdr 9 true) 11%N d) = false ∧
  header_decision (gparams s) 9 R = true ∧ is_del (sstep s (SBegin (jr_hdr 9 true))) 11%N = true.
Proof. vm_compute. repeat split. Qed.

Theorem window_growth_refuted :
  let g := jr_genesis in let ops := jr_pre in let hd := jr_hdr 9 true in let a := 11%N in
  let s := srun (init_chain g) ops in
  genesis_ok g ∧ hashes_fresh ops ∧ opts_ok ops ∧ blocks InvPanic.Idle 0 (ops ++ [SBegin hd]) ∧
  NoDup (nonsigners (h_votes hd)) ∧ votes_from_2 (ops ++ [SBegin hd]) ∧
  g_signedBlocksWindow (gen_params g) = 2 ∧ g_signedBlocksWindow (gparams s) = 100 ∧
  ¬ window_const g ops ∧ ¬ window_nonincr g ops ∧
  ∃ d, dels (work s) !! a = Some d ∧ d_marks d = [5] ∧ reported_misses a g ops = [1; 2; 5] ∧
       win_start (gparams s) 9 = 0 ∧
       List.filter (in_window 0 8) (d_marks d) ≠ List.filter (in_window 0 8) (reported_misses a g ops) ∧
       jailed (gparams s) 9 (after_evidence s hd a d) = false ∧
       header_decision (gparams s) 9 (reported_misses a g ops) = true ∧
       is_Some (dels (work (sstep s (SBegin hd))) !! a).
Proof.
  cbv zeta. pose proof jr_values as E. cbv zeta in E. destruct E as (E1 & E2 & E3 & E4 & E5 & E6 & E7).
  assert (HB : blocks InvPanic.Idle 0 (jr_pre ++ [SBegin (jr_hdr 9 true)])) by (cbn; repeat split).
  assert (HV : votes_from_2 (jr_pre ++ [SBegin (jr_hdr 9 true)])).
  { unfold votes_from_2, jr_pre. cbn [app].
    repeat apply Forall_cons_2; try apply Forall_nil_2; try exact I; first [left; reflexivity|right; discriminate]. }
  split; [exact jr_genesis_ok|]. split; [apply NoDup_singleton|]. split; [exact jr_opts_ok|].
  split; [exact HB|]. split; [apply NoDup_singleton|]. split; [exact HV|].
  split; [reflexivity|]. split; [exact E1|]. split.
  { intros H. specialize (H jr_pre [] (eq_sym (app_nil_r jr_pre))). rewrite E1 in H. discriminate H. }
  split.
  { (* otherwise marks_window_agree would apply *)
    intros H. apply Forall_app in HV as [HV _].
    destruct (marks_window_agree jr_genesis jr_pre (jr_hdr 9 true) 11%N _ jr_genesis_ok jr_opts_ok HB HV H E2) as (E & _).
    cbv zeta in E. change (h_height (jr_hdr 9 true)) with 9 in E. rewrite E4, E3 in E. discriminate E. }
  eexists. split; [exact E2|]. split; [reflexivity|]. split; [exact E3|]. split; [exact E4|].
  split; [rewrite E3; intros H; discriminate H|]. split; [exact E5|]. split; [exact E6|].
  apply is_del_Some, E7.
Qed.
Print Assumptions window_growth_refuted.
