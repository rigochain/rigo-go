(* SpecFacts.v — what every invariant file needs to know about the definitions of Base.v, Spec.v and
   SpecProps.v, proved once: the 256-bit arithmetic where it does not wrap, accounts after a write,
   [find_or_new], [sorted_items], folds whose accumulator is a [res], sums, the loop bodies of Spec.v's
   folds under names, runs, the footprint of every executor on the seven ledgers ([keeps]), and the
   outcomes of BeginBlock and EndBlock as case analyses ([begin_block_cases], [end_block_cases]). *)
From Rigo Require Import Base.
From stdpp Require Import gmap sorting.
From Rigo Require Import Spec SpecProps.
Local Open Scope Z_scope.

(* ================================================================== machine arithmetic *)
Lemma two256_pos : 0 < two256.  Proof. reflexivity. Qed.
Lemma two255_pos : 0 < two255.  Proof. reflexivity. Qed.
Lemma two64_pos : 0 < two64.  Proof. reflexivity. Qed.
Lemma two63_pos : 0 < two63.  Proof. reflexivity. Qed.
Lemma two256_double : two256 = 2 * two255.  Proof. reflexivity. Qed.
Lemma two64_double : two64 = 2 * two63.  Proof. reflexivity. Qed.
Lemma two64_two256 : two64 * 2 ^ 192 = two256.  Proof. reflexivity. Qed.

Local Opaque two256 two255 two64 two63.

Lemma add256_small a b : 0 ≤ a + b < two256 → add256 a b = a + b.
Proof. apply wrap256_small. Qed.
Lemma sub256_small a b : 0 ≤ a - b < two256 → sub256 a b = a - b.
Proof. apply wrap256_small. Qed.
Lemma mul256_small a b : 0 ≤ a * b < two256 → mul256 a b = a * b.
Proof. apply wrap256_small. Qed.
Lemma add256_range a b : 0 ≤ add256 a b < two256.  Proof. apply wrap256_range. Qed.
Lemma sub256_range a b : 0 ≤ sub256 a b < two256.  Proof. apply wrap256_range. Qed.
Lemma mul256_range a b : 0 ≤ mul256 a b < two256.  Proof. apply wrap256_range. Qed.

(* uint256.Sign() is negative exactly from bit 255 on *)
Lemma sign256_nonneg z : (sign256 z <? 0) = false ↔ z < two255.
Proof.
  pose proof two255_pos. unfold sign256.
  destruct (Z.eqb_spec z 0) as [->|_]; [split; [lia|reflexivity]|].
  destruct (Z.leb_spec two255 z); split; (discriminate || lia || reflexivity).
Qed.

Lemma sign256_pos z : 0 ≤ z → (0 <? sign256 z) = true ↔ 0 < z < two255.
Proof.
  intros Hz. unfold sign256.
  destruct (Z.eqb_spec z 0) as [->|Hne]; [split; [discriminate|lia]|].
  destruct (Z.leb_spec two255 z); split; (discriminate || lia || reflexivity).
Qed.

Lemma mul_lt_two256 p g : 0 ≤ p < 2 ^ 192 → 0 ≤ g < two64 → 0 ≤ p * g < two256.
Proof.
  intros Hp Hg. rewrite <- two64_two256. split; [apply Z.mul_nonneg_nonneg; lia|].
  rewrite (Z.mul_comm two64). apply Z.mul_lt_mono_nonneg; lia.
Qed.

Lemma fee_of_range t : 0 ≤ fee_of t < two256.
Proof. apply mul256_range. Qed.

Lemma fee_of_exact t : 0 ≤ t_price t < 2 ^ 192 → 0 ≤ t_gas t < two64 → fee_of t = t_price t * t_gas t.
Proof. intros Hp Hg. apply mul256_small, mul_lt_two256; assumption. Qed.

(* ================================================================== accounts after a write *)
Lemma acct_of_set_acct l a x b : acct_of (set_acct l a x) b = if decide (a = b) then x else acct_of l b.
Proof.
  unfold acct_of. cbn [accts set_acct]. destruct (decide (a = b)) as [->|Hne].
  - rewrite lookup_insert. reflexivity.
  - rewrite lookup_insert_ne by exact Hne. reflexivity.
Qed.

Lemma bal_of_set_acct l a x b : bal_of (set_acct l a x) b = if decide (a = b) then a_bal x else bal_of l b.
Proof. unfold bal_of. rewrite acct_of_set_acct. destruct (decide (a = b)); reflexivity. Qed.

Lemma acct_of_lookup l a x : accts l !! a = Some x → acct_of l a = x.
Proof. intros H. unfold acct_of. rewrite H. reflexivity. Qed.

(* ================================================================== find_or_new *)
Lemma find_or_new_fst l a :
  (find_or_new l a).1 = match accts l !! a with Some _ => l | None => set_acct l a acct0 end.
Proof. unfold find_or_new. destruct (accts l !! a); reflexivity. Qed.

Lemma find_or_new_snd l a : (find_or_new l a).2 = acct_of l a.
Proof. unfold find_or_new, acct_of. destruct (accts l !! a); reflexivity. Qed.

Lemma find_or_new_lookup l a : accts (find_or_new l a).1 !! a = Some (find_or_new l a).2.
Proof. unfold find_or_new. destruct (accts l !! a) eqn:E; cbn; [exact E|apply lookup_insert]. Qed.

Lemma find_or_new_lookup_old l a b x : accts l !! b = Some x → accts (find_or_new l a).1 !! b = Some x.
Proof.
  intros H. rewrite find_or_new_fst. destruct (accts l !! a) eqn:E; cbn; [exact H|].
  rewrite lookup_insert_ne; [exact H|]. intros ->. congruence.
Qed.

(* the account it may create is the empty one: no account changes as [acct_of] sees it *)
Lemma find_or_new_acct_of l a b : acct_of (find_or_new l a).1 b = acct_of l b.
Proof.
  rewrite find_or_new_fst. destruct (accts l !! a) eqn:E; [reflexivity|].
  rewrite acct_of_set_acct. destruct (decide (a = b)) as [<-|]; [|reflexivity].
  unfold acct_of. rewrite E. reflexivity.
Qed.

(* ================================================================== sorted_items *)
Lemma elem_of_sorted_items {A} (m : gmap N A) k x : (k, x) ∈ sorted_items m ↔ m !! k = Some x.
Proof. unfold sorted_items. rewrite merge_sort_Permutation. apply elem_of_map_to_list. Qed.

Lemma sorted_items_perm {A} (m : gmap N A) : sorted_items m ≡ₚ map_to_list m.
Proof. apply merge_sort_Permutation. Qed.

Lemma NoDup_keys_sorted_items {A} (m : gmap N A) : NoDup (sorted_items m).*1.
Proof. rewrite sorted_items_perm. apply NoDup_fst_map_to_list. Qed.

(* ================================================================== pairs *)
(* [(f x).1] names the state a closed example ends in without normalising it; this states the answer beside it *)
Lemma pair_snd_eq {A B} (p : A * B) b : p.2 = b → p = (p.1, b).
Proof. intros <-. apply surjective_pairing. Qed.

(* ================================================================== folds *)
Lemma foldl_ext {A B} (f g : A → B → A) (l : list B) :
  (∀ a b, f a b = g a b) → ∀ a, foldl f a l = foldl g a l.
Proof. intros H. induction l as [|b l IH]; intros a; cbn; [reflexivity|]. rewrite H. apply IH. Qed.

Lemma foldl_inv {A B} (f : A → B → A) (P : A → Prop) (l : list B) :
  (∀ a b, b ∈ l → P a → P (f a b)) → ∀ a, P a → P (foldl f a l).
Proof.
  induction l as [|b l IH]; intros Hf a Ha; simpl; [exact Ha|].
  apply IH; [|apply Hf; [left|exact Ha]]. intros a2 b2 Hin. apply Hf. right. exact Hin.
Qed.

(* Spec.v's block loops thread a [res]: once it is an error or a panic it stays what it is *)
Definition res_stuck {A B} (f : res A → B → res A) : Prop :=
  (∀ e b, f (Err e) b = Err e) ∧ (∀ p b, f (Panic p) b = Panic p).

Lemma foldl_res_err {A B} (f : res A → B → res A) (xs : list B) e :
  (∀ b, f (Err e) b = Err e) → foldl f (Err e) xs = Err e.
Proof. intros Hf. induction xs as [|x xs IH]; simpl; [reflexivity|]. rewrite Hf. exact IH. Qed.

Lemma foldl_res_panic {A B} (f : res A → B → res A) (xs : list B) p :
  (∀ b, f (Panic p) b = Panic p) → foldl f (Panic p) xs = Panic p.
Proof. intros Hf. induction xs as [|x xs IH]; simpl; [reflexivity|]. rewrite Hf. exact IH. Qed.

Lemma foldl_res_inv {A B} (P : A → Prop) (f : res A → B → res A) (xs : list B) :
  res_stuck f →
  (∀ a b a', b ∈ xs → P a → f (Ok a) b = Ok a' → P a') →
  ∀ a a', P a → foldl f (Ok a) xs = Ok a' → P a'.
Proof.
  intros [He Hp]. induction xs as [|x xs IH]; intros Hstep a a' Ha Hf; simpl in Hf.
  - injection Hf as <-. exact Ha.
  - destruct (f (Ok a) x) as [a1|e|p] eqn:E.
    + eapply IH; [|eapply Hstep; [left|exact Ha|exact E]|exact Hf].
      intros a2 b a2' Hb. apply Hstep. right. exact Hb.
    + rewrite foldl_res_err in Hf by (intros; apply He). discriminate.
    + rewrite foldl_res_panic in Hf by (intros; apply Hp). discriminate.
Qed.

Lemma foldl_res_ok {A B} (f : res A → B → res A) (P : A → Prop) (l : list B) :
  (∀ a b, b ∈ l → P a → ∃ a', f (Ok a) b = Ok a' ∧ P a') →
  ∀ a, P a → ∃ a', foldl f (Ok a) l = Ok a' ∧ P a'.
Proof.
  induction l as [|b l IH]; intros Hf a Ha; simpl.
  - exists a. split; [reflexivity|exact Ha].
  - destruct (Hf a b (elem_of_list_here _ _) Ha) as (a1 & -> & Ha1).
    apply IH; [|exact Ha1]. intros a2 b2 Hin. apply Hf. apply elem_of_list_further. exact Hin.
Qed.

(* ================================================================== sums *)
Lemma sumZ_with_app {A} (f : A → Z) l k : sumZ_with f (l ++ k) = sumZ_with f l + sumZ_with f k.
Proof. unfold sumZ_with. induction l as [|x l IH]; cbn; lia. Qed.

Lemma sumZ_with_ext {A} (f g : A → Z) l : (∀ x, x ∈ l → f x = g x) → sumZ_with f l = sumZ_with g l.
Proof.
  unfold sumZ_with. induction l as [|x l IH]; intros H; cbn; [reflexivity|].
  rewrite IH by (intros y Hy; apply H; right; exact Hy). rewrite (H x) by left. reflexivity.
Qed.

Lemma sumZ_with_perm {A} (f : A → Z) l k : l ≡ₚ k → sumZ_with f l = sumZ_with f k.
Proof. unfold sumZ_with. induction 1; cbn; lia. Qed.

Lemma sumZ_with_nonneg {A} (f : A → Z) l : (∀ x, x ∈ l → 0 ≤ f x) → 0 ≤ sumZ_with f l.
Proof.
  unfold sumZ_with. induction l as [|x l IH]; intros H; cbn; [lia|].
  pose proof (H x (elem_of_list_here _ _)). pose proof (IH (λ y Hy, H y (elem_of_list_further _ _ _ Hy))). lia.
Qed.

Lemma sum_power_cons s l : sum_power (s :: l) = s_power s + sum_power l.
Proof. reflexivity. Qed.

Lemma sum_power_app l k : sum_power (l ++ k) = sum_power l + sum_power k.
Proof. apply sumZ_with_app. Qed.

Lemma sum_power_perm l k : l ≡ₚ k → sum_power l = sum_power k.
Proof. apply sumZ_with_perm. Qed.

Lemma sum_power_nonneg l : (∀ st, st ∈ l → 0 ≤ s_power st) → 0 ≤ sum_power l.
Proof. apply sumZ_with_nonneg. Qed.

(* ================================================================== the loops of Spec.v, by their bodies *)
Definition freeze_step (h : Z) (acc : res ledgers) (kp : hash * proposal) : res ledgers :=
  match acc with
  | Ok l =>
      let p := kp.2 in
      if p_end p <? h then
        match props l !! kp.1 with
        | None => Panic P_ENDBLOCK
        | Some _ =>
            let l1 := set_props l (delete kp.1 (props l)) in
            match update_major p with
            | Ok p' => match p_major p' with
                       | Some _ => Ok (set_fprops l1 (<[kp.1 := p']> (fprops l1)))
                       | None => Ok l1 end
            | Err e => Err e | Panic x => Panic x
            end
        end
      else Ok l
  | x => x end.

Lemma freeze_proposals_eq base l h :
  freeze_proposals base l h = foldl (freeze_step h) (Ok l) (sorted_items (props base)).
Proof. reflexivity. Qed.

Definition apply_step (g : params) (h : Z) (acc : res (ledgers * option params)) (kp : hash * proposal)
    : res (ledgers * option params) :=
  match acc with
  | Ok (l, np) =>
      let p := kp.2 in
      if p_apply p <=? h then
        match fprops l !! kp.1 with
        | None => Panic P_ENDBLOCK
        | Some _ =>
            let l1 := set_fprops l (delete kp.1 (fprops l)) in
            match p_major p with
            | Some o =>
                if p_opttype p =? PROPOSAL_GOVPARAMS then
                  match o_params o with
                  | Some newp => let m := merge_params g newp in Ok (set_lparams l1 m, Some m)
                  | None => Panic P_ENDBLOCK
                  end
                else Ok (l1, np)
            | None => Ok (l1, np)
            end
        end
      else Ok (l, np)
  | x => x end.

Lemma apply_proposals_eq s base l h :
  apply_proposals s base l h =
  foldl (apply_step (gparams s) h) (Ok (l, newparams s)) (sorted_items (fprops base)).
Proof. reflexivity. Qed.

Definition unfreeze_step (h : Z) (acc : res ledgers) (kp : hash * stake) : res ledgers :=
  match acc with
  | Ok l =>
      let s0 := kp.2 in
      if s_refund s0 <=? h then
        match acct_reward l (s_from s0) (power_to_amount (s_power s0)) with
        | None => Panic P_ENDBLOCK
        | Some l1 => Ok (set_frozen l1 (delete kp.1 (frozen l1)))
        end
      else Ok l
  | x => x end.

Lemma unfreeze_eq base l h : unfreeze base l h = foldl (unfreeze_step h) (Ok l) (sorted_items (frozen base)).
Proof. reflexivity. Qed.

Definition reward_step (g : params) (h : Z) (acc : res (gmap addr reward * Z)) (s0 : stake)
    : res (gmap addr reward * Z) :=
  match acc with
  | Ok (m, issued) =>
      let amt := mul256 (s_power s0 mod two64) (g_rewardPerPower g) in
      match reward_issue (default reward0 (m !! s_from s0)) amt h with
      | None => Panic P_REWARD_HEIGHT
      | Some r' => Ok (<[s_from s0 := r']> m, add256 issued amt)
      end
  | x => x end.

Lemma reward_to_eq g h rw d : reward_to g h rw d = foldl (reward_step g h) (Ok (rw, 0)) (d_stakes d).
Proof. reflexivity. Qed.

(* a delegatee with its miss record replaced, and what the vote loop does for one validator that
   did not sign: the miss is recorded, and below the signing threshold the validator is jailed *)
Definition with_marks (d : delegatee) (m : list Z) : delegatee :=
  {| d_addr := d_addr d; d_self := d_self d; d_total := d_total d; d_stakes := d_stakes d; d_marks := m |}.

Definition jail_step (g : params) (h : Z) (l : ledgers) (a : addr) : ledgers :=
  match dels l !! a with
  | None => l
  | Some d =>
      let sh := h - 1 in
      let s0 := if sh - g_signedBlocksWindow g <? 0 then 0 else sh - g_signedBlocksWindow g in
      let '(cnt, m2) := count_in_window (mark (d_marks d) sh) s0 sh in
      let d1 := with_marks d m2 in
      let l1 := set_dels l (<[a := d1]> (dels l)) in
      if g_signedBlocksWindow g - cnt <? g_minSignedBlocks g then
        let l2 := set_frozen l1 (freeze_all (frozen l1) (h + g_lazyRewardBlocks g) (d_stakes d1)) in
        set_dels l2 (delete a (dels l2))
      else l1
  end.

Definition vote_step (g : params) (old : ledgers) (h : Z) (acc : res (ledgers * Z)) (v : addr * Z * bool)
    : res (ledgers * Z) :=
  match acc with
  | Ok (l, issued) =>
      let '(a, pw, signed) := v in
      if signed : bool then
        match dels old !! a with
        | None => Ok (l, issued)
        | Some d => if negb (d_total d =? pw) then Ok (l, issued)
                    else match reward_to g h (rewards l) d with
                         | Ok (rw, iss) => Ok (set_rewards l rw, add256 issued iss)
                         | Err e => Err e | Panic p => Panic p end
        end
      else Ok (jail_step g h l a, issued)
  | x => x end.

Lemma process_votes_eq s l h votes :
  process_votes s l h votes =
  match ledgers_at s (hgt_of_power h) with
  | None => Panic P_BEGINBLOCK
  | Some old => foldl (vote_step (gparams s) old h) (Ok (l, 0)) votes
  end.
Proof.
  unfold process_votes. destruct (ledgers_at s (hgt_of_power h)) as [old|]; [|reflexivity].
  apply foldl_ext. intros [[l0 issued]|e|p] [[a pw] signed]; try reflexivity.
  unfold vote_step, jail_step. destruct signed; [reflexivity|].
  destruct (dels l0 !! a) as [d|]; [|reflexivity]. cbv zeta.
  destruct (count_in_window _ _ _) as [cnt m2]. cbn [del_all_stakes].
  destruct (_ <? g_minSignedBlocks _); reflexivity.
Qed.

Lemma res_stuck_freeze h : res_stuck (freeze_step h).  Proof. split; reflexivity. Qed.
Lemma res_stuck_apply g h : res_stuck (apply_step g h).  Proof. split; reflexivity. Qed.
Lemma res_stuck_unfreeze h : res_stuck (unfreeze_step h).  Proof. split; reflexivity. Qed.
Lemma res_stuck_reward g h : res_stuck (reward_step g h).  Proof. split; reflexivity. Qed.
Lemma res_stuck_vote g old h : res_stuck (vote_step g old h).  Proof. split; reflexivity. Qed.

(* ================================================================== runs and versions *)
Lemma srun_app s l1 l2 : srun s (l1 ++ l2) = srun (srun s l1) l2.
Proof. apply foldl_app. Qed.

Lemma srun_snoc s ops o : srun s (ops ++ [o]) = sstep (srun s ops) o.
Proof. apply srun_app. Qed.

Lemma srun_inv (I : state → Prop) : (∀ s o, I s → I (sstep s o)) → ∀ ops s, I s → I (srun s ops).
Proof. intros Hstep ops. induction ops as [|o ops IH]; intros s Hs; [exact Hs|]. apply IH, Hstep, Hs. Qed.

Lemma base_of_same s s' : committed s' = committed s → gparams s' = gparams s → base_of s' = base_of s.
Proof. intros A B. unfold base_of. rewrite A, B. reflexivity. Qed.

(* ================================================================== footprints *)
(* Which of the seven ledgers an operation leaves untouched: [keeps f l l'] says that every ledger
   whose flag in [f] is set is the same in [l'] as in [l].  Each executor of Spec.v gets one lemma
   with the largest [f] that is true of it; what a proof needs of it is a projection. *)
Record fields := Fields {
  f_accts : bool; f_dels : bool; f_frozen : bool; f_rewards : bool; f_props : bool; f_fprops : bool;
  f_lparams : bool }.

Definition keeps (f : fields) (l l' : ledgers) : Prop :=
  (f_accts f → accts l' = accts l) ∧ (f_dels f → dels l' = dels l) ∧ (f_frozen f → frozen l' = frozen l) ∧
  (f_rewards f → rewards l' = rewards l) ∧ (f_props f → props l' = props l) ∧
  (f_fprops f → fprops l' = fprops l) ∧ (f_lparams f → lparams l' = lparams l).

(* the footprints that occur, named by what may change *)
Definition but_accts : fields := Fields false true true true true true true.
Definition but_dels : fields := Fields true false true true true true true.
Definition but_rewards : fields := Fields true true true false true true true.
Definition but_props : fields := Fields true true true true false true true.
(* accounts, delegatees, unbonding stakes, rewards: the staking transactions *)
Definition but_staking : fields := Fields false false false false true true true.
(* delegatees, unbonding stakes, rewards: the vote loop of BeginBlock *)
Definition but_votes : fields := Fields true false false false true true true.
Definition but_proposals : fields := Fields true true true true false false true.
Definition but_applied : fields := Fields true true true true true false false.
(* accounts and unbonding stakes: the refunds of EndBlock *)
Definition but_refunds : fields := Fields false true false true true true true.

Definition fields_and (f g : fields) : fields :=
  Fields (f_accts f && f_accts g) (f_dels f && f_dels g) (f_frozen f && f_frozen g) (f_rewards f && f_rewards g)
         (f_props f && f_props g) (f_fprops f && f_fprops g) (f_lparams f && f_lparams g).

Lemma keeps_refl f l : keeps f l l.
Proof. repeat split. Qed.

Lemma keeps_seq f g l1 l2 l3 : keeps f l1 l2 → keeps g l2 l3 → keeps (fields_and f g) l1 l3.
Proof.
  intros (A1 & A2 & A3 & A4 & A5 & A6 & A7) (B1 & B2 & B3 & B4 & B5 & B6 & B7).
  repeat split; cbn; intros [X Y]%andb_prop_elim.
  - rewrite (B1 Y). exact (A1 X).
  - rewrite (B2 Y). exact (A2 X).
  - rewrite (B3 Y). exact (A3 X).
  - rewrite (B4 Y). exact (A4 X).
  - rewrite (B5 Y). exact (A5 X).
  - rewrite (B6 Y). exact (A6 X).
  - rewrite (B7 Y). exact (A7 X).
Qed.

Lemma keeps_accts f l l' : keeps f l l' → f_accts f → accts l' = accts l.  Proof. intros H; apply H. Qed.
Lemma keeps_dels f l l' : keeps f l l' → f_dels f → dels l' = dels l.  Proof. intros H; apply H. Qed.
Lemma keeps_frozen f l l' : keeps f l l' → f_frozen f → frozen l' = frozen l.  Proof. intros H; apply H. Qed.
Lemma keeps_rewards f l l' : keeps f l l' → f_rewards f → rewards l' = rewards l.  Proof. intros H; apply H. Qed.
Lemma keeps_props f l l' : keeps f l l' → f_props f → props l' = props l.  Proof. intros H; apply H. Qed.
Lemma keeps_fprops f l l' : keeps f l l' → f_fprops f → fprops l' = fprops l.  Proof. intros H; apply H. Qed.
Lemma keeps_lparams f l l' : keeps f l l' → f_lparams f → lparams l' = lparams l.  Proof. intros H; apply H. Qed.

Lemma andb_absorb_elim (b c : bool) : b && c = c → c → b.
Proof. by destruct b, c. Qed.

Lemma keeps_weaken f g l l' : keeps f l l' → fields_and f g = g → keeps g l l'.
Proof.
  intros (A1 & A2 & A3 & A4 & A5 & A6 & A7) E. destruct f, g. cbn in *.
  injection E as E1 E2 E3 E4 E5 E6 E7. repeat split; cbn; intros X.
  - apply A1, (andb_absorb_elim _ _ E1), X.
  - apply A2, (andb_absorb_elim _ _ E2), X.
  - apply A3, (andb_absorb_elim _ _ E3), X.
  - apply A4, (andb_absorb_elim _ _ E4), X.
  - apply A5, (andb_absorb_elim _ _ E5), X.
  - apply A6, (andb_absorb_elim _ _ E6), X.
  - apply A7, (andb_absorb_elim _ _ E7), X.
Qed.

Lemma keeps_trans f l1 l2 l3 : keeps f l1 l2 → keeps f l2 l3 → keeps f l1 l3.
Proof.
  intros H1 H2. apply (keeps_weaken _ _ _ _ (keeps_seq _ _ _ _ _ H1 H2)).
  by destruct f as [[] [] [] [] [] [] []].
Qed.

(* closes [keeps f l l'] when [l'] is [l] under setters of ledgers whose flag in [f] is cleared *)
Ltac keeps_setters := repeat split; cbn; (reflexivity || intros []).

Lemma keeps_set_acct l a x : keeps but_accts l (set_acct l a x).  Proof. keeps_setters. Qed.
Lemma keeps_set_dels l m : keeps but_dels l (set_dels l m).  Proof. keeps_setters. Qed.
Lemma keeps_set_rewards l m : keeps but_rewards l (set_rewards l m).  Proof. keeps_setters. Qed.
Lemma keeps_set_props l m : keeps but_props l (set_props l m).  Proof. keeps_setters. Qed.

Lemma find_or_new_keeps l a : keeps but_accts l (find_or_new l a).1.
Proof. rewrite find_or_new_fst. destruct (accts l !! a); [apply keeps_refl|apply keeps_set_acct]. Qed.

Lemma acct_reward_keeps l a amt l' : acct_reward l a amt = Some l' → keeps but_accts l l'.
Proof.
  unfold acct_reward. destruct (accts l !! a) as [x|]; [|discriminate]. cbn.
  destruct (add_balance x amt); [|discriminate]. intros [= <-]. apply keeps_set_acct.
Qed.

Lemma acct_execute_keeps l t l' : acct_execute l t = Ok l' → keeps but_accts l l'.
Proof.
  unfold acct_execute. destruct (accts l !! t_from t) as [sender|]; [|discriminate].
  destruct (accts l !! t_to t) as [receiver|]; [|discriminate].
  destruct (t_type t =? TRX_TRANSFER).
  - destruct (sub_balance sender (t_amount t)); [|discriminate].
    destruct (add_balance _ (t_amount t)); [|discriminate]. intros [= <-]. keeps_setters.
  - destruct (t_payload t); try discriminate. intros [= <-]. apply keeps_set_acct.
Qed.

Lemma evm_execute_keeps l t l' gas : evm_execute l t = Ok (l', gas) → keeps but_accts l l'.
Proof.
  unfold evm_execute. destruct (t_evm t) as [e|]; [|discriminate].
  destruct (e_ok e); [|discriminate]. cbn [negb]. intros [= <- _].
  set (write := λ (l : ledgers) (x : addr * Z * Z), _).
  assert (Hw : keeps but_accts l (foldl write l (e_accts e))).
  { apply (foldl_inv write (keeps but_accts l)); [|apply keeps_refl].
    intros l1 [[a bal] nonce] _ H. apply (keeps_trans _ _ _ _ H), keeps_set_acct. }
  destruct (e_created e); [|exact Hw]. apply (keeps_trans _ _ _ _ Hw), keeps_set_acct.
Qed.

Lemma gov_execute_keeps s l t l' : gov_execute s l t = Ok l' → keeps but_props l l'.
Proof.
  unfold gov_execute. destruct (t_type t =? TRX_PROPOSAL).
  - destruct (t_payload t); try discriminate. intros [= <-]. apply keeps_set_props.
  - destruct (t_payload t) as [| | | |ph choice| |]; try discriminate.
    destruct (props l !! ph) as [p|]; [|discriminate].
    destruct (prop_vote p (t_from t) choice); [|discriminate]. intros [= <-]. apply keeps_set_props.
Qed.

Lemma stake_execute_keeps s l t l' : stake_execute s l t = Ok l' → keeps but_staking l l'.
Proof.
  unfold stake_execute. destruct (t_type t =? TRX_STAKING).
  { destruct (match dels l !! t_to t with Some d => Some d | None => _ end); [|discriminate].
    destruct (accts l !! t_from t) as [sender|]; [|discriminate].
    destruct (sub_balance sender (t_amount t)); [|discriminate]. intros [= <-]. keeps_setters. }
  destruct (t_type t =? TRX_UNSTAKING).
  { destruct (dels l !! t_to t) as [d|]; [|discriminate].
    destruct (t_payload t) as [|hs ?| | | | |]; try discriminate.
    destruct (find_stake hs (d_stakes d)) as [s0|]; [|discriminate].
    destruct (negb _); [discriminate|]. cbv zeta.
    destruct (d_self _ =? 0); cbn [del_all_stakes]; destruct (d_total _ =? 0); intros [= <-]; keeps_setters. }
  destruct (t_payload t) as [| |req| | | |]; try discriminate.
  destruct (rewards l !! t_from t) as [r|]; [|discriminate].
  destruct (r_height r >? _); [discriminate|].
  destruct (acct_reward _ _ _) as [l2|] eqn:E; [|discriminate]. intros [= <-].
  apply acct_reward_keeps in E.
  exact (keeps_weaken _ _ _ _ (keeps_seq _ _ _ _ _ (keeps_set_rewards _ _) E) eq_refl).
Qed.

Lemma gov_punish_keeps l ratio evi : keeps but_props l (gov_punish l ratio evi).
Proof.
  unfold gov_punish. apply (foldl_inv _ (keeps but_props l)); [|apply keeps_refl].
  intros l1 a _ H1. apply (foldl_inv _ (keeps but_props l)); [|exact H1].
  intros l2 kp _ H2. destruct (props l2 !! kp.1); [|exact H2].
  apply (keeps_trans _ _ _ _ H2), keeps_set_props.
Qed.

Lemma stake_punish_keeps l ratio evi : keeps but_dels l (stake_punish l ratio evi).
Proof.
  unfold stake_punish. apply (foldl_inv _ (keeps but_dels l)); [|apply keeps_refl].
  intros l1 a _ H1. destruct (dels l1 !! a); [|exact H1].
  apply (keeps_trans _ _ _ _ H1), keeps_set_dels.
Qed.

Lemma jail_step_keeps g h l a : keeps but_votes l (jail_step g h l a).
Proof.
  unfold jail_step. destruct (dels l !! a); [|apply keeps_refl]. cbv zeta.
  destruct (count_in_window _ _ _). destruct (_ <? g_minSignedBlocks _); keeps_setters.
Qed.

Lemma process_votes_keeps s l h votes l' issued :
  process_votes s l h votes = Ok (l', issued) → keeps but_votes l l'.
Proof.
  rewrite process_votes_eq. destruct (ledgers_at s (hgt_of_power h)) as [old|]; [|discriminate].
  intros H.
  apply (foldl_res_inv (λ x, keeps but_votes l x.1) _ _ (res_stuck_vote _ _ _)) with (a := (l, 0)) in H;
    [exact H| |apply keeps_refl].
  intros [l1 i1] [[a pw] signed] [l2 i2] _ H1. cbn [fst vote_step]. destruct signed.
  - destruct (dels old !! a) as [d|]; [|intros [= <- _]; exact H1].
    destruct (negb _); [intros [= <- _]; exact H1|].
    destruct (reward_to _ _ _ _) as [[rw iss]| |]; try discriminate. intros [= <- _].
    apply (keeps_trans _ _ _ _ H1). keeps_setters.
  - intros [= <- _]. apply (keeps_trans _ _ _ _ H1), jail_step_keeps.
Qed.

Lemma freeze_proposals_keeps base l h l' : freeze_proposals base l h = Ok l' → keeps but_proposals l l'.
Proof.
  rewrite freeze_proposals_eq.
  apply (foldl_res_inv (keeps but_proposals l) _ _ (res_stuck_freeze _)); [|apply keeps_refl].
  intros l1 kp l2 _ H1. cbn [freeze_step]. destruct (p_end _ <? h); [|intros [= <-]; exact H1].
  destruct (props l1 !! kp.1); [|discriminate].
  destruct (update_major kp.2) as [p'| |]; try discriminate.
  destruct (p_major p'); intros [= <-]; apply (keeps_trans _ _ _ _ H1); keeps_setters.
Qed.

Lemma apply_proposals_keeps s base l h l' np :
  apply_proposals s base l h = Ok (l', np) → keeps but_applied l l'.
Proof.
  rewrite apply_proposals_eq. intros H.
  apply (foldl_res_inv (λ x, keeps but_applied l x.1) _ _ (res_stuck_apply _ _)) with (a := (l, newparams s)) in H;
    [exact H| |apply keeps_refl].
  intros [l1 n1] kp [l2 n2] _ H1. cbn [fst apply_step]. destruct (p_apply _ <=? h); [|intros [= <- _]; exact H1].
  destruct (fprops l1 !! kp.1); [|discriminate].
  destruct (p_major kp.2) as [o|]; [|intros [= <- _]; apply (keeps_trans _ _ _ _ H1); keeps_setters].
  destruct (p_opttype _ =? _); [|intros [= <- _]; apply (keeps_trans _ _ _ _ H1); keeps_setters].
  destruct (o_params o); [|discriminate]. intros [= <- _]. apply (keeps_trans _ _ _ _ H1). keeps_setters.
Qed.

Lemma unfreeze_keeps base l h l' : unfreeze base l h = Ok l' → keeps but_refunds l l'.
Proof.
  rewrite unfreeze_eq.
  apply (foldl_res_inv (keeps but_refunds l) _ _ (res_stuck_unfreeze _)); [|apply keeps_refl].
  intros l1 kp l2 _ H1. cbn [unfreeze_step]. destruct (s_refund _ <=? h); [|intros [= <-]; exact H1].
  destruct (acct_reward _ _ _) as [l3|] eqn:E; [|discriminate]. intros [= <-].
  apply acct_reward_keeps in E. apply (keeps_trans _ _ _ _ H1).
  apply (keeps_trans _ l1 l3); [exact (keeps_weaken _ _ _ _ E eq_refl)|keeps_setters].
Qed.

(* ================================================================== the shape of begin_block *)
(* the state the vote loop of BeginBlock runs in: evidence punished (proposals, then stakes); the
   eligible delegatees of the committed tree listed, the limiter reset, the block context set anew *)
Definition begun (s : state) (hd : header) : state :=
  let g := gparams s in
  let all := sort_power (List.filter (λ d, min_power g <=? d_self d) (snd <$> sorted_items (dels (base_of s)))) in
  {| committed := committed s;
     work := stake_punish (gov_punish (work s) (g_slashRatio g) (h_evidence hd)) (g_slashRatio g) (h_evidence hd);
     gparams := g; newparams := newparams s; alldels := all; lastvals := lastvals s; lim := limiter_reset all g;
     bctx := {| b_height := h_height hd; b_proposer := h_proposer hd; b_feesum := 0; b_txs := 0 |};
     last_height := last_height s |}.

Inductive begins (s : state) (hd : header) : state → res Z → Prop :=
| beg_refused :
    h_height hd ≠ last_height s + 1 → begins s hd s (Panic P_BEGINBLOCK)
| beg_quiet :
    h_height hd = last_height s + 1 → h_votes hd = [] → begins s hd (begun s hd) (Ok 0)
| beg_voted l issued :
    h_height hd = last_height s + 1 → h_votes hd ≠ [] →
    process_votes (begun s hd) (work (begun s hd)) (h_height hd) (h_votes hd) = Ok (l, issued) →
    begins s hd (with_work (begun s hd) l) (Ok issued)
| beg_vote_err e :
    h_height hd = last_height s + 1 → h_votes hd ≠ [] →
    process_votes (begun s hd) (work (begun s hd)) (h_height hd) (h_votes hd) = Err e →
    begins s hd (begun s hd) (Err e)
| beg_vote_panic p :
    h_height hd = last_height s + 1 → h_votes hd ≠ [] →
    process_votes (begun s hd) (work (begun s hd)) (h_height hd) (h_votes hd) = Panic p →
    begins s hd (begun s hd) (Panic p).

Lemma begin_block_cases s hd s' r : begin_block s hd = (s', r) → begins s hd s' r.
Proof.
  unfold begin_block. destruct (Z.eqb_spec (h_height hd) (last_height s + 1)) as [Eh|Eh]; cbn [negb].
  2:{ intros [= <- <-]. apply beg_refused, Eh. }
  fold (begun s hd). destruct (h_votes hd) as [|v votes] eqn:Ev.
  { intros [= <- <-]. apply beg_quiet; assumption. }
  rewrite <- Ev. assert (Hne : h_votes hd ≠ []) by (rewrite Ev; discriminate).
  change (stake_punish _ _ _) with (work (begun s hd)).
  destruct (process_votes _ _ _ _) as [[l issued]|e|p] eqn:Ep; intros [= <- <-].
  - apply beg_voted; assumption.
  - apply beg_vote_err; assumption.
  - apply beg_vote_panic; assumption.
Qed.

(* delegatees and open proposals: the punishments for the evidence *)
Definition but_punished : fields := Fields true false true true false true true.

Lemma begun_keeps s hd : keeps but_punished (work s) (work (begun s hd)).
Proof.
  exact (keeps_seq _ _ _ _ _ (gov_punish_keeps _ _ _) (stake_punish_keeps _ _ _)).
Qed.

Lemma begin_block_control s hd s' r :
  begin_block s hd = (s', r) →
  s' = s ∨ (h_height hd = last_height s + 1 ∧ ∃ l, s' = with_work (begun s hd) l).
Proof.
  intros H. apply begin_block_cases in H.
  destruct H as [_|Hh _|l issued Hh _ _|e Hh _ _|p Hh _ _]; [left; reflexivity|right; split; [exact Hh|]..].
  - exists (work (begun s hd)). reflexivity.
  - exists l. reflexivity.
  - exists (work (begun s hd)). reflexivity.
  - exists (work (begun s hd)). reflexivity.
Qed.

(* BeginBlock leaves accounts, frozen proposals and stored parameters alone, whatever it answers *)
Definition but_begin : fields := Fields true false false false false true true.

Lemma begin_block_keeps s hd s' r : begin_block s hd = (s', r) → keeps but_begin (work s) (work s').
Proof.
  intros H. apply begin_block_cases in H.
  destruct H as [_|_ _|l issued _ _ Hv|e _ _ _|p _ _ _];
    [apply keeps_refl|exact (keeps_weaken _ _ _ _ (begun_keeps s hd) eq_refl)| |
     exact (keeps_weaken _ _ _ _ (begun_keeps s hd) eq_refl)..].
  exact (keeps_seq _ _ _ _ _ (begun_keeps s hd) (process_votes_keeps _ _ _ _ _ _ Hv)).
Qed.

(* ================================================================== the shape of end_block *)
(* AcctCtrler.EndBlock: a positive fee sum of a block with a proposer is credited to the proposer *)
Inductive proposer_paid (b : blockctx) (l : ledgers) : ledgers → Prop :=
| paid_nobody : b_proposer b = None → proposer_paid b l l
| paid_nothing pa : b_proposer b = Some pa → (0 <? sign256 (b_feesum b)) = false → proposer_paid b l l
| paid_fees pa x :
    b_proposer b = Some pa → (0 <? sign256 (b_feesum b)) = true →
    add_balance (acct_of l pa) (b_feesum b) = Some x → proposer_paid b l (set_acct l pa x).

Lemma proposer_paid_keeps b l l' : proposer_paid b l l' → keeps but_accts l l'.
Proof. destruct 1; [apply keeps_refl..|apply keeps_set_acct]. Qed.

(* the validators EndBlock announces as the new set, and the state it leaves *)
Definition end_vals (s : state) : list (addr * Z) :=
  map (λ d, (d_addr d, d_total d)) (take (Z.to_nat (g_maxValidatorCnt (gparams s))) (alldels s)).

Definition ended (s : state) (l : ledgers) (np : option params) : state :=
  {| committed := committed s; work := l; gparams := gparams s; newparams := np; alldels := alldels s;
     lastvals := end_vals s; lim := lim s; bctx := bctx s; last_height := last_height s |}.

Inductive ends (s : state) : state → res (list (addr * Z)) → Prop :=
| end_failed r : (∀ ups, r ≠ Ok ups) → ends s s r
| end_done l1 l2 np l3 l4 :
    freeze_proposals (base_of s) (work s) (b_height (bctx s)) = Ok l1 →
    apply_proposals s (base_of s) l1 (b_height (bctx s)) = Ok (l2, np) →
    proposer_paid (bctx s) l2 l3 →
    unfreeze (base_of s) l3 (b_height (bctx s)) = Ok l4 →
    0 ≤ g_maxValidatorCnt (gparams s) →
    ends s (ended s l4 np)
      (Ok (val_updates (S (length (lastvals s) + length (end_vals s))) (sort_addr (lastvals s)) (sort_addr (end_vals s)))).

Lemma end_block_cases s s' r : end_block s = (s', r) → ends s s' r.
Proof.
  unfold end_block.
  destruct (freeze_proposals _ _ _) as [l1|e|p] eqn:E1; [|intros [= <- <-]; apply end_failed; discriminate..].
  destruct (apply_proposals _ _ _ _) as [[l2 np]|e|p] eqn:E2; [|intros [= <- <-]; apply end_failed; discriminate..].
  match goal with |- context [match ?x with Some l3 => _ | None => _ end] => destruct x as [l3|] eqn:E3 end;
    [|intros [= <- <-]; apply end_failed; discriminate].
  assert (H3 : proposer_paid (bctx s) l2 l3).
  { destruct (b_proposer (bctx s)) as [pa|] eqn:Ep; [|injection E3 as <-; apply paid_nobody, Ep].
    destruct (0 <? sign256 (b_feesum (bctx s))) eqn:Ef; [|injection E3 as <-; eapply paid_nothing; eassumption].
    destruct (add_balance _ _) as [x|] eqn:Ea; [|discriminate]. injection E3 as <-.
    eapply paid_fees; eassumption. }
  destruct (unfreeze _ _ _) as [l4|e|p] eqn:E4; [|intros [= <- <-]; apply end_failed; discriminate..].
  destruct (Z.ltb_spec (g_maxValidatorCnt (gparams s)) 0) as [Hm|Hm]; intros [= <- <-].
  - apply end_failed. discriminate.
  - eapply end_done; eassumption.
Qed.

Definition but_end : fields := Fields false true false true false false false.

(* EndBlock leaves delegatees and rewards alone *)
Lemma end_block_keeps s s' r : end_block s = (s', r) → keeps but_end (work s) (work s').
Proof.
  intros H. apply end_block_cases in H. destruct H as [r _|l1 l2 np l3 l4 H1 H2 H3 H4 _]; [apply keeps_refl|].
  apply freeze_proposals_keeps in H1. apply apply_proposals_keeps in H2.
  apply proposer_paid_keeps in H3. apply unfreeze_keeps in H4.
  exact (keeps_seq _ _ _ _ _ (keeps_seq _ _ _ _ _ (keeps_seq _ _ _ _ _ H1 H2) H3) H4).
Qed.
