(* InvReward.v — property C13: block rewards (who earns what in begin_block) and the reward
   ledger identity (withdrawable = issued - withdrawn; withdrawals bounded by it). *)
From Rigo Require Import Base.
From stdpp Require Import gmap sorting.
From Rigo Require Import Spec SpecProps SpecFacts InvFail.
Local Open Scope Z_scope.

Local Opaque two256 two255 two64 two63.
Arguments Z.pow : simpl never.

(* head-match stepping: destruct the scrutinee of the outermost match/if of an equation *)
Ltac step_in H name :=
  match type of H with
  | (match ?x with _ => _ end) = _ => destruct x eqn:name
  | (if ?x then _ else _) = _ => destruct x eqn:name
  end.

(* A closed example decides all its computed equations in one evaluation, so that the runs they
   share are made once.  The decision is put together from the types of the equations alone:
   instance search would match their unevaluated sides against the instances for particular values. *)
Global Instance res_eq_dec {A} `{EqDecision A} : EqDecision (res A).
Proof. solve_decision. Defined.
Ltac decide_eqs :=
  unshelve (notypeclasses refine (@bool_decide_unpack _ _ _));
  [repeat apply and_dec; refine (decide_rel (=) _ _)|vm_compute; exact I].

(* ================================================================== small frames *)
Lemma gov_execute_rewards s l t l' : gov_execute s l t = Ok l' → rewards l' = rewards l.
Proof. intros H. exact (keeps_rewards _ _ _ (gov_execute_keeps _ _ _ _ H) I). Qed.

Lemma acct_execute_rewards l t l' : acct_execute l t = Ok l' → rewards l' = rewards l.
Proof. intros H. exact (keeps_rewards _ _ _ (acct_execute_keeps _ _ _ H) I). Qed.

Lemma evm_execute_rewards l t l' g : evm_execute l t = Ok (l', g) → rewards l' = rewards l.
Proof. intros H. exact (keeps_rewards _ _ _ (evm_execute_keeps _ _ _ _ H) I). Qed.

Lemma stake_execute_rewards s l t l' :
  (t_type t =? TRX_STAKING) || (t_type t =? TRX_UNSTAKING) = true →
  stake_execute s l t = Ok l' → rewards l' = rewards l.
Proof.
  unfold stake_execute. intros Hty H.
  destruct (t_type t =? TRX_STAKING) eqn:E2.
  - destruct (match dels l !! t_to t with Some d => Some d | None => _ end) as [d|]; [|discriminate].
    destruct (accts l !! t_from t) as [sender|]; [|discriminate].
    destruct (sub_balance sender (t_amount t)); [|discriminate]. injection H as <-. reflexivity.
  - simpl in Hty. rewrite Hty in H.
    destruct (dels l !! t_to t) as [d|]; [|discriminate].
    destruct (t_payload t) as [|hs ok| | | | |]; try discriminate.
    destruct (find_stake hs (d_stakes d)) as [s0|]; [|discriminate].
    destruct (negb (s_from s0 =? t_from t)%N); [discriminate|].
    destruct (if d_self (del_stake d hs) =? 0 then _ else _) as [d2 fr2].
    destruct (d_total d2 =? 0); injection H as <-; reflexivity.
Qed.

(* ================================================================== R2 (i): other transactions *)
(* a validated transaction that is neither a withdrawal nor a contract call is executed by the
   governance, the account or the staking controller, the last only for staking and unstaking *)
Lemma exec_native_other s1 recv lim' s2 t (P : res ledgers → Prop) :
  t_type t ≠ TRX_WITHDRAW → validated s1 recv t = Ok lim' → (t_type t =? TRX_CONTRACT) = false →
  P (gov_execute s2 (work s2) t) → P (acct_execute (work s2) t) →
  ((t_type t =? TRX_STAKING) || (t_type t =? TRX_UNSTAKING) = true → P (stake_execute s2 (work s2) t)) →
  P (exec_native s2 t).
Proof.
  intros Hty Hv Hc Hg Ha Hs. revert Hv. unfold validated, exec_native. cbv zeta.
  destruct ((t_type t =? TRX_PROPOSAL) || (t_type t =? TRX_VOTING)); [intros _; exact Hg|].
  destruct ((t_type t =? TRX_TRANSFER) || (t_type t =? TRX_SETDOC)); [intros _; exact Ha|].
  intros Hv. apply Hs.
  destruct (t_type t =? TRX_STAKING); [reflexivity|]. destruct (t_type t =? TRX_UNSTAKING); [reflexivity|].
  destruct (t_type t =? TRX_WITHDRAW) eqn:E8; [apply Z.eqb_eq in E8; contradiction|].
  rewrite Hc in Hv. discriminate Hv.
Qed.

(* R2 (i).  A transaction that is not a withdrawal leaves the reward ledger unchanged, whatever
   its outcome. *)
Theorem deliver_rewards_other s t :
  t_type t ≠ TRX_WITHDRAW → rewards (work (deliver s t).1) = rewards (work s).
Proof.
  intros Hty. destruct (deliver s t) as [s' r] eqn:H. apply deliver_cases in H. cbn [fst].
  pose proof (keeps_rewards _ _ _ (find_or_new_keeps (work s) (t_to t)) I) as H0.
  assert (Hn : ∀ lim' l', validated (pre s t) (receiver_of s t) t = Ok lim' → evm_path s t = false →
                 exec_native (with_lim (pre s t) lim') t = Ok l' → rewards l' = rewards (work s)).
  { intros lim' l' Hv Hp. apply orb_false_iff in Hp as [Hc _]. rewrite <- H0.
    apply (exec_native_other _ _ _ (with_lim (pre s t) lim') t (λ x, x = Ok l' → rewards l' = _) Hty Hv Hc).
    - apply gov_execute_rewards.
    - apply acct_execute_rewards.
    - intros Hst. apply stake_execute_rewards, Hst. }
  destruct H as [_|? ? _ _|? lim' ? ? _ _ _ Hv [? _|l' gas _ Hx|l' ? Hp Hx _ _|l' ? ? Hp Hx _ _]].
  - reflexivity.
  - exact H0.
  - exact H0.
  - cbn. rewrite (evm_execute_rewards _ _ _ _ Hx). exact H0.
  - exact (Hn _ _ Hv Hp Hx).
  - exact (Hn _ _ Hv Hp Hx).
Qed.
Print Assumptions deliver_rewards_other.

(* ================================================================== withdrawals *)
Lemma stake_execute_withdraw s l t :
  t_type t = TRX_WITHDRAW →
  stake_execute s l t =
    let h := b_height (bctx s) in
    match t_payload t, rewards l !! t_from t with
    | PWithdraw req, Some r =>
        if r_height r >? h then Panic P_REWARD_HEIGHT else
        let r' := {| r_issued := r_issued r;
                     r_withdrawn := if r_height r <? h then req else add256 (r_withdrawn r) req;
                     r_slashed := r_slashed r; r_cumulated := sub256 (r_cumulated r) req; r_height := h |} in
        let l1 := set_rewards l (<[t_from t := r']> (rewards l)) in
        match acct_reward l1 (t_from t) req with
        | Some l2 => Ok l2
        | None => Err E_AMOUNT
        end
    | _, _ => Err E_NOREWARD
    end.
Proof. intros Hty. unfold stake_execute. rewrite Hty. reflexivity. Qed.

Lemma exec_native_withdraw s2 t : t_type t = TRX_WITHDRAW → exec_native s2 t = stake_execute s2 (work s2) t.
Proof. intros Hty. unfold exec_native. rewrite Hty. reflexivity. Qed.

Definition withdrawn_record (r : reward) (req h : Z) : reward :=
  {| r_issued := r_issued r;
     r_withdrawn := if r_height r <? h then req else add256 (r_withdrawn r) req;
     r_slashed := r_slashed r; r_cumulated := sub256 (r_cumulated r) req; r_height := h |}.

(* what exeWithdraw writes: the record of [a] is replaced and its account [x] credited *)
Definition credited (x : account) (req : Z) : account :=
  {| a_nonce := a_nonce x; a_bal := add256 (a_bal x) req; a_code := a_code x; a_name := a_name x; a_doc := a_doc x |}.
Definition withdrawn (l : ledgers) (a : addr) (x : account) (r : reward) (req h : Z) : ledgers :=
  set_acct (set_rewards l (<[a := withdrawn_record r req h]> (rewards l))) a (credited x req).

(* what the validations and exeWithdraw have checked of a withdrawal that was carried out *)
Definition withdraw_checked (s : state) (t : tx) (sender : account) (req : Z) (r : reward) : Prop :=
  accts (work s) !! t_from t = Some sender ∧ common_validation0 (gparams s) t = None ∧
  common_validation1 sender t = None ∧ t_amount t = 0 ∧ t_payload t = PWithdraw req ∧
  rewards (work s) !! t_from t = Some r ∧ req ≤ r_cumulated r ∧ r_height r ≤ b_height (bctx s) ∧
  (sign256 req <? 0) = false.

(* The three ways a withdrawal ends: refused by a validation or by exeWithdraw, with nothing
   written; carried out, but the credited balance cannot pay the fee; carried out and paid for. *)
Inductive withdrawal (s : state) (t : tx) : state → res Z → Prop :=
| wd_refused s' r :
    (∀ g, r ≠ Ok g) → same_obs (work s) (work s') → same_ctl s s' → withdrawal s t s' r
| wd_unpaid sender req r s' :
    withdraw_checked s t sender req r →
    sub_balance (credited sender req) (fee_of t) = None →
    work s' = withdrawn (work (pre s t)) (t_from t) sender r req (b_height (bctx s)) →
    withdrawal s t s' (Err E_FUND)
| wd_paid sender req r x s' :
    withdraw_checked s t sender req r →
    sub_balance (credited sender req) (fee_of t) = Some x →
    work s' = set_acct (withdrawn (work (pre s t)) (t_from t) sender r req (b_height (bctx s))) (t_from t) (add_nonce x) →
    withdrawal s t s' (Ok (t_gas t)).

Lemma deliver_withdraw_cases s t s' r :
  deliver s t = (s', r) → t_type t = TRX_WITHDRAW → withdrawal s t s' r.
Proof.
  intros Hd Hty. apply deliver_cases in Hd.
  destruct Hd as [_|sender r _ Hrej|sender lim' s' r Hs Hv0 Hv1 Hv Hf].
  - apply wd_refused; [discriminate|apply same_obs_refl|apply same_ctl_refl].
  - apply wd_refused; [intros g ->; exact (rejected_not_ok _ _ _ _ Hrej)|apply pre_obs|apply pre_ctl].
  - rewrite (validated_stake _ _ _ (or_intror (or_intror Hty))) in Hv.
    apply InvFail.stake_validate_withdraw in Hv as (-> & Ham & req & r0 & Hpl & Hr0 & Hle);
      [|rewrite Hty; discriminate..].
    assert (Hrw : rewards (work (pre s t)) = rewards (work s))
      by exact (keeps_rewards _ _ _ (find_or_new_keeps _ _) I).
    pose proof Hr0 as Hr0'. rewrite Hrw in Hr0'.
    assert (Hp : evm_path s t = false) by (unfold evm_path; rewrite Hty; reflexivity).
    (* exeWithdraw on the state validation saw *)
    assert (Hx : exec_native (with_lim (pre s t) (lim (pre s t))) t =
                 if r_height r0 >? b_height (bctx s) then Panic P_REWARD_HEIGHT
                 else if sign256 req <? 0 then Err E_AMOUNT
                 else Ok (withdrawn (work (pre s t)) (t_from t) sender r0 req (b_height (bctx s)))).
    { rewrite exec_native_withdraw, stake_execute_withdraw by exact Hty.
      cbv zeta. rewrite Hpl. cbn [work with_lim]. rewrite Hr0. cbn [bctx with_lim pre with_work bump with_bctx b_height].
      destruct (r_height r0 >? b_height (bctx s)); [reflexivity|].
      unfold acct_reward, add_balance. cbn [accts set_rewards]. rewrite (pre_sender _ _ _ Hs). cbn [mbind option_bind].
      destruct (sign256 req <? 0); reflexivity. }
    assert (Hrefused : ∀ r, (∀ g, r ≠ Ok g) → withdrawal s t (with_lim (pre s t) (lim (pre s t))) r).
    { intros r1 Hr1. apply wd_refused; [exact Hr1|apply pre_obs|apply pre_lim_ctl]. }
    destruct (r_height r0 >? b_height (bctx s)) eqn:Eh.
    { destruct Hf as [? [| | |]| | |]; try congruence; apply Hrefused; discriminate. }
    destruct (sign256 req <? 0) eqn:Esg.
    { destruct Hf as [? [| | |]| | |]; try congruence; apply Hrefused; discriminate. }
    assert (Hc : withdraw_checked s t sender req r0).
    { unfold withdraw_checked. rewrite Z.gtb_ltb in Eh. apply Z.ltb_ge in Eh. repeat split; assumption. }
    destruct Hf as [? [e Hp' _|e _ Hx'|p _ Hx'|l' _ Hx' Hl]|l' gas Hp' _|l' snd' _ Hx' Hl Hsb|l' snd' snd'' _ Hx' Hl Hsb];
      try congruence; rewrite Hx in Hx'; injection Hx' as <-;
      unfold withdrawn in Hl; cbn [accts set_acct] in Hl; rewrite lookup_insert in Hl; try discriminate; injection Hl as <-.
    + eapply wd_unpaid; [exact Hc|exact Hsb|reflexivity].
    + eapply wd_paid; [exact Hc|exact Hsb|reflexivity].
Qed.

Lemma withdraw_ok_inv s t s' g :
  deliver s t = (s', Ok g) → t_type t = TRX_WITHDRAW →
  ∃ req r sender bal',
    t_payload t = PWithdraw req ∧ t_amount t = 0 ∧ g = t_gas t ∧
    accts (work s) !! t_from t = Some sender ∧
    rewards (work s) !! t_from t = Some r ∧ req ≤ r_cumulated r ∧ r_height r ≤ b_height (bctx s) ∧
    sign256 req >= 0 ∧ a_bal sender >= fee_of t ∧ add256 (a_bal sender) req >= fee_of t ∧
    bal' = sub256 (add256 (a_bal sender) req) (fee_of t) ∧
    rewards (work s') = <[t_from t := withdrawn_record r req (b_height (bctx s))]> (rewards (work s)) ∧
    accts (work s') = <[t_from t := {| a_nonce := (a_nonce sender + 1) mod two64; a_bal := bal';
                                       a_code := a_code sender; a_name := a_name sender; a_doc := a_doc sender |}]>
                        (accts (find_or_new (work s) (t_to t)).1) ∧
    dels (work s') = dels (work s) ∧ frozen (work s') = frozen (work s) ∧ props (work s') = props (work s) ∧
    fprops (work s') = fprops (work s) ∧ lparams (work s') = lparams (work s).
Proof.
  intros Hd Hty. apply deliver_withdraw_cases in Hd; [|exact Hty].
  inversion Hd as [? ? Hn| |sender req r x ? Hc Hsb Hw]; subst.
  { destruct (Hn _ eq_refl). }
  destruct Hc as (Hs & _ & Hv1 & Ham & Hpl & Hr & Hle & Hh & Hsg).
  unfold sub_balance in Hsb. cbn [a_bal credited] in Hsb.
  destruct (sign256 (fee_of t) <? 0); [discriminate|].
  destruct (add256 (a_bal sender) req <? fee_of t) eqn:Ebf; [discriminate|]. injection Hsb as <-.
  apply cv1_none in Hv1 as [Hb _]. rewrite Ham in Hb. unfold add256 at 1 in Hb.
  rewrite Z.add_0_r, wrap256_small in Hb by apply fee_of_range.
  destruct (find_or_new_keeps (work s) (t_to t)) as (_ & D & F & R & P & FP & LP).
  exists req, r, sender, (sub256 (add256 (a_bal sender) req) (fee_of t)). rewrite Hw.
  cbn [withdrawn set_acct set_rewards accts rewards dels frozen props fprops lparams add_nonce credited
       a_nonce a_bal a_code a_name a_doc pre work with_work].
  rewrite insert_insert, (R I).
  repeat split; try assumption; try lia; [apply D|apply F|apply P|apply FP|apply LP]; exact I.
Qed.

(* R3.  A withdrawal succeeds only up to the withdrawable amount. *)
Theorem withdraw_only_up_to s t s' g :
  deliver s t = (s', Ok g) → t_type t = TRX_WITHDRAW →
  ∃ req r, t_payload t = PWithdraw req ∧ rewards (work s) !! t_from t = Some r ∧
           req ≤ r_cumulated r ∧ t_amount t = 0.
Proof.
  intros Hd Hty. destruct (withdraw_ok_inv s t s' g Hd Hty) as (req & r & _ & _ & Hpl & Ham & _ & _ & Hr & Hle & _).
  exists req, r. repeat split; assumption.
Qed.
Print Assumptions withdraw_only_up_to.

(* ------------------------------------------------------------------ R2 (ii): a successful withdrawal *)
Definition payload_wf (t : tx) : Prop :=
  match t_payload t with PWithdraw req => 0 ≤ req < two256 | _ => True end.

(* R2 (ii).  A successful withdrawal of [req] by [a = t_from t]: [req] was at most the
   withdrawable amount, which drops by exactly [req]; the per-height [r_withdrawn] field is
   updated; the balance is credited with exactly [req] (and then charged the fee, like every
   transaction); no other reward record, account, stake or proposal changes. *)
Theorem withdraw_ok s t s' g :
  deliver s t = (s', Ok g) → t_type t = TRX_WITHDRAW → payload_wf t → ranges_ok (work s) →
  ∃ req r r',
    t_payload t = PWithdraw req ∧
    rewards (work s) !! t_from t = Some r ∧ 0 ≤ req ≤ r_cumulated r ∧
    rewards (work s') !! t_from t = Some r' ∧
    r_cumulated r' = r_cumulated r - req ∧
    r_withdrawn r' = (if r_height r <? b_height (bctx s) then req else add256 (r_withdrawn r) req) ∧
    r_issued r' = r_issued r ∧ r_slashed r' = r_slashed r ∧ r_height r' = b_height (bctx s) ∧
    (∀ b, b ≠ t_from t → rewards (work s') !! b = rewards (work s) !! b) ∧
    (* balance: credited req (mod 2^256), charged the fee *)
    bal_of (work s') (t_from t) = sub256 (add256 (bal_of (work s) (t_from t)) req) (fee_of t) ∧
    (bal_of (work s) (t_from t) + req < two256 →
       bal_of (work s') (t_from t) = bal_of (work s) (t_from t) + req - fee_of t) ∧
    (∀ b, b ≠ t_from t → acct_of (work s') b = acct_of (work s) b) ∧
    dels (work s') = dels (work s) ∧ frozen (work s') = frozen (work s) ∧ props (work s') = props (work s) ∧
    fprops (work s') = fprops (work s) ∧ lparams (work s') = lparams (work s).
Proof.
  intros Hd Hty Hwf (Hacc & _ & Hrw).
  destruct (withdraw_ok_inv s t s' g Hd Hty)
    as (req & r & sender & bal' & Hpl & Ham & Hg & Hs & Hr & Hle & Hh & Hsg & Hfee & Hfee' & Hbal' & Hrw' & Hac' & Hrest).
  unfold payload_wf in Hwf. rewrite Hpl in Hwf.
  destruct (Hrw _ _ Hr) as [Hc0 Hc1]. destruct (Hacc _ _ Hs) as [[Hb0 Hb1] _].
  exists req, r, (withdrawn_record r req (b_height (bctx s))).
  assert (Hbo : bal_of (work s) (t_from t) = a_bal sender) by (unfold bal_of, acct_of; rewrite Hs; reflexivity).
  assert (Hbn : bal_of (work s') (t_from t) = bal') by (unfold bal_of, acct_of; rewrite Hac', lookup_insert; reflexivity).
  split; [exact Hpl|]. split; [exact Hr|]. split; [lia|].
  split; [rewrite Hrw'; apply lookup_insert|].
  split; [simpl; apply sub256_small; lia|].
  split; [reflexivity|]. split; [reflexivity|]. split; [reflexivity|]. split; [reflexivity|].
  split; [intros b Hb; rewrite Hrw'; apply lookup_insert_ne; congruence|].
  split; [rewrite Hbn, Hbo; exact Hbal'|].
  split.
  { intros Hnw. rewrite Hbn, Hbal', Hbo in *. pose proof (fee_of_range t).
    rewrite add256_small in * by lia. apply sub256_small; lia. }
  split; [|exact Hrest].
  intros b Hb. unfold acct_of. rewrite Hac', lookup_insert_ne by congruence.
  apply find_or_new_acct_of.
Qed.
Print Assumptions withdraw_ok.

(* ------------------------------------------------------------------ R2 (iii): a failed withdrawal *)
(* R2 (iii).  A withdrawal that does not succeed changes nothing observable.
   INTENDED without the third hypothesis — that form is false of the model, see
   [withdraw_fail_frame_refuted]: if crediting the reward wraps the balance around 2^256 the fee
   can no longer be paid, the transaction fails with E_FUND and the model (like the code: the fee
   is charged after execution, with nothing to undo it) keeps the executed reward update.  On
   reachable states balances plus outstanding rewards stay far below 2^256. *)
Theorem withdraw_fail_frame s t s' r :
  deliver s t = (s', r) → t_type t = TRX_WITHDRAW → (∀ g, r ≠ Ok g) →
  params_ok (gparams s) → tx_wf t →
  (∀ req sender, t_payload t = PWithdraw req → accts (work s) !! t_from t = Some sender →
                 0 ≤ req ∧ 0 ≤ a_bal sender ∧ a_bal sender + req < two256) →
  same_obs (work s) (work s') ∧ same_ctl s s'.
Proof.
  intros Hd Hty Hr (Hp & _) (Ha & _ & Hgas & _) Hnw.
  destruct (deliver_withdraw_cases _ _ _ _ Hd Hty) as [s' r _ Ho Hc|sender req r0 s' Hc Hsb _|sender req r0 x s' _ _ _].
  - exact (conj Ho Hc).
  - (* the credited balance pays the fee *)
    exfalso. destruct Hc as (Hs & Hv0 & Hv1 & _ & Hpl & _). destruct (Hnw _ _ Hpl Hs) as (Hreq & Hb0 & Hb1).
    pose proof (validated_fee _ _ Hv0 (proj1 Hgas) Hp) as Hf.
    pose proof (validated_bal _ _ _ Hv0 Hv1 (proj1 Ha) (proj1 Hgas) Hp) as Hb.
    destruct (sub_balance_some (credited sender req) _ Hf) as [x Hx]; [|congruence].
    cbn [credited a_bal]. rewrite add256_small; lia.
  - destruct (Hr _ eq_refl).
Qed.
Print Assumptions withdraw_fail_frame.

(* the witness: balance 2^256 - 1, withdrawable 10, fee 10.  The credit wraps the balance to 9,
   the fee cannot be paid, the answer is an error, and the reward record has been emptied. *)
Definition wrap_params : params :=
  {| g_version := 1; g_maxValidatorCnt := 21; g_minValidatorStake := amountPerPower; g_minDelegatorStake := 0;
     g_rewardPerPower := 1; g_lazyRewardBlocks := 10; g_lazyApplyingBlocks := 10; g_gasPrice := 1;
     g_minTrxGas := 1; g_maxTrxGas := 1000000; g_maxBlockGas := 10000000; g_minVotingPeriodBlocks := 1;
     g_maxVotingPeriodBlocks := 100; g_minSelfStakeRatio := 50; g_maxUpdatableStakeRatio := 30;
     g_maxIndividualStakeRatio := 100; g_slashRatio := 50; g_signedBlocksWindow := 10; g_minSignedBlocks := 5 |}.
Definition wrap_state : state :=
  let s := init_chain {| gen_params := wrap_params; gen_holders := [(1%N, two256 - 1)]; gen_validators := [] |} in
  with_work s (set_rewards (work s) {[ 1%N := {| r_issued := 10; r_withdrawn := 0; r_slashed := 0; r_cumulated := 10; r_height := 0 |} ]}).
Definition wrap_tx : tx :=
  {| t_type := TRX_WITHDRAW; t_from := 1%N; t_to := 0%N; t_from_ok := true; t_to_ok := true; t_amount := 0;
     t_price := 1; t_gas := 10; t_nonce := 0; t_payload := PWithdraw 10; t_hash := 99%N; t_sigok := true; t_evm := None |}.

Lemma withdraw_fail_frame_refuted :
  ∃ s t s' e, deliver s t = (s', Err e) ∧ t_type t = TRX_WITHDRAW ∧ params_ok (gparams s) ∧ tx_wf t ∧
              rewards (work s') !! t_from t ≠ rewards (work s) !! t_from t ∧
              bal_of (work s') (t_from t) = 9.
Proof.
  exists wrap_state, wrap_tx, (deliver wrap_state wrap_tx).1, E_FUND.
  split; [apply pair_snd_eq; vm_compute; reflexivity|]. split; [reflexivity|].
  split; [vm_compute; repeat split; discriminate|].
  split; [vm_compute; repeat split; discriminate|].
  split; [vm_compute; discriminate|vm_compute; reflexivity].
Qed.

(* ------------------------------------------------------------------ R2 (iv): end_block, commit *)
Theorem end_block_rewards s : rewards (work (end_block s).1) = rewards (work s).
Proof. destruct (end_block s) as [s' r] eqn:E. exact (keeps_rewards _ _ _ (end_block_keeps _ _ _ E) I). Qed.

Theorem commit_rewards s : rewards (work (commit s)) = rewards (work s).
Proof. reflexivity. Qed.
Print Assumptions end_block_rewards.

(* ================================================================== R1: issuance in begin_block *)
(* what one stake earns in a block *)
Definition amt_of (g : params) (st : stake) : Z := mul256 (s_power st mod two64) (g_rewardPerPower g).

Lemma amt_of_range g st : 0 ≤ amt_of g st < two256.
Proof. unfold amt_of, mul256. apply wrap256_range. Qed.

Lemma amt_of_exact g st :
  0 ≤ s_power st < two63 → 0 ≤ g_rewardPerPower g < 2 ^ 192 → amt_of g st = s_power st * g_rewardPerPower g.
Proof.
  intros Hp Hr. unfold amt_of, mul256.
  assert (E63 : two63 = 2 ^ 63) by reflexivity. assert (E64 : two64 = 2 * 2 ^ 63) by reflexivity.
  assert (E256 : two256 = 2 * (2 ^ 192 * 2 ^ 63)) by reflexivity.
  assert (0 < 2 ^ 63) by reflexivity. assert (0 < 2 ^ 192) by reflexivity.
  rewrite (Z.mod_small (s_power st)) by lia. apply wrap256_small. unfold in256. nia.
Qed.

(* the stakes one vote gets rewarded: those of the signing validator at the height its voting
   power was taken from, provided the recorded power is the voting power *)
Definition rewarded (old : ledgers) (v : addr * Z * bool) : list stake :=
  let '(a, pw, signed) := v in
  if signed : bool then
    match dels old !! a with
    | Some d => if d_total d =? pw then d_stakes d else []
    | None => []
    end
  else [].
(* all reward events of a block, in order (a validator listed twice is rewarded twice) *)
Definition rewarded_stakes (old : ledgers) (votes : list (addr * Z * bool)) : list stake :=
  flat_map (rewarded old) votes.

Definition issue_to (g : params) (sts : list stake) (a : addr) : Z :=
  sumZ_with (amt_of g) (List.filter (λ st, (s_from st =? a)%N) sts).
Definition total_issue (g : params) (sts : list stake) : Z := sumZ_with (amt_of g) sts.
Definition has_stake (a : addr) (sts : list stake) : bool := existsb (λ st, (s_from st =? a)%N) sts.

Definition issued_record (r : reward) (E h : Z) : reward :=
  {| r_issued := (if r_height r <? h then E else r_issued r + E) mod two256;
     r_withdrawn := r_withdrawn r; r_slashed := r_slashed r;
     r_cumulated := (r_cumulated r + E) mod two256; r_height := h |}.

Lemma issue_to_nonneg g sts a : 0 ≤ issue_to g sts a.
Proof. apply sumZ_with_nonneg. intros st _. apply amt_of_range. Qed.

Lemma issue_to_app g l k a : issue_to g (l ++ k) a = issue_to g l a + issue_to g k a.
Proof. unfold issue_to. rewrite List.filter_app. apply sumZ_with_app. Qed.

Lemma issue_to_votes g old votes a :
  issue_to g (rewarded_stakes old votes) a = sumZ_with (λ v, issue_to g (rewarded old v) a) votes.
Proof.
  unfold rewarded_stakes. induction votes as [|v votes IH]; simpl; [reflexivity|].
  rewrite issue_to_app, IH. reflexivity.
Qed.

Lemma issue_to_none g sts a : has_stake a sts = false → issue_to g sts a = 0.
Proof.
  unfold has_stake, issue_to. induction sts as [|st sts IH]; simpl; [reflexivity|].
  intros H. apply orb_false_iff in H as [H1 H2]. rewrite H1. apply IH, H2.
Qed.

Lemma issue_fold_spec g h sts : ∀ m i m' i',
  foldl (reward_step g h) (Ok (m, i)) sts = Ok (m', i') →
  i' = (match sts with [] => i | _ => (i + total_issue g sts) mod two256 end) ∧
  ∀ a, m' !! a = if has_stake a sts
                 then Some (issued_record (default reward0 (m !! a)) (issue_to g sts a) h)
                 else m !! a.
Proof.
  induction sts as [|st sts IH]; intros m i m' i' H.
  - simpl in H. injection H as <- <-. split; [reflexivity|]. intros a. reflexivity.
  - simpl in H. fold (amt_of g st) in H.
    destruct (reward_issue (default reward0 (m !! s_from st)) (amt_of g st) h) as [r1|] eqn:Ei.
    2:{ rewrite foldl_res_panic in H by reflexivity. discriminate. }
    apply IH in H as [Hi Hm]. pose proof (amt_of_range g st) as Hamt.
    unfold reward_issue in Ei. destruct (h <? r_height (default reward0 (m !! s_from st))) eqn:Eh; [discriminate|].
    injection Ei as <-.
    split.
    + rewrite Hi. unfold total_issue. change (sumZ_with (amt_of g) (st :: sts)) with (amt_of g st + sumZ_with (amt_of g) sts).
      destruct sts as [|st2 sts].
      * unfold add256, wrap256. f_equal. unfold sumZ_with; simpl. lia.
      * unfold add256, wrap256. rewrite Zplus_mod_idemp_l. f_equal. lia.
    + intros a. rewrite Hm. unfold has_stake, issue_to. simpl.
      destruct (s_from st =? a)%N eqn:Ea.
      * apply N.eqb_eq in Ea. subst a. simpl. rewrite lookup_insert. cbn [default].
        fold (has_stake (s_from st) sts). fold (issue_to g sts (s_from st)).
        set (r := default reward0 (m !! s_from st)) in *.
        change (sumZ_with (amt_of g) (st :: List.filter (λ st0, (s_from st0 =? s_from st)%N) sts))
          with (amt_of g st + issue_to g sts (s_from st)).
        destruct (has_stake (s_from st) sts) eqn:Ehas.
        -- f_equal. unfold issued_record, id. cbn [r_height r_issued r_cumulated r_withdrawn r_slashed].
           rewrite Z.ltb_irrefl. unfold add256, wrap256. f_equal.
           ++ destruct (r_height r <? h); rewrite ?Zplus_mod_idemp_l; f_equal; lia.
           ++ rewrite Zplus_mod_idemp_l. f_equal. lia.
        -- rewrite (issue_to_none g sts _ Ehas), Z.add_0_r. f_equal. unfold issued_record.
           unfold add256, wrap256. f_equal.
           destruct (r_height r <? h); [symmetry; apply Z.mod_small; lia|reflexivity].
      * simpl. apply N.eqb_neq in Ea. rewrite lookup_insert_ne by assumption. reflexivity.
Qed.

Lemma issue_shift g h sts : ∀ m i, in256 i →
  foldl (reward_step g h) (Ok (m, i)) sts =
  match foldl (reward_step g h) (Ok (m, 0)) sts with
  | Ok (m', j) => Ok (m', add256 i j) | Err e => Err e | Panic p => Panic p end.
Proof.
  induction sts as [|st sts IH]; intros m i Hi; simpl.
  - unfold add256. rewrite Z.add_0_r, wrap256_small by assumption. reflexivity.
  - destruct (reward_issue _ _ h) as [r1|].
    2:{ rewrite !foldl_res_panic by reflexivity. reflexivity. }
    rewrite (IH _ (add256 i _)) by apply wrap256_range.
    rewrite (IH _ (add256 0 _)) by apply wrap256_range.
    destruct (foldl _ (Ok (_, 0)) sts) as [[m' j]| |]; try reflexivity.
    f_equal. f_equal. unfold add256, wrap256. rewrite !Zplus_mod_idemp_l, Zplus_mod_idemp_r. f_equal. lia.
Qed.

Lemma jail_step_rewards g h l a : rewards (jail_step g h l a) = rewards l.
Proof.
  unfold jail_step. destruct (dels l !! a) as [d|]; [|reflexivity]. cbv zeta.
  destruct (count_in_window _ _ _) as [cnt m2]. destruct (_ <? g_minSignedBlocks g); reflexivity.
Qed.

(* the reward side of the vote loop is one pass of doRewardTo's loop over all reward events *)
Lemma vote_fold_rewards s old h votes : ∀ l i l3 i3, in256 i →
  foldl (vote_step (gparams s) old h) (Ok (l, i)) votes = Ok (l3, i3) →
  foldl (reward_step (gparams s) h) (Ok (rewards l, i)) (rewarded_stakes old votes) = Ok (rewards l3, i3).
Proof.
  induction votes as [|[[a pw] signed] votes IH]; intros l i l3 i3 Hi H.
  - simpl in *. injection H as <- <-. reflexivity.
  - simpl in H. unfold rewarded_stakes; simpl. fold (rewarded_stakes old votes).
    destruct signed.
    + destruct (dels old !! a) as [d|]; [|simpl; apply IH; assumption].
      destruct (d_total d =? pw); simpl negb in H; cbv iota in H; [|simpl; apply IH; assumption].
      rewrite foldl_app. rewrite issue_shift by assumption. rewrite <- reward_to_eq.
      destruct (reward_to (gparams s) h (rewards l) d) as [[rw iss]|e|p].
      * apply IH in H; [exact H|apply wrap256_range].
      * rewrite foldl_res_err in H by reflexivity. discriminate.
      * rewrite foldl_res_panic in H by reflexivity. discriminate.
    + simpl. apply IH in H; [|assumption]. rewrite jail_step_rewards in H. exact H.
Qed.

Lemma stake_punish_rewards l ratio evi : rewards (stake_punish l ratio evi) = rewards l.
Proof. exact (keeps_rewards _ _ _ (stake_punish_keeps l ratio evi) I). Qed.

Lemma gov_punish_rewards l ratio evi : rewards (gov_punish l ratio evi) = rewards l.
Proof. exact (keeps_rewards _ _ _ (gov_punish_keeps l ratio evi) I). Qed.

Lemma begun_rewards s hd : rewards (work (begun s hd)) = rewards (work s).
Proof. cbn [begun work]. rewrite stake_punish_rewards. apply gov_punish_rewards. Qed.

Lemma begin_block_ok_inv s hd s' issued :
  begin_block s hd = (s', Ok issued) →
  h_height hd = last_height s + 1 ∧
  let l2 := stake_punish (gov_punish (work s) (g_slashRatio (gparams s)) (h_evidence hd)) (g_slashRatio (gparams s)) (h_evidence hd) in
  committed s' = committed s ∧ gparams s' = gparams s ∧ last_height s' = last_height s ∧
  b_height (bctx s') = h_height hd ∧
  ((h_votes hd = [] ∧ work s' = l2 ∧ issued = 0) ∨
   (h_votes hd ≠ [] ∧ ∃ s1, committed s1 = committed s ∧ gparams s1 = gparams s ∧
      process_votes s1 l2 (h_height hd) (h_votes hd) = Ok (work s', issued))).
Proof.
  intros H. apply begin_block_cases in H.
  inversion H as [|Hh Hv|l i Hh Hv Hp| |]; subst; (split; [exact Hh|]); cbv zeta; repeat split.
  - left. repeat split. exact Hv.
  - right. split; [exact Hv|]. exists (begun s hd). repeat split. exact Hp.
Qed.

(* R1.  Issuance in a block.  [sts] are the reward events of the block: for every vote with
   signed = true, in order, the stakes of that validator as recorded at the height consensus
   derived its power from (provided the recorded total is the voting power).  Every account owning
   one of them earns the sum of power * rewardPerPower over its events; its cumulated reward grows
   by that, its per-height fields are set for this height; accounts owning none of them keep their
   record (or absence of record) as it was; the reported number is the total. *)
Theorem begin_block_rewards s hd s' issued old :
  begin_block s hd = (s', Ok issued) →
  ledgers_at s (hgt_of_power (h_height hd)) = Some old →
  let g := gparams s in let h := h_height hd in
  let sts := rewarded_stakes old (h_votes hd) in
  issued = total_issue g sts mod two256 ∧
  ∀ a, rewards (work s') !! a =
         if has_stake a sts
         then Some (issued_record (default reward0 (rewards (work s) !! a)) (issue_to g sts a) h)
         else rewards (work s) !! a.
Proof.
  intros Hb Hold g h sts.
  destruct (begin_block_ok_inv _ _ _ _ Hb) as (Hh & Hc & Hg & Hl & Hbh & Hcase).
  destruct Hcase as [(Hv & Hw & Hi)|(Hv & s1 & Hc1 & Hg1 & Hp)].
  - subst sts. rewrite Hv. simpl. split; [rewrite Hi; reflexivity|].
    intros a. rewrite Hw, stake_punish_rewards, gov_punish_rewards. reflexivity.
  - assert (Hold1 : ledgers_at s1 (hgt_of_power (h_height hd)) = Some old).
    { unfold ledgers_at in *. rewrite Hc1, Hg1. exact Hold. }
    rewrite process_votes_eq, Hold1 in Hp.
    apply vote_fold_rewards in Hp; [|unfold in256; split; [lia|reflexivity]].
    rewrite stake_punish_rewards, gov_punish_rewards, Hg1 in Hp.
    apply issue_fold_spec in Hp as [Hi Hm]. fold sts in Hi, Hm. split; [|exact Hm].
    rewrite Hi. destruct sts; reflexivity.
Qed.
Print Assumptions begin_block_rewards.

(* the exact (non-modular) reading of R1: powers in the int64 range, reward rate below 2^192,
   and no overflow of the account's cumulated reward *)
Corollary begin_block_rewards_exact s hd s' issued old a :
  begin_block s hd = (s', Ok issued) →
  ledgers_at s (hgt_of_power (h_height hd)) = Some old →
  0 ≤ g_rewardPerPower (gparams s) < 2 ^ 192 →
  (∀ st, st ∈ bonded_stakes old → 0 ≤ s_power st < two63) →
  let r := default reward0 (rewards (work s) !! a) in
  let sts := rewarded_stakes old (h_votes hd) in
  let E := sumZ_with (λ st, s_power st * g_rewardPerPower (gparams s)) (List.filter (λ st, (s_from st =? a)%N) sts) in
  0 ≤ r_cumulated r → r_cumulated r + E < two256 → has_stake a sts = true →
  ∃ r', rewards (work s') !! a = Some r' ∧ r_cumulated r' = r_cumulated r + E ∧ r_height r' = h_height hd ∧
        r_issued r' = (if r_height r <? h_height hd then E else r_issued r + E) mod two256 ∧
        r_withdrawn r' = r_withdrawn r ∧ r_slashed r' = r_slashed r.
Proof.
  intros Hb Hold Hrpp Hpw r sts E Hc0 Hc1 Hhas.
  destruct (begin_block_rewards _ _ _ _ _ Hb Hold) as [_ Hm]. cbv zeta in Hm. fold sts in Hm.
  specialize (Hm a). rewrite Hhas in Hm. fold r in Hm.
  assert (HE : issue_to (gparams s) sts a = E).
  { unfold issue_to, E.
    assert (Hall : ∀ st, In st sts → 0 ≤ s_power st < two63).
    { intros st Hst. apply Hpw. unfold sts, rewarded_stakes in Hst. apply in_flat_map in Hst as ([[v pw] sg] & _ & Hst).
      unfold rewarded in Hst. destruct sg; [|contradiction]. destruct (dels old !! v) as [d|] eqn:Ed; [|contradiction].
      destruct (d_total d =? pw); [|contradiction].
      unfold bonded_stakes. apply elem_of_list_In, in_concat. exists (d_stakes d). split; [|exact Hst].
      apply elem_of_list_In, elem_of_list_fmap. exists (v, d). split; [reflexivity|]. apply elem_of_map_to_list, Ed. }
    clear -Hall Hrpp. induction sts as [|st sts IH]; [reflexivity|]. simpl.
    destruct (s_from st =? a)%N.
    - change (amt_of (gparams s) st + sumZ_with (amt_of (gparams s)) (List.filter (λ st0, (s_from st0 =? a)%N) sts)
              = s_power st * g_rewardPerPower (gparams s) + sumZ_with (λ st0, s_power st0 * g_rewardPerPower (gparams s)) (List.filter (λ st0, (s_from st0 =? a)%N) sts)).
      rewrite IH by (intros; apply Hall; right; assumption). rewrite amt_of_exact; [reflexivity| |assumption].
      apply Hall. left. reflexivity.
    - apply IH. intros; apply Hall; right; assumption. }
  rewrite HE in Hm. pose proof (issue_to_nonneg (gparams s) sts a) as HE0. rewrite HE in HE0.
  eexists. split; [exact Hm|]. simpl. repeat split. apply Z.mod_small. lia.
Qed.

(* ================================================================== the height panic is unreachable *)
(* [reward_issue] (and exeWithdraw) refuse a record whose height is above the block height; the
   model turns that into Panic P_REWARD_HEIGHT.  Along every run records never run ahead. *)
Definition rewards_height_ok (s : state) : Prop :=
  0 ≤ last_height s ∧ 0 ≤ b_height (bctx s) ≤ last_height s + 1 ∧
  ∀ a r, rewards (work s) !! a = Some r → r_height r ≤ b_height (bctx s).

Lemma deliver_heights s t :
  b_height (bctx (deliver s t).1) = b_height (bctx s) ∧ last_height (deliver s t).1 = last_height s.
Proof.
  destruct (deliver s t) as [s' r] eqn:Hd. destruct (deliver_control _ _ _ _ Hd) as (l & x & fee & n & ->).
  split; reflexivity.
Qed.

Lemma init_chain_rewards g : rewards (work (init_chain g)) = ∅.
Proof.
  unfold init_chain. cbn [work].
  apply (foldl_inv _ (λ l, rewards l = ∅)); [intros l v _ H; exact H|].
  apply (foldl_inv _ (λ l, rewards l = ∅)).
  { intros l v _ H. rewrite (keeps_rewards _ _ _ (find_or_new_keeps l v.1) I). exact H. }
  apply (foldl_inv _ (λ l, rewards l = ∅)); [intros l v _ H; exact H|reflexivity].
Qed.

Lemma issue_fold_total g h sts : ∀ m i,
  0 ≤ h → (∀ a r, m !! a = Some r → r_height r ≤ h) →
  ∃ m' i', foldl (reward_step g h) (Ok (m, i)) sts = Ok (m', i') ∧ (∀ a r, m' !! a = Some r → r_height r ≤ h).
Proof.
  induction sts as [|st sts IH]; intros m i Hh Hm; simpl.
  - eauto.
  - unfold reward_issue.
    assert (Hr : r_height (default reward0 (m !! s_from st)) ≤ h).
    { destruct (m !! s_from st) as [r|] eqn:E; simpl; [eapply Hm, E|exact Hh]. }
    destruct (h <? _) eqn:E; [lia|]. apply IH; [exact Hh|].
    intros a r Ha. destruct (decide (a = s_from st)) as [->|Hne].
    + rewrite lookup_insert in Ha. injection Ha as <-. simpl. lia.
    + rewrite lookup_insert_ne in Ha by congruence. eapply Hm, Ha.
Qed.

Lemma vote_fold_total s old h votes : ∀ l i,
  0 ≤ h → (∀ a r, rewards l !! a = Some r → r_height r ≤ h) →
  ∃ l' i', foldl (vote_step (gparams s) old h) (Ok (l, i)) votes = Ok (l', i') ∧ (∀ a r, rewards l' !! a = Some r → r_height r ≤ h).
Proof.
  induction votes as [|[[a pw] signed] votes IH]; intros l i Hh Hl; simpl.
  - eauto.
  - destruct signed.
    + destruct (dels old !! a) as [d|]; [|apply IH; assumption].
      destruct (negb (d_total d =? pw)); [apply IH; assumption|].
      rewrite reward_to_eq.
      destruct (issue_fold_total (gparams s) h (d_stakes d) (rewards l) 0 Hh Hl) as (m' & i' & -> & Hm').
      apply IH; assumption.
    + apply IH; [assumption|]. rewrite jail_step_rewards. assumption.
Qed.

Lemma process_votes_heights s votes :
  rewards_height_ok s →
  match process_votes s (work s) (b_height (bctx s)) votes with
  | Ok (l', _) => rewards_height_ok (with_work s l')
  | Err _ => False
  | Panic p => p = P_BEGINBLOCK ∧ ledgers_at s (hgt_of_power (b_height (bctx s))) = None
  end.
Proof.
  intros (Hl & Hb & Hr). destruct (ledgers_at s (hgt_of_power (b_height (bctx s)))) as [old|] eqn:Eold.
  - rewrite process_votes_eq, Eold.
    destruct (vote_fold_total s old (b_height (bctx s)) votes (work s) 0) as (l' & i' & -> & Hl'); [lia|exact Hr|].
    exact (conj Hl (conj Hb Hl')).
  - unfold process_votes. rewrite Eold. split; reflexivity.
Qed.

Lemma begun_heights s hd :
  rewards_height_ok s → h_height hd = last_height s + 1 → rewards_height_ok (begun s hd).
Proof.
  intros (Hl & Hb & Hr) Hh. split; [exact Hl|]. split; [cbn; lia|].
  intros a r. rewrite begun_rewards. intros Ha. apply Hr in Ha. cbn. lia.
Qed.

(* begin_block answers Ok whenever the height is the next one and the ledger version the voting
   power came from can be loaded; in particular the reward-height panic is unreachable *)
Theorem begin_block_total s hd :
  rewards_height_ok s → h_height hd = last_height s + 1 →
  h_votes hd = [] ∨ ledgers_at s (hgt_of_power (h_height hd)) ≠ None →
  ∃ issued, (begin_block s hd).2 = Ok issued.
Proof.
  intros Hok Hh Hv. destruct (begin_block s hd) as [s' r] eqn:E. apply begin_block_cases in E. cbn [snd].
  pose proof (process_votes_heights _ (h_votes hd) (begun_heights _ hd Hok Hh)) as H.
  change (b_height (bctx (begun s hd))) with (h_height hd) in H.
  destruct E as [Hne|_ _|l i _ _ _|e _ _ Hp|p _ Hne Hp]; [contradiction|eexists; reflexivity..| |]; rewrite Hp in H.
  - contradiction.
  - destruct Hv as [Hv|Hv]; [contradiction|]. destruct H as [_ H]. destruct (Hv H).
Qed.

Theorem begin_block_no_reward_panic s hd :
  rewards_height_ok s → (begin_block s hd).2 ≠ Panic P_REWARD_HEIGHT.
Proof.
  intros Hok. destruct (begin_block s hd) as [s' r] eqn:E. apply begin_block_cases in E. cbn [snd].
  destruct E as [_|_ _|l i _ _ _|e _ _ _|p Hh _ Hp]; try discriminate.
  pose proof (process_votes_heights _ (h_votes hd) (begun_heights _ hd Hok Hh)) as H.
  change (b_height (bctx (begun s hd))) with (h_height hd) in H. rewrite Hp in H. destruct H as [-> _]. discriminate.
Qed.

Lemma rewards_height_ok_init g : rewards_height_ok (init_chain g).
Proof.
  unfold rewards_height_ok. rewrite init_chain_rewards. simpl. repeat split; try lia.
  intros a r H. rewrite lookup_empty in H. discriminate.
Qed.

Lemma rewards_height_ok_step s o : rewards_height_ok s → rewards_height_ok (sstep s o).
Proof.
  intros Hok. pose proof Hok as (Hl & Hb & Hr). destruct o as [hd|t| |]; simpl.
  - destruct (begin_block s hd) as [s' r] eqn:E. apply begin_block_cases in E. cbn [fst].
    destruct E as [_|Hh _|l i Hh _ Hp|e Hh _ _|p Hh _ _]; [exact Hok|exact (begun_heights _ hd Hok Hh)| |
      exact (begun_heights _ hd Hok Hh)..].
    pose proof (process_votes_heights _ (h_votes hd) (begun_heights _ hd Hok Hh)) as H.
    change (b_height (bctx (begun s hd))) with (h_height hd) in H. rewrite Hp in H. exact H.
  - destruct (deliver_heights s t) as [Hbh Hlh]. unfold rewards_height_ok. rewrite Hbh, Hlh.
    repeat split; try lia.
    destruct (Z.eq_dec (t_type t) TRX_WITHDRAW) as [Hty|Hty]; [|rewrite deliver_rewards_other by assumption; exact Hr].
    destruct (deliver s t) as [s' res] eqn:Hd. cbn [fst].
    (* a withdrawal puts a record of the block's height in the sender's place *)
    assert (Hw : ∀ x r0 req a r,
               rewards (withdrawn (work (pre s t)) (t_from t) x r0 req (b_height (bctx s))) !! a = Some r →
               r_height r ≤ b_height (bctx s)).
    { intros x r0 req a r. cbn [withdrawn rewards set_acct set_rewards pre with_work work].
      rewrite (keeps_rewards _ _ _ (find_or_new_keeps (work s) (t_to t)) I).
      destruct (decide (a = t_from t)) as [->|Hne].
      - rewrite lookup_insert. intros [= <-]. cbn. lia.
      - rewrite lookup_insert_ne by congruence. apply Hr. }
    destruct (deliver_withdraw_cases _ _ _ _ Hd Hty) as [s' r _ Ho _|sender req r0 s' _ _ E|sender req r0 x s' _ _ E].
    + destruct Ho as (_ & _ & _ & <- & _). exact Hr.
    + rewrite E. apply Hw.
    + rewrite E. cbn [rewards set_acct]. apply Hw.
  - unfold rewards_height_ok. rewrite end_block_rewards.
    destruct (end_block s) as [s' r] eqn:E. apply end_block_cases in E. cbn [fst].
    destruct E as [r _|l1 l2 np l3 l4 _ _ _ _ _]; exact Hok.
  - unfold rewards_height_ok, commit; simpl. repeat split; try lia. exact Hr.
Qed.

Theorem rewards_height_ok_run g ops : rewards_height_ok (srun (init_chain g) ops).
Proof.
  unfold srun. generalize (rewards_height_ok_init g). generalize (init_chain g).
  induction ops as [|o ops IH]; intros s Hs; simpl; [exact Hs|]. apply IH, rewards_height_ok_step, Hs.
Qed.
Print Assumptions rewards_height_ok_run.
Print Assumptions begin_block_total.

(* on a run from genesis no BeginBlock ends in the reward-height panic *)
Corollary run_no_reward_panic g ops hd :
  (begin_block (srun (init_chain g) ops) hd).2 ≠ Panic P_REWARD_HEIGHT.
Proof. apply begin_block_no_reward_panic, rewards_height_ok_run. Qed.

(* nor does exeWithdraw *)
Lemma stake_execute_withdraw_no_panic s l t :
  t_type t = TRX_WITHDRAW → (∀ a r, rewards l !! a = Some r → r_height r ≤ b_height (bctx s)) →
  stake_execute s l t ≠ Panic P_REWARD_HEIGHT.
Proof.
  intros Hty Hr. rewrite stake_execute_withdraw by exact Hty. cbv zeta.
  destruct (t_payload t) as [| |req| | | |]; try discriminate.
  destruct (rewards l !! t_from t) as [r|] eqn:Er; [|discriminate].
  apply Hr in Er. destruct (r_height r >? b_height (bctx s)) eqn:E; [lia|].
  destruct (acct_reward _ _ _); discriminate.
Qed.

(* ------------------------------------------------------------------ no transaction ends in the reward-height panic *)
Ltac step_all H := repeat (let E := fresh "E" in step_in H E).

Lemma check_limit_panic sl da dt diff p : check_limit sl da dt diff = Panic p → p = P_LIMITER_DIV.
Proof.
  unfold check_limit. destruct (lim_objs sl) as [objs|]; [|discriminate]. cbv zeta.
  destruct (negb (if diff <=? 0 then true else _)); [discriminate|].
  destruct (negb (_ =? dt)); [discriminate|].
  destruct (_ && _ && _ && _); [intros [= <-]; reflexivity|].
  destruct (lim_base sl =? 0); [intros [= <-]; reflexivity|].
  destruct (lim_updatable sl <? _); [discriminate|].
  destruct (_ <? 0); discriminate.
Qed.

Lemma stake_validate_panic s t p : stake_validate s t = Panic p → p ≠ P_REWARD_HEIGHT.
Proof.
  unfold stake_validate. intros H. cbv zeta in H.
  destruct (t_type t =? TRX_STAKING).
  - destruct (t_amount t / amountPerPower <=? 0); [discriminate|].
    destruct (negb (t_amount t mod amountPerPower =? 0)); [discriminate|].
    destruct (amount_to_power (t_amount t)) as [txp|]; [|injection H as <-; discriminate].
    step_in H Eself.
    + (* self/delegation check passed *)
      destruct (wrap64 (a + txp) <=? 0); [injection H as <-; discriminate|].
      destruct (3 <=? Z.of_nat (length (lastvals s))); [|discriminate].
      apply check_limit_panic in H. subst p. discriminate.
    + discriminate.
    + injection H as <-. step_all Eself; try discriminate; injection Eself as <-; discriminate.
  - destruct (t_type t =? TRX_UNSTAKING).
    + destruct (dels (work s) !! t_to t) as [d|]; [|discriminate].
      destruct (t_payload t) as [|h ok| | | | |]; try (injection H as <-; discriminate).
      destruct (negb ok); [discriminate|].
      destruct (find_stake h (d_stakes d)) as [s0|]; [|discriminate].
      destruct (negb (s_from s0 =? t_from t)%N); [discriminate|].
      destruct (3 <=? Z.of_nat (length (lastvals s))); [|discriminate].
      apply check_limit_panic in H. subst p. discriminate.
    + destruct (negb (t_amount t =? 0)); [discriminate|].
      destruct (t_payload t); try discriminate.
      destruct (rewards (work s) !! t_from t) as [r|]; [|discriminate].
      destruct (r_cumulated r <? _); discriminate.
Qed.

Lemma acct_execute_panic l t p : acct_execute l t = Panic p → p = P_ENDBLOCK.
Proof.
  unfold acct_execute. intros H. step_all H; try discriminate; injection H as <-; reflexivity.
Qed.

Lemma gov_execute_no_panic s l t p : gov_execute s l t ≠ Panic p.
Proof. unfold gov_execute. intros H. step_all H; discriminate. Qed.

Lemma stake_execute_no_panic s l t p :
  (t_type t =? TRX_STAKING) || (t_type t =? TRX_UNSTAKING) = true → stake_execute s l t ≠ Panic p.
Proof.
  unfold stake_execute. intros Hty H. cbv zeta in H.
  destruct (t_type t =? TRX_STAKING).
  - step_all H; discriminate.
  - simpl in Hty. rewrite Hty in H.
    destruct (dels l !! t_to t) as [d|]; [|discriminate].
    destruct (t_payload t) as [|hs ok| | | | |]; try discriminate.
    destruct (find_stake hs (d_stakes d)) as [s0|]; [|discriminate].
    destruct (negb (s_from s0 =? t_from t)%N); [discriminate|].
    destruct (if d_self (del_stake d hs) =? 0 then _ else _) as [d2 fr2].
    destruct (d_total d2 =? 0); discriminate.
Qed.

Theorem deliver_no_reward_panic s t :
  rewards_height_ok s → (deliver s t).2 ≠ Panic P_REWARD_HEIGHT.
Proof.
  intros (_ & _ & Hr). destruct (deliver s t) as [s' r] eqn:Hd. apply deliver_cases in Hd. cbn [snd].
  destruct Hd as [_|? ? _ Hrej|? lim' ? ? _ _ _ Hv [? Hst|l' gas _ _|l' ? _ _ _ _|l' ? ? _ _ _ _]]; try discriminate.
  - (* a panic of validation *)
    destruct Hrej as [e _|e _ _|e _ _ _|p _ _ Hv]; try discriminate. intros [= ->]. revert Hv. unfold validated. cbv zeta.
    destruct ((t_type t =? TRX_PROPOSAL) || (t_type t =? TRX_VOTING)); [destruct (gov_validate _ t); discriminate|].
    destruct ((t_type t =? TRX_TRANSFER) || (t_type t =? TRX_SETDOC)); [destruct (acct_validate t); discriminate|].
    destruct ((t_type t =? TRX_STAKING) || (t_type t =? TRX_UNSTAKING) || (t_type t =? TRX_WITHDRAW)).
    + intros Hv. apply stake_validate_panic in Hv. contradiction.
    + destruct (t_type t =? TRX_CONTRACT); [destruct (evm_validate _ t)|]; discriminate.
  - (* a panic of execution *)
    destruct Hst as [e _ _|e _ _|p Hp Hx|l' _ _ _]; try discriminate. intros [= ->]. revert Hx.
    destruct (Z.eq_dec (t_type t) TRX_WITHDRAW) as [Hty|Hty].
    { rewrite exec_native_withdraw by exact Hty. apply stake_execute_withdraw_no_panic; [exact Hty|].
      cbn [work with_lim pre with_work]. rewrite (keeps_rewards _ _ _ (find_or_new_keeps _ _) I). exact Hr. }
    apply orb_false_iff in Hp as [Hc _].
    apply (exec_native_other _ _ _ _ t (λ x, x ≠ Panic P_REWARD_HEIGHT) Hty Hv Hc).
    + apply gov_execute_no_panic.
    + intros Hx. apply acct_execute_panic in Hx. discriminate.
    + apply stake_execute_no_panic.
Qed.
Print Assumptions deliver_no_reward_panic.

(* ================================================================== R2: the ledger identity along runs *)
(* the withdrawable reward of an account (no record = nothing) *)
Definition cum_of (s : state) (a : addr) : Z := r_cumulated (default reward0 (rewards (work s) !! a)).

(* ghost bookkeeping: what one operation issues to [a] (R1's formula) and what [a] withdraws in it *)
Definition step_issue (s : state) (o : sop) (a : addr) : Z :=
  match o with
  | SBegin hd =>
      match (begin_block s hd).2, ledgers_at s (hgt_of_power (h_height hd)) with
      | Ok _, Some old => issue_to (gparams s) (rewarded_stakes old (h_votes hd)) a
      | _, _ => 0
      end
  | _ => 0
  end.
Definition step_withdraw (s : state) (o : sop) (a : addr) : Z :=
  match o with
  | SDeliver t =>
      if (t_type t =? TRX_WITHDRAW) && (t_from t =? a)%N then
        match (deliver s t).2, t_payload t with Ok _, PWithdraw req => req | _, _ => 0 end
      else 0
  | _ => 0
  end.
Fixpoint issued_to (s : state) (ops : list sop) (a : addr) : Z :=
  match ops with [] => 0 | o :: r => step_issue s o a + issued_to (sstep s o) r a end.
Fixpoint withdrawn_by (s : state) (ops : list sop) (a : addr) : Z :=
  match ops with [] => 0 | o :: r => step_withdraw s o a + withdrawn_by (sstep s o) r a end.

(* side conditions on the withdrawals of a run: the payload is a uint256, the parameters and the
   transaction are in range, and crediting the reward does not wrap the sender's balance (see
   [withdraw_fail_frame_refuted] for why the last one is needed) *)
Definition step_wf (s : state) (o : sop) : Prop :=
  match o with
  | SDeliver t =>
      t_type t = TRX_WITHDRAW →
      payload_wf t ∧ params_ok (gparams s) ∧ tx_wf t ∧
      (∀ req sender, t_payload t = PWithdraw req → accts (work s) !! t_from t = Some sender →
                     0 ≤ a_bal sender ∧ a_bal sender + req < two256)
  | _ => True
  end.
Fixpoint run_wf (s : state) (ops : list sop) : Prop :=
  match ops with [] => True | o :: r => step_wf s o ∧ run_wf (sstep s o) r end.

Definition cum_ok (s : state) : Prop := ∀ a r, rewards (work s) !! a = Some r → 0 ≤ r_cumulated r < two256.

Lemma cum_of_range s a : cum_ok s → 0 ≤ cum_of s a < two256.
Proof.
  intros H. unfold cum_of. destruct (rewards (work s) !! a) as [r|] eqn:E; simpl; [eapply H, E|].
  split; [lia|reflexivity].
Qed.

Lemma begin_block_notok_rewards s hd :
  match (begin_block s hd).2 with Ok _ => True | _ => rewards (work (begin_block s hd).1) = rewards (work s) end.
Proof.
  destruct (begin_block s hd) as [s' r] eqn:E. apply begin_block_cases in E. cbn [fst snd].
  destruct E as [_|_ _|l i _ _ _|e _ _ _|p _ _ _]; [reflexivity|exact I|exact I|apply begun_rewards..].
Qed.

Lemma mod_in_range x : 0 ≤ x `mod` two256 < two256.
Proof. apply Z.mod_pos_bound. reflexivity. Qed.

(* what one operation does to the withdrawable reward [c] of an account: it issues [i] or takes [w] *)
Definition cum_moves (c c' i w : Z) : Prop :=
  c' = (c + i - w) mod two256 ∧ 0 ≤ i ∧ 0 ≤ w ≤ c ∧ (i = 0 ∨ w = 0).

Lemma step_cum s o a :
  cum_ok s → step_wf s o →
  cum_moves (cum_of s a) (cum_of (sstep s o) a) (step_issue s o a) (step_withdraw s o a).
Proof.
  intros Hok Hwf. pose proof (cum_of_range s a Hok) as Hc.
  assert (Hquiet : ∀ s', cum_of s' a = cum_of s a → cum_moves (cum_of s a) (cum_of s' a) 0 0).
  { intros s' ->. unfold cum_moves. rewrite Z.add_0_r, Z.sub_0_r, Z.mod_small by lia.
    repeat split; lia. }
  assert (Hsame : ∀ s', rewards (work s') = rewards (work s) → cum_moves (cum_of s a) (cum_of s' a) 0 0).
  { intros s' E. apply Hquiet. unfold cum_of. rewrite E. reflexivity. }
  destruct o as [hd|t| |]; cbn [sstep step_issue step_withdraw].
  - pose proof (begin_block_notok_rewards s hd) as Hnok.
    destruct (begin_block s hd) as [s' res] eqn:Hb. cbn [fst snd] in *.
    destruct res as [issued|e|p]; [|exact (Hsame _ Hnok)..].
    destruct (ledgers_at s (hgt_of_power (h_height hd))) as [old|] eqn:Eold.
    + destruct (begin_block_rewards _ _ _ _ _ Hb Eold) as [_ Hm]. cbv zeta in Hm. specialize (Hm a).
      pose proof (issue_to_nonneg (gparams s) (rewarded_stakes old (h_votes hd)) a) as Hi.
      destruct (has_stake a _) eqn:Ehas.
      * unfold cum_moves, cum_of in Hc |- *. rewrite Hm. cbn [default issued_record r_cumulated].
        rewrite Z.sub_0_r. repeat split; lia.
      * rewrite (issue_to_none _ _ _ Ehas). apply Hquiet. unfold cum_of. rewrite Hm. reflexivity.
    + (* without the old ledger version only a block without votes succeeds *)
      apply Hsame. destruct (begin_block_ok_inv _ _ _ _ Hb) as (_ & _ & _ & _ & _ & Hcase).
      destruct Hcase as [(_ & Hw & _)|(_ & s1 & Hc1 & Hg1 & Hp)].
      * rewrite Hw, stake_punish_rewards, gov_punish_rewards. reflexivity.
      * exfalso. unfold process_votes in Hp. unfold ledgers_at in Hp, Eold. rewrite Hc1, Hg1, Eold in Hp. discriminate.
  - destruct (t_type t =? TRX_WITHDRAW) eqn:Ety; cbn [andb];
      [|apply Hsame, deliver_rewards_other, Z.eqb_neq, Ety].
    apply Z.eqb_eq in Ety. destruct (Hwf Ety) as (Hpw & Hg & Htx & Hnw). unfold payload_wf in Hpw.
    destruct (deliver s t) as [s' res] eqn:Hd. cbn [fst snd].
    assert (Hfail : (∀ g, res ≠ Ok g) → cum_moves (cum_of s a) (cum_of s' a) 0 0).
    { intros Hn. apply Hsame.
      destruct (withdraw_fail_frame _ _ _ _ Hd Ety Hn Hg Htx) as [(_ & _ & _ & Hrw & _) _]; [|symmetry; exact Hrw].
      intros req sender H1 H2. rewrite H1 in Hpw. destruct (Hnw _ _ H1 H2). lia. }
    destruct res as [gas|e|p]; [|destruct (t_from t =? a)%N; apply Hfail; discriminate..].
    destruct (withdraw_ok_inv _ _ _ _ Hd Ety)
      as (req & r & sender & bal' & Hpl & _ & _ & _ & Hr & Hle & _ & _ & _ & _ & _ & Hrw' & _).
    rewrite Hpl in Hpw |- *.
    destruct (N.eqb_spec (t_from t) a) as [<-|Ea].
    + assert (Hcr : cum_of s (t_from t) = r_cumulated r) by (unfold cum_of; rewrite Hr; reflexivity).
      unfold cum_moves. rewrite Hcr in *. unfold cum_of. rewrite Hrw', lookup_insert.
      cbn [default withdrawn_record r_cumulated]. unfold sub256, wrap256. rewrite Z.add_0_r. repeat split; lia.
    + apply Hquiet. unfold cum_of. rewrite Hrw', lookup_insert_ne by exact Ea. reflexivity.
  - apply Hsame, end_block_rewards.
  - apply Hsame. reflexivity.
Qed.

Lemma step_cum_ok s o : cum_ok s → step_wf s o → cum_ok (sstep s o).
Proof.
  intros Hok Hwf a r Hr. pose proof (step_cum s o a Hok Hwf) as (Hc & _).
  unfold cum_of at 1 in Hc. rewrite Hr in Hc. simpl in Hc. rewrite Hc. apply mod_in_range.
Qed.

(* R2, run level, modular form: along any run whose withdrawals are well-formed, the withdrawable
   reward is everything issued minus everything withdrawn (mod 2^256; exact below). *)
Theorem reward_identity_mod s ops a :
  cum_ok s → run_wf s ops →
  cum_of (srun s ops) a = (cum_of s a + issued_to s ops a - withdrawn_by s ops a) mod two256.
Proof.
  revert s. induction ops as [|o ops IH]; intros s Hok Hwf; simpl.
  - pose proof (cum_of_range s a Hok). rewrite Z.add_0_r, Z.sub_0_r, Z.mod_small by lia. reflexivity.
  - destruct Hwf as [Hw Hwf]. change (srun (sstep s o) ops) with (foldl sstep (sstep s o) ops) in IH.
    unfold srun in IH. rewrite IH by (try apply step_cum_ok; assumption).
    destruct (step_cum s o a Hok Hw) as (-> & _). rewrite <- Z.add_sub_assoc, Zplus_mod_idemp_l. f_equal. lia.
Qed.

(* R2, run level, exact: as long as the total ever issued to [a] fits a uint256, the withdrawable
   reward is exactly issued minus withdrawn, and withdrawals never exceed issuance. *)
Theorem reward_identity s ops a :
  cum_ok s → run_wf s ops → cum_of s a + issued_to s ops a < two256 →
  cum_of (srun s ops) a = cum_of s a + issued_to s ops a - withdrawn_by s ops a ∧
  0 ≤ withdrawn_by s ops a ≤ cum_of s a + issued_to s ops a ∧ 0 ≤ issued_to s ops a.
Proof.
  revert s. induction ops as [|o ops IH]; intros s Hok Hwf Hb; simpl in *.
  - pose proof (cum_of_range s a Hok). lia.
  - destruct Hwf as [Hw Hwf]. pose proof (cum_of_range s a Hok) as Hc.
    destruct (step_cum s o a Hok Hw) as (Hstep & Hi & Hwd & Hor).
    assert (Hrest : 0 ≤ issued_to (sstep s o) ops a).
    { clear. generalize (sstep s o). induction ops as [|o' ops IH]; intros s'; simpl; [lia|].
      specialize (IH (sstep s' o')).
      assert (0 ≤ step_issue s' o' a); [|lia].
      unfold step_issue. destruct o'; try lia. destruct (begin_block s' h).2; try lia.
      destruct (ledgers_at s' _); [apply issue_to_nonneg|lia]. }
    assert (Hexact : cum_of (sstep s o) a = cum_of s a + step_issue s o a - step_withdraw s o a).
    { rewrite Hstep. apply Z.mod_small. lia. }
    destruct (IH (sstep s o)) as (IH1 & IH2 & IH3); [apply step_cum_ok; assumption|assumption|lia|].
    change (foldl sstep (sstep s o) ops) with (srun (sstep s o) ops). lia.
Qed.
Print Assumptions reward_identity_mod.
Print Assumptions reward_identity.

Lemma cum_ok_init g : cum_ok (init_chain g).
Proof. intros a r H. rewrite init_chain_rewards, lookup_empty in H. discriminate. Qed.

Corollary reward_identity_genesis g ops a :
  run_wf (init_chain g) ops → issued_to (init_chain g) ops a < two256 →
  cum_of (srun (init_chain g) ops) a = issued_to (init_chain g) ops a - withdrawn_by (init_chain g) ops a ∧
  0 ≤ withdrawn_by (init_chain g) ops a ≤ issued_to (init_chain g) ops a.
Proof.
  intros Hwf Hb.
  assert (H0 : cum_of (init_chain g) a = 0) by (unfold cum_of; rewrite init_chain_rewards, lookup_empty; reflexivity).
  destruct (reward_identity (init_chain g) ops a (cum_ok_init g) Hwf) as (H1 & H2 & _); [lia|]. lia.
Qed.

(* ================================================================== examples *)
(* one validator (address 1, power 100) that is also an asset holder; reward 3 per power *)
Definition ex_params : params :=
  {| g_version := 1; g_maxValidatorCnt := 21; g_minValidatorStake := amountPerPower; g_minDelegatorStake := 0;
     g_rewardPerPower := 3; g_lazyRewardBlocks := 10; g_lazyApplyingBlocks := 10; g_gasPrice := 1;
     g_minTrxGas := 1; g_maxTrxGas := 1000000; g_maxBlockGas := 10000000; g_minVotingPeriodBlocks := 1;
     g_maxVotingPeriodBlocks := 100; g_minSelfStakeRatio := 50; g_maxUpdatableStakeRatio := 30;
     g_maxIndividualStakeRatio := 100; g_slashRatio := 50; g_signedBlocksWindow := 10; g_minSignedBlocks := 5 |}.
Definition ex_gen : genesis := {| gen_params := ex_params; gen_holders := [(1%N, 1000000)]; gen_validators := [(1%N, 100)] |}.
Definition ex_hdr (h : Z) (votes : list (addr * Z * bool)) : header :=
  {| h_height := h; h_proposer := Some 1%N; h_votes := votes; h_evidence := [] |}.
Definition ex_block1 : list sop := [SBegin (ex_hdr 1 []); SEnd; SCommit].
Definition ex_s1 : state := srun (init_chain ex_gen) ex_block1.
Definition ex_hd2 : header := ex_hdr 2 [(1%N, 100, true)].
Definition ex_withdraw : tx :=
  {| t_type := TRX_WITHDRAW; t_from := 1%N; t_to := 0%N; t_from_ok := true; t_to_ok := true; t_amount := 0;
     t_price := 1; t_gas := 10; t_nonce := 0; t_payload := PWithdraw 120; t_hash := 77%N; t_sigok := true; t_evm := None |}.
Definition ex_s2 : state := (begin_block ex_s1 ex_hd2).1.

(* R1: block 2 pays 100 * 3 to account 1 *)
Example begin_block_rewards_example :
  ∃ old, begin_block ex_s1 ex_hd2 = (ex_s2, Ok 300) ∧
         ledgers_at ex_s1 (hgt_of_power (h_height ex_hd2)) = Some old ∧
         has_stake 1%N (rewarded_stakes old (h_votes ex_hd2)) = true ∧
         issue_to (gparams ex_s1) (rewarded_stakes old (h_votes ex_hd2)) 1%N = 300 ∧
         rewards (work ex_s2) !! 1%N = Some {| r_issued := 300; r_withdrawn := 0; r_slashed := 0; r_cumulated := 300; r_height := 2 |}.
Proof.
  exists (work ex_s1). split; [apply pair_snd_eq; vm_compute; reflexivity|].
  split; [vm_compute; reflexivity|]. split; [vm_compute; reflexivity|]. split; vm_compute; reflexivity.
Qed.

(* R2 (ii) / R3: withdrawing 120 of the 300 *)
Example withdraw_ok_example :
  (deliver ex_s2 ex_withdraw).2 = Ok 10 ∧ t_type ex_withdraw = TRX_WITHDRAW ∧ payload_wf ex_withdraw ∧
  cum_of (deliver ex_s2 ex_withdraw).1 1%N = 180 ∧
  bal_of (work (deliver ex_s2 ex_withdraw).1) 1%N = bal_of (work ex_s2) 1%N + 120 - 10.
Proof.
  split; [vm_compute; reflexivity|]. split; [reflexivity|]. split; [vm_compute; split; [discriminate|reflexivity]|].
  split; vm_compute; reflexivity.
Qed.

(* R3: asking for more than is withdrawable fails and changes nothing *)
Example withdraw_too_much_example :
  let t := {| t_type := TRX_WITHDRAW; t_from := 1%N; t_to := 0%N; t_from_ok := true; t_to_ok := true; t_amount := 0;
              t_price := 1; t_gas := 10; t_nonce := 0; t_payload := PWithdraw 301; t_hash := 78%N; t_sigok := true; t_evm := None |} in
  (deliver ex_s2 t).2 = Err E_NOREWARD ∧ cum_of (deliver ex_s2 t).1 1%N = 300 ∧
  params_ok (gparams ex_s2) ∧ tx_wf t ∧ rewards_height_ok ex_s2.
Proof.
  cbv zeta. split; [vm_compute; reflexivity|]. split; [vm_compute; reflexivity|].
  split; [vm_compute; repeat split; discriminate|]. split; [vm_compute; repeat split; discriminate|].
  apply (rewards_height_ok_step _ (SBegin ex_hd2)), (rewards_height_ok_run ex_gen ex_block1).
Qed.

(* the run-level identity on a run with an issue and a withdrawal *)
Definition ex_run : list sop := ex_block1 ++ [SBegin ex_hd2; SDeliver ex_withdraw; SEnd; SCommit].
Example reward_identity_example :
  issued_to (init_chain ex_gen) ex_run 1%N = 300 ∧ withdrawn_by (init_chain ex_gen) ex_run 1%N = 120 ∧
  cum_of (srun (init_chain ex_gen) ex_run) 1%N = 180.
Proof. decide_eqs. Qed.

Example run_wf_example : run_wf (init_chain ex_gen) ex_run.
Proof.
  unfold ex_run, ex_block1. cbn [app run_wf step_wf].
  split; [exact I|]. split; [exact I|]. split; [exact I|]. split; [exact I|]. split; [|repeat split].
  intros _. split; [vm_compute; split; [discriminate|reflexivity]|].
  split; [vm_compute; repeat split; discriminate|].
  split; [vm_compute; repeat split; discriminate|].
  intros req sender Hp Hs. injection Hp as <-. vm_compute in Hs. injection Hs as <-. vm_compute. split; [discriminate|reflexivity].
Qed.

Print Assumptions begin_block_rewards_exact.
Print Assumptions withdraw_ok_inv.
Print Assumptions withdraw_fail_frame_refuted.
Print Assumptions reward_identity_genesis.
Print Assumptions run_no_reward_panic.
