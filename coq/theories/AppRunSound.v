(* AppRunSound.v — the comparator the correspondence check runs is sound: when it reports no
   difference between the model's and the implementation's observations, they ARE equal on the
   compared projection (as Coq values), so a divergence cannot hide behind the hand-written boolean
   equalities of AppRun.v. *)
From Rigo Require Import Base.
From stdpp Require Import gmap sorting.
From Rigo Require Import Spec SpecProps AppRun.
Local Open Scope Z_scope.

Definition sound {A} (e : A → A → bool) : Prop := ∀ x y, e x y = true → x = y.

Lemma Zeqb_sound : sound Z.eqb. Proof. intros x y H. apply Z.eqb_eq. exact H. Qed.
Lemma Neqb_sound : sound N.eqb. Proof. intros x y H. apply N.eqb_eq. exact H. Qed.
Lemma Booleqb_sound : sound Bool.eqb. Proof. intros x y H. apply Bool.eqb_prop. exact H. Qed.

Lemma eqb_list_sound {A} (e : A → A → bool) : sound e → sound (eqb_list e).
Proof.
  intros He a. induction a as [|x a IH]; intros [|y b] H; cbn [eqb_list] in H; try discriminate; [reflexivity|].
  apply andb_prop in H as [H1 H2]. f_equal; [apply He; exact H1|apply IH; exact H2].
Qed.

Lemma eqb_opt_sound {A} (e : A → A → bool) : sound e → sound (eqb_opt e).
Proof.
  intros He [x|] [y|] H; cbn in H; try discriminate; [|reflexivity]. f_equal. apply He. exact H.
Qed.

Lemma eqb_pair_sound {A B} (ea : A → A → bool) (eb : B → B → bool) : sound ea → sound eb → sound (eqb_pair ea eb).
Proof.
  intros Ha Hb [a1 b1] [a2 b2] H. unfold eqb_pair in H; cbn in H.
  apply andb_prop in H as [H1 H2]. f_equal; [apply Ha; exact H1|apply Hb; exact H2].
Qed.

Create HintDb sound.
#[export] Hint Resolve Zeqb_sound Neqb_sound Booleqb_sound eqb_list_sound eqb_opt_sound eqb_pair_sound : sound.

Lemma sound_ext {A} (e e' : A → A → bool) : (∀ x y, e' x y = e x y) → sound e → sound e'.
Proof. intros Heq He x y H. apply He. rewrite <-Heq. exact H. Qed.

(* the test of a tuple view is the pairing of its components' tests *)
Lemma eqb_acct_view_sound : sound eqb_acct_view.
Proof.
  apply (sound_ext (eqb_pair (eqb_pair (eqb_pair (eqb_pair Z.eqb Z.eqb) Bool.eqb) N.eqb) N.eqb));
    [|auto with sound].
  intros [[[[n1 b1] c1] nm1] d1] [[[[n2 b2] c2] nm2] d2]. reflexivity.
Qed.

Lemma eqb_stake_view_sound : sound eqb_stake_view.
Proof.
  apply (sound_ext (eqb_pair (eqb_pair (eqb_pair (eqb_pair (eqb_pair N.eqb N.eqb) N.eqb) Z.eqb) Z.eqb) Z.eqb));
    [|auto 6 with sound].
  intros [[[[[f1 t1] h1] s1] r1] p1] [[[[[f2 t2] h2] s2] r2] p2]. reflexivity.
Qed.
#[export] Hint Resolve eqb_acct_view_sound eqb_stake_view_sound : sound.

Lemma eqb_del_view_sound : sound eqb_del_view.
Proof.
  apply (sound_ext (eqb_pair (eqb_pair (eqb_pair Z.eqb Z.eqb) (eqb_list eqb_stake_view)) (eqb_list Z.eqb)));
    [|auto with sound].
  intros [[[s1 t1] st1] m1] [[[s2 t2] st2] m2]. reflexivity.
Qed.

Lemma eqb_reward_view_sound : sound eqb_reward_view.
Proof.
  apply (sound_ext (eqb_pair (eqb_pair (eqb_pair (eqb_pair Z.eqb Z.eqb) Z.eqb) Z.eqb) Z.eqb));
    [|auto with sound].
  intros [[[[i1 w1] s1] c1] h1] [[[[i2 w2] s2] c2] h2]. reflexivity.
Qed.

Lemma eqb_prop_view_sound : sound eqb_prop_view.
Proof.
  apply (sound_ext (eqb_pair (eqb_pair (eqb_pair (eqb_pair (eqb_pair Bool.eqb
           (eqb_pair (eqb_pair (eqb_pair (eqb_pair Z.eqb Z.eqb) Z.eqb) Z.eqb) Z.eqb))
           (eqb_list (eqb_pair (eqb_pair N.eqb Z.eqb) Z.eqb))) Z.eqb)
           (eqb_list (eqb_pair N.eqb Z.eqb))) (eqb_opt N.eqb))); [|auto 12 with sound].
  intros [[[[[f1 [[[[s1 e1] a1] t1] m1]] v1] ot1] o1] mj1] [[[[[f2 [[[[s2 e2] a2] t2] m2]] v2] ot2] o2] mj2].
  unfold eqb_pair. cbn. rewrite !andb_assoc. reflexivity.
Qed.

Lemma andb_Zeqb (c : bool) (x y : Z) : c && (x =? y) = true → c = true ∧ x = y.
Proof. intros H. apply andb_prop in H as [H1 H2]. split; [exact H1|apply Z.eqb_eq, H2]. Qed.

(* nineteen numbers *)
Lemma eqb_params_sound : sound eqb_params.
Proof.
  intros [] [] H. unfold eqb_params in H. cbn in H.
  do 18 (apply andb_Zeqb in H as [H ->]). apply Z.eqb_eq in H as ->. reflexivity.
Qed.
#[export] Hint Resolve eqb_del_view_sound eqb_reward_view_sound eqb_prop_view_sound eqb_params_sound : sound.

(* one link of [snap_diff]'s chain of tests *)
Lemma if_differ_0 {A} (e : A → A → bool) x y (c rest : Z) :
  sound e → c ≠ 0 → (if negb (e x y) then c else rest) = 0 → x = y ∧ rest = 0.
Proof. intros He Hc. destruct (e x y) eqn:E; cbn; [|contradiction]. split; [apply He, E|assumption]. Qed.

(* the whole projected state *)
Theorem snap_diff_sound a b : snap_diff a b = 0 → a = b.
Proof.
  destruct a as [a1 d1 f1 r1 p1 g1 t1], b as [a2 d2 f2 r2 p2 g2 t2]. unfold snap_diff. cbn. intros H.
  do 7 (apply if_differ_0 in H as [-> H]; [|auto with sound|discriminate]). reflexivity.
Qed.

(* what "no difference" means per observation: equal, except that two failures (two panics) count
   as agreeing whatever their reason code — the reason is compared separately as a note *)
Definition res_agree {A} (a b : res A) : Prop :=
  match a, b with
  | Ok x, Ok y => x = y
  | Err _, Err _ => True
  | Panic _, Panic _ => True
  | _, _ => False
  end.
Definition obs_agree (m i : aobs) : Prop :=
  match m, i with
  | OInit, OInit => True
  | OBegin a, OBegin b => res_agree a b
  | ODeliver a, ODeliver b => res_agree a b
  | OEnd a, OEnd b => res_agree a b
  | OCommit a, OCommit b => a = b
  | _, _ => False
  end.

Lemma res_class_sound {A} (e : A → A → bool) a b : sound e → res_class e a b = true → res_agree a b.
Proof. intros He H. destruct a, b; cbn in *; try discriminate; try exact I. apply He. exact H. Qed.

Theorem obs_diff_sound m i : obs_diff false m i = 0 → obs_agree m i.
Proof.
  destruct m as [|a|a|a|a], i as [|b|b|b|b]; cbn; try discriminate; try (intros; exact I).
  - destruct (res_class Z.eqb a b) eqn:E; [|discriminate]. apply res_class_sound in E; auto with sound.
  - destruct (res_class Z.eqb a b) eqn:E; [|discriminate]. apply res_class_sound in E; auto with sound.
  - destruct (res_class (eqb_list (eqb_pair N.eqb Z.eqb)) a b) eqn:E; [|discriminate].
    apply res_class_sound in E; auto with sound.
  - apply snap_diff_sound.
Qed.

(* the case-level verdict: no reported difference = the model's observation list agrees with the
   implementation's, position by position and in length *)
Theorem first_obs_diff_sound : ∀ m i n, first_obs_diff false n m i = None → Forall2 obs_agree m i.
Proof.
  induction m as [|x m IH]; intros [|y i] n H; cbn [first_obs_diff] in H; try discriminate; [constructor|].
  destruct (obs_diff false x y =? 0) eqn:E; [|discriminate].
  constructor; [apply obs_diff_sound; apply Z.eqb_eq; exact E|exact (IH _ _ H)].
Qed.

Theorem check_acase_sound c : (check_acase c).1 = None → Forall2 obs_agree (model_obs c) (c_obs c).
Proof. unfold check_acase. cbn. apply first_obs_diff_sound. Qed.
