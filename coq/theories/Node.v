(* The node as consensus sees it plus what mempool checks and queries can touch.
   Spec.v models the consensus side (BeginBlock/DeliverTx/EndBlock/Commit).  Here it is paired
   with the mempool-side state that CheckTx works on, and with Query, to state the isolation
   properties C06 and C19. *)
From Rigo Require Import Base.
From stdpp Require Import gmap sorting.
From Rigo Require Import Spec SpecProps AppRun.
From Rigo Require SpecFacts InvFail.
Local Open Scope Z_scope.

(* mempool-side state: the check overlay of every ledger, seen as "last committed state plus the
   pending effects of the CheckTx calls since" (reset at Commit), and the check-side stake limiter
   (since fix cef0175 a separate object; reset at BeginBlock) *)
Record node := { cons : state; chk : ledgers; chk_lim : limiter }.

(* the state CheckTx validates against: the overlay, the consensus side's in-memory parameters and
   validator set, height = last committed height + 1 *)
Definition check_view (n : node) : state :=
  let s := cons n in
  {| committed := committed s; work := chk n; gparams := gparams s; newparams := None;
     alldels := alldels s; lastvals := lastvals s; lim := chk_lim n;
     bctx := {| b_height := last_height s + 1; b_proposer := None; b_feesum := 0; b_txs := 0 |};
     last_height := last_height s |}.

(* CheckTx: the signature is not verified on this path, contract transactions are validated but
   not executed (ExecuteTrx returns at once when Exec is false) and pay no fee here *)
Definition check_tx (n : node) (t : tx) : node * res Z :=
  let v := check_view n in
  let t' := mk_tx (t_type t) (t_from t) (t_to t) (t_from_ok t) (t_to_ok t) (t_amount t) (t_price t)
                  (t_gas t) (t_nonce t) (t_payload t) (t_hash t) true None in
  let evm := (t_type t =? TRX_CONTRACT) ||
             ((t_type t =? TRX_TRANSFER) && a_code (default acct0 (accts (chk n) !! t_to t))) in
  if evm then
    match accts (chk n) !! t_from t with
    | None => (n, Err E_NOACCT)
    | Some sender =>
        let '(l0, receiver) := find_or_new (chk n) (t_to t) in
        let n0 := {| cons := cons n; chk := l0; chk_lim := chk_lim n |} in
        match common_validation0 (gparams (cons n)) t' with Some e => (n0, Err e) | None =>
        match common_validation1 sender t' with Some e => (n0, Err e) | None =>
        match evm_validate receiver t' with Some e => (n0, Err e) | None => (n0, Ok 0) end end end
    end
  else
    let '(v', r) := deliver v t' in
    ({| cons := cons n; chk := work v'; chk_lim := lim v' |}, r).

(* Query: a function of the committed versions only *)
Definition query_snapshot (n : node) (wa : list addr) (wh : list hash) (height : Z) : option snapshot :=
  let s := cons n in
  let h := if height =? 0 then last_height s else height in
  if (h <? 1) || (Z.of_nat (length (committed s)) <? h) then None
  else snapshot_of wa wh <$> (committed s !! Z.to_nat (h - 1)).

Inductive nop :=
| NCons (o : sop)                 (* a consensus call *)
| NCheck (t : tx)                 (* a mempool check *)
| NQuery (wa : list addr) (wh : list hash) (height : Z).

Definition limiter_of_begin (s : state) (hd : header) : limiter := lim (begin_block s hd).1.

Definition nstep (n : node) (o : nop) : node :=
  match o with
  | NCons (SCommit) =>
      let s' := commit (cons n) in {| cons := s'; chk := work s'; chk_lim := chk_lim n |}
  | NCons (SBegin hd) =>
      let s' := (begin_block (cons n) hd).1 in {| cons := s'; chk := chk n; chk_lim := lim s' |}
  | NCons o => {| cons := sstep (cons n) o; chk := chk n; chk_lim := chk_lim n |}
  | NCheck t => (check_tx n t).1
  | NQuery _ _ _ => n
  end.
Definition nrun (n : node) (ops : list nop) : node := foldl nstep n ops.

Definition cons_ops (ops : list nop) : list sop :=
  omap (λ o, match o with NCons c => Some c | _ => None end) ops.

(* ------------------------------------------------------------------ C06: isolation *)
Lemma check_tx_cons n t : cons (check_tx n t).1 = cons n.
Proof.
  unfold check_tx.
  destruct ((t_type t =? TRX_CONTRACT) || _).
  - destruct (accts (chk n) !! t_from t) as [sender|]; [|reflexivity].
    destruct (find_or_new (chk n) (t_to t)) as [l0 receiver].
    destruct (common_validation0 _ _); [reflexivity|].
    destruct (common_validation1 _ _); [reflexivity|].
    destruct (evm_validate _ _); reflexivity.
  - destruct (deliver (check_view n) _) as [v' r]. reflexivity.
Qed.

Lemma nstep_cons n o :
  cons (nstep n o) = match o with NCons c => sstep (cons n) c | _ => cons n end.
Proof.
  destruct o as [c|t|wa wh h]; simpl.
  - destruct c; reflexivity.
  - apply check_tx_cons.
  - reflexivity.
Qed.

(* Whatever CheckTx and Query calls are interleaved with the consensus calls, at ABCI-call
   granularity, the consensus-side state after the schedule is the one the consensus calls alone
   produce: every answer to a consensus call and every committed version is unchanged. *)
Theorem checks_and_queries_do_not_interfere : ∀ ops n,
  cons (nrun n ops) = srun (cons n) (cons_ops ops).
Proof.
  induction ops as [|o ops IH]; intros n; [reflexivity|].
  unfold nrun, srun in *. cbn [foldl]. rewrite IH, nstep_cons.
  destruct o as [c|t|wa wh h]; reflexivity.
Qed.

Inductive cres :=
| RBegin (r : res Z) | RDeliver (r : res Z) | REnd (r : res (list (addr * Z))) | RCommit (l : ledgers).
Definition cons_answer (s : state) (o : sop) : cres :=
  match o with
  | SBegin hd => RBegin (begin_block s hd).2
  | SDeliver t => RDeliver (deliver s t).2
  | SEnd => REnd (end_block s).2
  | SCommit => RCommit (work (commit s))
  end.
Fixpoint cons_answers (s : state) (ops : list sop) : list cres :=
  match ops with [] => [] | o :: r => cons_answer s o :: cons_answers (sstep s o) r end.
Fixpoint node_answers (n : node) (ops : list nop) : list cres :=
  match ops with
  | [] => []
  | NCons c :: r => cons_answer (cons n) c :: node_answers (nstep n (NCons c)) r
  | o :: r => node_answers (nstep n o) r
  end.

Theorem interleaving_invisible : ∀ ops n,
  node_answers n ops = cons_answers (cons n) (cons_ops ops).
Proof.
  induction ops as [|o ops IH]; intros n; [reflexivity|].
  destruct o as [c|t|wa wh h]; cbn [node_answers cons_ops omap list_omap cons_answers].
  - rewrite IH. f_equal. f_equal. apply (nstep_cons n (NCons c)).
  - rewrite IH. f_equal. apply (nstep_cons n (NCheck t)).
  - rewrite IH. reflexivity.
Qed.

(* ------------------------------------------------------------------ C19: queries *)
Lemma sstep_committed_prefix s o : committed s `prefix_of` committed (sstep s o).
Proof.
  destruct o as [hd|t| |]; simpl.
  - destruct (begin_block s hd) as [s' r] eqn:H.
    destruct (SpecFacts.begin_block_control _ _ _ _ H) as [->|(_ & l & ->)]; reflexivity.
  - destruct (deliver s t) as [s' r] eqn:H.
    apply InvFail.deliver_control in H as (l & x & fee & n & ->). reflexivity.
  - destruct (end_block s) as [s' r] eqn:H. apply SpecFacts.end_block_cases in H. destruct H; reflexivity.
  - apply prefix_app_r. reflexivity.
Qed.

Lemma srun_committed_prefix ops : ∀ s, committed s `prefix_of` committed (srun s ops).
Proof.
  induction ops as [|o ops IH]; intros s; [reflexivity|].
  unfold srun in *; simpl. etrans; [apply sstep_committed_prefix|apply IH].
Qed.

(* The answer for a height that is already committed never changes, whatever happens later:
   further blocks, transactions of a block in progress, mempool checks, other queries. *)
Theorem past_heights_are_immutable : ∀ n ops wa wh h,
  1 ≤ h ≤ Z.of_nat (length (committed (cons n))) →
  query_snapshot (nrun n ops) wa wh h = query_snapshot n wa wh h.
Proof.
  intros n ops wa wh h Hh.
  unfold query_snapshot.
  rewrite checks_and_queries_do_not_interfere.
  pose proof (srun_committed_prefix (cons_ops ops) (cons n)) as [ext Hext].
  assert (Hz : (h =? 0) = false) by (apply Z.eqb_neq; lia). rewrite Hz.
  assert (Hl : Z.of_nat (length (committed (cons n))) ≤ Z.of_nat (length (committed (srun (cons n) (cons_ops ops))))).
  { rewrite Hext, app_length. lia. }
  assert (H1 : ((h <? 1) || (Z.of_nat (length (committed (srun (cons n) (cons_ops ops)))) <? h)) = false).
  { apply orb_false_iff; split; [apply Z.ltb_ge; lia|apply Z.ltb_ge; lia]. }
  assert (H2 : ((h <? 1) || (Z.of_nat (length (committed (cons n))) <? h)) = false).
  { apply orb_false_iff; split; [apply Z.ltb_ge; lia|apply Z.ltb_ge; lia]. }
  rewrite H1, H2, Hext.
  rewrite lookup_app_l; [reflexivity|]. lia.
Qed.

(* serving a query changes nothing at all *)
Theorem query_is_pure : ∀ n wa wh h, nstep n (NQuery wa wh h) = n.
Proof. reflexivity. Qed.

(* a height beyond the latest committed one is refused *)
Theorem query_beyond_latest : ∀ n wa wh h,
  Z.of_nat (length (committed (cons n))) < h → query_snapshot n wa wh h = None.
Proof.
  intros n wa wh h Hh. unfold query_snapshot.
  assert (Hz : (h =? 0) = false) by (apply Z.eqb_neq; lia). rewrite Hz.
  assert (H : (Z.of_nat (length (committed (cons n))) <? h) = true) by (apply Z.ltb_lt; lia).
  rewrite H, orb_true_r. reflexivity.
Qed.
