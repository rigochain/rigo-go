(* The remaining history theorems (C11, C10, C05, C13) with their hypotheses about intermediate
   states discharged from hypotheses on the inputs (genesis document, operation list,
   transactions), continuing InvReach.v.

   C11_*_inputs             hashes_unique / never_lost / identity_preserved from [hashes_fresh]
   C10_closed               [Forall sel_positive (block_starts ...)] from params_ok of the genesis
                            parameters, genesis powers in the int64 range and [opts_ok]
   C05_closed(_along)       failed delivery has no effect in every state of a closed run;
                            [reward_headroom] is not needed (deliver_fail_no_effect_small)
   C13_closed               reward identity, [run_wf] discharged; C13_closed_mod needs no
                            no-wrap hypothesis
   C10_closed_inputs        the covering hypothesis of C10_holds in input terms (block 1 quiet,
                            genesis powers meet the minimum, genesis set fits the maximum count) *)
From Rigo Require Import Base.
From stdpp Require Import gmap sorting.
From Rigo Require Import Spec SpecProps SpecFacts.
From Rigo Require InvFail InvNonce InvReward InvGov InvPanic InvValSet ValSet.
From Rigo Require Import InvStake InvFee InvSupply InvReach.
Local Open Scope Z_scope.

Local Opaque two256 two255 two64 two63.

(* ================================================================== C11 from the transaction hashes *)

Theorem C11_hashes_unique_inputs g ops :
  (length (gen_validators g) ≤ 1)%nat → hashes_fresh ops →
  hashes_unique (work (srun (init_chain g) ops)).
Proof.
  intros Hlen Hh. apply hashes_unique_reachable; [exact Hlen|]. apply fresh_run_reachable. exact Hh.
Qed.
Print Assumptions C11_hashes_unique_inputs.

Lemma fresh_run_last pre o : ∀ s,
  fresh_run s (pre ++ [o]) → match o with SDeliver t => fresh_tx (srun s pre) t | _ => True end.
Proof.
  induction pre as [|o' pre IH]; intros s H; cbn [app fresh_run] in H.
  - destruct H as [H _]. exact H.
  - destruct H as [_ H]. apply (IH (sstep s o') H).
Qed.

(* in every state of a run from a well-formed genesis whose staking transactions carry pairwise
   distinct non-zero hashes and whose parameter documents are [doc_ok], no transaction whatsoever
   loses a bonded stake *)
Theorem C11_never_lost_inputs g ops t st :
  genesis_ok g → hashes_fresh ops → opts_ok ops →
  let s := srun (init_chain g) ops in
  st ∈ bonded_stakes (work s) →
  st ∈ bonded_stakes (work (deliver s t).1) ∨
  frozen (work (deliver s t).1) !! s_hash st
    = Some (with_refund (b_height (bctx s) + g_lazyRewardBlocks (gparams s)) st).
Proof.
  intros Hg Hh Hopts s Hst.
  pose proof (run_ok_reachable g ops Hg (fresh_run_reachable g ops Hh) Hopts ops (reflexivity _)) as (Hu & _ & Hpw & _).
  fold s in Hu, Hpw.
  apply deliver_never_loses; [exact Hu| | |exact Hst].
  - apply (dels_ok_reachable g ops).
  - intros x Hx. apply (powers_ok_bonded _ x Hpw Hx).
Qed.
Print Assumptions C11_never_lost_inputs.

(* owner, target, hash, start height and power of a bonded stake are unchanged by the next operation
   of such a list (BeginBlock without evidence) *)
Theorem C11_identity_preserved_inputs g ops o st :
  (length (gen_validators g) ≤ 1)%nat → hashes_fresh (ops ++ [o]) →
  match o with SBegin hd => h_evidence hd = [] | _ => True end →
  let s := srun (init_chain g) ops in
  st ∈ bonded_stakes (work s) →
  (∀ st', st' ∈ bonded_stakes (work (sstep s o)) → s_hash st' = s_hash st → st' = st) ∧
  (∀ st', st' ∈ frozen_stakes (work (sstep s o)) → s_hash st' = s_hash st → st' = with_refund (s_refund st') st).
Proof.
  intros Hlen Hh Ho s Hst.
  pose proof (fresh_run_reachable g _ Hh) as Hf.
  apply stake_unchanged_step; [| |exact Hst].
  - apply hashes_unique_reachable; [exact Hlen|]. eapply fresh_run_prefix. exact Hf.
  - pose proof (fresh_run_last ops o (init_chain g) Hf) as Hl.
    destruct o as [hd|t| |]; [exact Ho|exact Hl|exact I|exact I].
Qed.
Print Assumptions C11_identity_preserved_inputs.

Example C11_inputs_example :
  (length (gen_validators hx_genesis) ≤ 1)%nat ∧ genesis_ok hx_genesis ∧ hashes_fresh hx_ops ∧ opts_ok hx_ops ∧
  hashes_unique (work (srun (init_chain hx_genesis) hx_ops)) ∧
  bonded_stakes (work (srun (init_chain hx_genesis) hx_ops)) ≠ [].
Proof.
  assert (Hlen : (length (gen_validators hx_genesis) ≤ 1)%nat) by (vm_compute; lia).
  split; [exact Hlen|]. split; [exact hx_genesis_ok|]. split; [exact hx_hashes_fresh|]. split; [exact hx_opts_ok|].
  split; [exact (C11_hashes_unique_inputs _ _ Hlen hx_hashes_fresh)|].
  vm_compute. discriminate.
Qed.

(* ================================================================== C10: positivity of the selections *)
(* what holds at every block boundary of a run of blocks from a genesis with well-formed parameters
   and powers in the int64 range, when the parameter documents of its proposals are [doc_ok] *)
Definition block_inv (s : state) : Prop :=
  InvValSet.boundary_ok s ∧ docs_inv s ∧ powers_ok (work s) ∧ dels_ok (work s).

Lemma dels_ok_run ops : ∀ s, dels_ok (work s) → dels_ok (work (srun s ops)).
Proof.
  unfold srun. induction ops as [|o ops IH]; intros s Hs; cbn [foldl]; [exact Hs|].
  apply IH. apply sstep_dels_ok. exact Hs.
Qed.

Lemma block_inv_init g :
  params_ok (gen_params g) → Forall (λ v : addr * Z, 0 ≤ v.2 < two63) (gen_validators g) →
  block_inv (init_chain g).
Proof.
  intros Hg Hv. split; [apply InvValSet.init_chain_boundary|]. split; [apply init_chain_docs_inv; exact Hg|].
  split; [apply init_chain_powers_ok; exact Hv|apply init_chain_dels_ok].
Qed.

Lemma block_inv_block s hd txs s' ups :
  block_inv s → opts_ok (InvValSet.block_ops hd txs) → InvValSet.do_block s hd txs = Some (s', ups) → block_inv s'.
Proof.
  intros (Hb & Hd & Hp & Hk) Hopts Hdo.
  destruct (InvValSet.do_block_inv s hd txs s' ups Hb Hdo) as (Hb' & _).
  destruct (InvValSet.do_block_srun s hd txs s' ups Hdo) as [<- _].
  split; [exact Hb'|]. split; [apply docs_inv_run; assumption|].
  split; [apply powers_ok_run; assumption|apply dels_ok_run; exact Hk].
Qed.

Lemma block_inv_sel_positive s : block_inv s → InvValSet.sel_positive s.
Proof.
  intros (Hb & (Hg & _) & Hp & Hk). apply InvValSet.sel_positive_of_totals; [exact Hb| |].
  - apply InvValSet.min_power_pos. destruct Hg as (_ & _ & _ & _ & _ & H6 & _). exact H6.
  - destruct (InvValSet.base_of_boundary s Hb) as [[_ ->]|[_ ->]].
    + intros a d Hd. cbn in Hd. rewrite lookup_empty in Hd. discriminate.
    + apply InvValSet.totals_ok_of_bookkeeping; [exact Hk|].
      intros st Hst. apply (powers_ok_bonded _ st Hp Hst).
Qed.

Lemma opts_ok_app l k : opts_ok (l ++ k) ↔ opts_ok l ∧ opts_ok k.
Proof. unfold opts_ok. apply Forall_app. Qed.

Lemma sel_positive_blocks bs : ∀ s sf upss,
  block_inv s → opts_ok (InvValSet.ops_of bs) → InvValSet.run_blocks s bs = Some (sf, upss) →
  Forall InvValSet.sel_positive (InvValSet.block_starts s bs).
Proof.
  induction bs as [|b r IH]; intros s sf upss Hi Hopts; cbn [InvValSet.run_blocks InvValSet.block_starts]; [constructor|].
  destruct (InvValSet.do_block s b.1 b.2) as [[s' u]|] eqn:Ed; [|discriminate].
  destruct (InvValSet.run_blocks s' r) as [[sf' us']|] eqn:Er; [|discriminate]. intros _.
  unfold InvValSet.ops_of in Hopts. cbn [map concat] in Hopts. apply opts_ok_app in Hopts as [Ho1 Ho2].
  pose proof (block_inv_block s b.1 b.2 s' u Hi Ho1 Ed) as Hi'.
  destruct (InvValSet.do_block_srun _ _ _ _ _ Ed) as [-> _].
  constructor; [apply block_inv_sel_positive; exact Hi|]. eapply IH; [exact Hi'|exact Ho2|exact Er].
Qed.

(* the positivity hypothesis of the C10 history theorems, from the inputs: well-formed genesis
   parameters (amountPerPower <= minValidatorStake), genesis powers in the int64 range, and
   parameter documents that keep parameters well formed *)
Theorem sel_positive_reachable g bs sf upss :
  params_ok (gen_params g) → Forall (λ v : addr * Z, 0 ≤ v.2 < two63) (gen_validators g) →
  opts_ok (InvValSet.ops_of bs) →
  InvValSet.run_blocks (init_chain g) bs = Some (sf, upss) →
  Forall InvValSet.sel_positive (InvValSet.block_starts (init_chain g) bs).
Proof.
  intros Hg Hv Hopts Hr. eapply sel_positive_blocks; [apply block_inv_init; assumption|exact Hopts|exact Hr].
Qed.
Print Assumptions sel_positive_reachable.

Lemma opts_ok_ops_of bs : opts_ok (InvValSet.ops_of bs) ↔ Forall (λ b : header * list tx, Forall tx_opts_ok b.2) bs.
Proof.
  induction bs as [|b r IH]; [split; constructor|].
  unfold InvValSet.ops_of. cbn [map concat]. fold (InvValSet.ops_of r). rewrite opts_ok_app, Forall_cons, IH.
  assert (H : opts_ok (InvValSet.block_ops b.1 b.2) ↔ Forall tx_opts_ok b.2); [|tauto].
  unfold InvValSet.block_ops, opts_ok. cbn [app]. rewrite Forall_cons, Forall_app, Forall_fmap.
  split.
  - intros (_ & H & _). exact H.
  - intros H. split; [exact I|]. split; [exact H|]. repeat constructor.
Qed.

(* C10_history (the fold from the empty set) without hypotheses about intermediate states *)
Theorem C10_history_closed g bs sf upss :
  params_ok (gen_params g) → Forall (λ v : addr * Z, 0 ≤ v.2 < two63) (gen_validators g) →
  opts_ok (InvValSet.ops_of bs) →
  InvValSet.run_blocks (init_chain g) bs = Some (sf, upss) →
  srun (init_chain g) (InvValSet.ops_of bs) = sf ∧
  length (committed sf) = length bs ∧
  lastvals sf = InvValSet.announced sf ∧
  ValSet.tm_run [] upss = Some (sort_addr (lastvals sf)) ∧
  fold_left ValSet.apply_updates upss [] = sort_addr (lastvals sf).
Proof.
  intros Hg Hv Hopts Hr. apply InvValSet.C10_history; [exact Hr|].
  eapply sel_positive_reachable; eassumption.
Qed.
Print Assumptions C10_history_closed.

(* C10_holds (the fold over the GENESIS validator set) with the positivity hypothesis discharged.
   The hypothesis that every genesis validator is still selected at block 2 stays: it is the known
   finding C10_genesis_leaver_refuted. *)
Theorem C10_closed g b1 b2 rest s2 u12 sf upss :
  params_ok (gen_params g) → Forall (λ v : addr * Z, 0 ≤ v.2 < two63) (gen_validators g) →
  opts_ok (InvValSet.ops_of (b1 :: b2 :: rest)) →
  NoDup (gen_validators g).*1 →
  InvValSet.run_blocks (init_chain g) [b1; b2] = Some (s2, u12) →
  (∀ a, a ∈ (gen_validators g).*1 → a ∈ (lastvals s2).*1) →
  InvValSet.run_blocks (init_chain g) (b1 :: b2 :: rest) = Some (sf, upss) →
  fold_left ValSet.apply_updates upss (sort_addr (gen_validators g)) = sort_addr (lastvals sf).
Proof.
  intros Hg Hv Hopts Hnd H12 Hcov Hr.
  eapply InvValSet.C10_history_genesis; [exact Hnd|exact H12|exact Hcov|exact Hr|].
  eapply sel_positive_reachable; eassumption.
Qed.
Print Assumptions C10_closed.

(* non-vacuity: InvValSet's five-block chain (two genesis validators, a new validator staking in
   block 2, a genesis validator leaving in block 3) satisfies the input hypotheses *)
Lemma ex_params_ok : params_ok (gen_params InvValSet.ex_genesis).
Proof. repeat split; vm_compute; congruence. Qed.

Lemma ex_powers_ok : Forall (λ v : addr * Z, 0 ≤ v.2 < two63) (gen_validators InvValSet.ex_genesis).
Proof. repeat apply Forall_cons_2; try apply Forall_nil_2; split; vm_compute; congruence. Qed.

Lemma good_blocks_opts_ok : opts_ok (InvValSet.ops_of InvValSet.good_blocks).
Proof.
  apply opts_ok_ops_of. unfold InvValSet.good_blocks.
  repeat (apply Forall_cons_2 || apply Forall_nil_2); intros Hty; vm_compute in Hty; discriminate.
Qed.

Lemma good_blocks_run :
  InvValSet.run_blocks (init_chain InvValSet.ex_genesis) InvValSet.good_blocks =
  Some (InvValSet.run_state (init_chain InvValSet.ex_genesis) InvValSet.good_blocks,
        InvValSet.run_updates (init_chain InvValSet.ex_genesis) InvValSet.good_blocks).
Proof. apply InvValSet.run_blocks_proj. vm_compute. reflexivity. Qed.

Example C10_closed_example :
  params_ok (gen_params InvValSet.ex_genesis) ∧
  Forall (λ v : addr * Z, 0 ≤ v.2 < two63) (gen_validators InvValSet.ex_genesis) ∧
  opts_ok (InvValSet.ops_of InvValSet.good_blocks) ∧
  fold_left ValSet.apply_updates (InvValSet.run_updates (init_chain InvValSet.ex_genesis) InvValSet.good_blocks)
            (sort_addr (gen_validators InvValSet.ex_genesis))
  = sort_addr (lastvals (InvValSet.run_state (init_chain InvValSet.ex_genesis) InvValSet.good_blocks)) ∧
  sort_addr (lastvals (InvValSet.run_state (init_chain InvValSet.ex_genesis) InvValSet.good_blocks)) = [(2%N, 20); (3%N, 5)] ∧
  ValSet.tm_run [] (InvValSet.run_updates (init_chain InvValSet.ex_genesis) InvValSet.good_blocks)
  = Some (sort_addr (lastvals (InvValSet.run_state (init_chain InvValSet.ex_genesis) InvValSet.good_blocks))).
Proof.
  split; [exact ex_params_ok|]. split; [exact ex_powers_ok|]. split; [exact good_blocks_opts_ok|].
  pose proof good_blocks_run as Hr.
  assert (Hr2 := InvValSet.run_blocks_proj (init_chain InvValSet.ex_genesis) (take 2 InvValSet.good_blocks) eq_refl).
  split; [|split; [vm_compute; reflexivity|]].
  - eapply (C10_closed InvValSet.ex_genesis _ _ _ _ _ _ _ ex_params_ok ex_powers_ok good_blocks_opts_ok
              InvValSet.ex_genesis_nodup Hr2); [|exact Hr].
    assert (Hl : (lastvals (InvValSet.run_state (init_chain InvValSet.ex_genesis) (take 2 InvValSet.good_blocks))).*1 = [2%N; 1%N])
      by (vm_compute; reflexivity).
    intros a. rewrite Hl. cbn. rewrite !elem_of_cons. tauto.
  - apply (C10_history_closed _ _ _ _ ex_params_ok ex_powers_ok good_blocks_opts_ok Hr).
Qed.

(* ================================================================== C05 in the states of a closed run *)

(* ---- C05 without [reward_headroom], for sender balances below 2^255.
   InvFail.deliver_fail_no_effect asks for [reward_headroom] (balance + whole withdrawable reward
   below 2^256).  What is needed is only that crediting the REQUESTED amount does not wrap the
   balance, and only when the withdrawal has been executed ([InvFail.withdraw_fits]).  AddBalance
   refuses amounts with bit 255 set, so an executed withdrawal has req < 2^255, and a balance below
   2^255 cannot wrap. *)
Theorem deliver_fail_no_effect_small s t s' e :
  0 ≤ t_amount t → 0 ≤ t_gas t → 0 ≤ g_gasPrice (gparams s) < 2 ^ 192 →
  (∀ x, accts (work s) !! t_from t = Some x → a_bal x < two255) →
  InvFail.payload_wf t →
  deliver s t = (s', Err e) →
  same_obs (work s) (work s') ∧ same_ctl s s'.
Proof.
  intros Hamt Hgas Hprice Hbal5 Hpw H. pose proof two256_double as H2. pose proof two255_pos as H5.
  eapply InvFail.deliver_not_ok_no_effect; [exact Hamt|exact Hgas|exact Hprice| | |exact H|discriminate].
  - intros x Hx. specialize (Hbal5 x Hx). lia.
  - intros x r req _ Hpl Hx _ _ Hreq. unfold InvFail.payload_wf in Hpw. rewrite Hpl in Hpw.
    specialize (Hbal5 x Hx). lia.
Qed.
Print Assumptions deliver_fail_no_effect_small.

(* ---- the facts of the states of a closed run *)
Lemma supply_nonneg l : bal_range l → powers_ok l → 0 ≤ supply l.
Proof.
  intros Hb Hp. destruct (supply_parts_nonneg l Hb Hp) as (HT & HB & HF). pose proof InvPanic.apP_pos.
  apply Z.add_nonneg_nonneg; [exact HT|]. apply Z.mul_nonneg_nonneg; lia.
Qed.

Lemma payload_wf_fee t : InvFail.payload_wf t → InvFee.payload_wf t.
Proof. intros H req _ Hp. unfold InvFail.payload_wf in H. rewrite Hp in H. exact H. Qed.

Theorem closed_state_facts_along g ops :
  genesis_ok g → InvPanic.bracketed InvPanic.Idle 0 ops → hashes_fresh ops → txs_ok ops →
  supply (work (init_chain g)) + requested ops < supply_bound →
  ∀ pre post, ops = pre ++ post →
  let s := srun (init_chain g) pre in
  params_ok (gparams s) ∧ ranges_ok (work s) ∧ dels_ok (work s) ∧
  (∀ a x, accts (work s) !! a = Some x → 0 ≤ a_bal x < supply_bound).
Proof.
  intros Hg Hbr Hh Htx Hb pre post E s.
  destruct (closed_run_inputs g ops Hg Hbr Hh Htx Hb) as (_ & _ & Hreach). specialize (Hreach pre post E). fold s in Hreach.
  assert (Htxp : txs_ok pre) by (rewrite E in Htx; apply Forall_app in Htx as [H _]; exact H).
  pose proof (reach_ok_ranges g pre Htxp Hreach) as Hr. fold s in Hr.
  pose proof (reach_ok_ext_ok _ Hreach) as ((Hsm & _) & _).
  split.
  { apply (params_ok_reachable g ops); [apply Hg|eapply bracketed_opts_ok; exact Hbr|exists post; exact E]. }
  split; [exact Hr|]. split; [apply Hreach|].
  intros a x Hx. split; [|apply (Hsm a x Hx)]. destruct Hr as (Hr & _). apply (Hr a x Hx).
Qed.
Print Assumptions closed_state_facts_along.

Corollary closed_state_facts g ops :
  genesis_ok g → InvPanic.bracketed InvPanic.Idle 0 ops → hashes_fresh ops → txs_ok ops →
  supply (work (init_chain g)) + requested ops < supply_bound →
  let s := srun (init_chain g) ops in
  params_ok (gparams s) ∧ ranges_ok (work s) ∧ dels_ok (work s) ∧
  (∀ a x, accts (work s) !! a = Some x → 0 ≤ a_bal x < supply_bound).
Proof.
  intros Hg Hbr Hh Htx Hb. apply (closed_state_facts_along g ops Hg Hbr Hh Htx Hb ops []). symmetry. apply app_nil_r.
Qed.

(* C05 in every state of every closed run.  Hypotheses on the inputs only: those of
   C09_closed_inputs on genesis and list, and the Go ranges of the delivered transaction.  Nothing
   is assumed about stored rewards: [reward_headroom] of C05_holds is not needed below the supply
   bound, because every balance of such a state is below 2^63 RIGO < 2^255. *)
Theorem C05_closed_along g ops pre post t s' e :
  genesis_ok g → InvPanic.bracketed InvPanic.Idle 0 ops → hashes_fresh ops → txs_ok ops →
  supply (work (init_chain g)) + requested ops < supply_bound →
  ops = pre ++ post →
  tx_wf t → InvFail.payload_wf t →
  let s := srun (init_chain g) pre in
  deliver s t = (s', Err e) → same_obs (work s) (work s') ∧ same_ctl s s'.
Proof.
  intros Hg Hbr Hh Htx Hb E (Ha & _ & Hgas & _) Hpw s Hd.
  destruct (closed_state_facts_along g ops Hg Hbr Hh Htx Hb pre post E) as ((Hp & _) & _ & _ & Hbal). fold s in Hp, Hbal.
  pose proof (supply_bound_lt) as [Hsb _].
  apply (deliver_fail_no_effect_small s t s' e); [lia|lia|exact Hp| |exact Hpw|exact Hd].
  intros x Hx. specialize (Hbal _ _ Hx). lia.
Qed.
Print Assumptions C05_closed_along.

(* the form with s := the state after the whole list *)
Theorem C05_closed g ops t s' e :
  genesis_ok g → InvPanic.bracketed InvPanic.Idle 0 ops → hashes_fresh ops → txs_ok ops →
  supply (work (init_chain g)) + requested ops < supply_bound →
  tx_wf t → InvFail.payload_wf t →
  let s := srun (init_chain g) ops in
  deliver s t = (s', Err e) → same_obs (work s) (work s') ∧ same_ctl s s'.
Proof.
  intros Hg Hbr Hh Htx Hb. apply (C05_closed_along g ops ops [] t s' e Hg Hbr Hh Htx Hb). symmetry. apply app_nil_r.
Qed.
Print Assumptions C05_closed.

(* the hypothesis [reward_headroom] of C05_holds is not implied by the input hypotheses -- the
   withdrawable reward of a reachable state is only known to be a uint256 -- but it is not needed:
   C05_holds' own hypotheses at the states of a closed run, except [reward_headroom] *)
Corollary C05_holds_hyps_reachable g ops :
  genesis_ok g → InvPanic.bracketed InvPanic.Idle 0 ops → hashes_fresh ops → txs_ok ops →
  supply (work (init_chain g)) + requested ops < supply_bound →
  ∀ pre post, ops = pre ++ post →
  params_ok (gparams (srun (init_chain g) pre)) ∧ ranges_ok (work (srun (init_chain g) pre)).
Proof.
  intros Hg Hbr Hh Htx Hb pre post E.
  destruct (closed_state_facts_along g ops Hg Hbr Hh Htx Hb pre post E) as (H1 & H2 & _). split; assumption.
Qed.

(* non-vacuity: inside block 1 of InvSupply's chain (after the transfer and the delegation) the
   third transaction of the block fails on its nonce; all input hypotheses hold *)
Example C05_closed_example :
  let t := demo_tx TRX_TRANSFER 1%N 2%N amountPerPower 4000 7 PNone 103%N in
  let s := srun (init_chain hx_genesis) (take 3 hx_ops) in
  genesis_ok hx_genesis ∧ InvPanic.bracketed InvPanic.Idle 0 hx_ops ∧ hashes_fresh hx_ops ∧ txs_ok hx_ops ∧
  supply (work (init_chain hx_genesis)) + requested hx_ops < supply_bound ∧
  tx_wf t ∧ InvFail.payload_wf t ∧
  (deliver s t).2 = Err E_NONCE ∧
  same_obs (work s) (work (deliver s t).1) ∧ same_ctl s (deliver s t).1.
Proof.
  intros t s.
  pose proof hx_bound_requested as Hb.
  assert (Hwf : tx_wf t) by (repeat split; vm_compute; congruence).
  assert (Hpw : InvFail.payload_wf t) by exact I.
  assert (Hr : (deliver s t).2 = Err E_NONCE) by (vm_compute; reflexivity).
  split; [exact hx_genesis_ok|]. split; [exact hx_bracketed|]. split; [exact hx_hashes_fresh|].
  split; [exact hx_txs_ok|]. split; [exact Hb|]. split; [exact Hwf|]. split; [exact Hpw|]. split; [exact Hr|].
  apply (C05_closed_along hx_genesis hx_ops (take 3 hx_ops) (drop 3 hx_ops) t (deliver s t).1 E_NONCE
           hx_genesis_ok hx_bracketed hx_hashes_fresh hx_txs_ok Hb); [symmetry; apply take_drop|exact Hwf|exact Hpw|].
  fold s. rewrite <- Hr. destruct (deliver s t); reflexivity.
Qed.

(* ================================================================== C13: the reward identity on closed runs *)
(* [run_wf] asks, at every withdrawal of the run: payload and transaction in the Go ranges, well-formed
   active parameters, and that crediting the request does not wrap the sender's balance.  All of it
   follows from the input hypotheses: the balance is below 2^63 RIGO and the request is counted in
   [requested]. *)
Lemma run_wf_from_prefixes ops : ∀ s,
  (∀ pre post o, ops = pre ++ o :: post → InvReward.step_wf (srun s pre) o) → InvReward.run_wf s ops.
Proof.
  induction ops as [|o r IH]; intros s H; cbn [InvReward.run_wf]; [exact I|].
  split; [apply (H [] r o); reflexivity|].
  apply IH. intros pre post o' E. apply (H (o :: pre) post o'). rewrite E. reflexivity.
Qed.

Lemma requested_app l k : requested (l ++ k) = requested l + requested k.
Proof. unfold requested. apply sumZ_with_app. Qed.

Lemma requested_nonneg ops : txs_ok ops → 0 ≤ requested ops.
Proof.
  intros Htx. unfold requested. apply sumZ_with_nonneg. intros o Ho. apply (proj1 (Forall_forall _ _) Htx) in Ho.
  destruct o as [hd|t| |]; try lia. apply withdrawn_of_nonneg, Ho.
Qed.

Lemma requested_elem pre t post : txs_ok (pre ++ SDeliver t :: post) → withdrawn_of t ≤ requested (pre ++ SDeliver t :: post).
Proof.
  intros Htx. pose proof Htx as Htx'. apply Forall_app in Htx' as [H1 H2]. apply Forall_cons in H2 as [_ H2].
  rewrite requested_app, requested_cons.
  pose proof (requested_nonneg pre H1). pose proof (requested_nonneg post H2). lia.
Qed.

Theorem run_wf_reachable g ops :
  genesis_ok g → InvPanic.bracketed InvPanic.Idle 0 ops → hashes_fresh ops → txs_ok ops →
  supply (work (init_chain g)) + requested ops < supply_bound →
  InvReward.run_wf (init_chain g) ops.
Proof.
  intros Hg Hbr Hh Htx Hb. apply run_wf_from_prefixes. intros pre post o E.
  destruct o as [hd|t| |]; cbn [InvReward.step_wf]; try exact I. intros Hty.
  destruct (closed_state_facts_along g ops Hg Hbr Hh Htx Hb pre (SDeliver t :: post) E) as (Hp & _ & _ & Hbal).
  assert (Ht : tx_wf t ∧ InvFee.payload_wf t ∧ t_evm t = None).
  { rewrite E in Htx. apply Forall_app in Htx as [_ H2]. apply Forall_cons in H2 as [H2 _]. exact H2. }
  destruct Ht as (Hwf & Hpw & _).
  split.
  { unfold InvReward.payload_wf. destruct (t_payload t) as [| |req| | | |] eqn:Epl; try exact I. apply (Hpw req Hty Epl). }
  split; [exact Hp|]. split; [exact Hwf|].
  intros req sender Hpl Hs. specialize (Hbal _ _ Hs).
  assert (Hreq : withdrawn_of t = req) by (unfold withdrawn_of; rewrite Hty, Hpl; reflexivity).
  assert (Hle : withdrawn_of t ≤ requested ops) by (rewrite E; apply requested_elem; rewrite <- E; exact Htx).
  assert (H0 : 0 ≤ supply (work (init_chain g))).
  { apply supply_nonneg; [apply init_chain_bal_range; apply Hg|apply init_chain_powers_ok; apply Hg]. }
  pose proof (supply_bound_lt) as [Hsb _]. pose proof two256_double as H2. pose proof two255_pos as H5.
  lia.
Qed.
Print Assumptions run_wf_reachable.

(* C13_holds with [run_wf] discharged.  The remaining hypothesis is the no-wrap condition of the
   statement itself: everything ever issued to [a] fits a uint256.  ([issued_to] is the ghost sum
   of R1's per-block formula; bounding it from the inputs needs a bound on rewardPerPower along
   the run, i.e. an invariant over governance like InvReach.params_ok_reachable, and a bound on the
   voting powers recorded in old committed versions -- params_ok alone allows 2^63 * 2^192 per
   stake and block.) *)
Theorem C13_closed g ops a :
  genesis_ok g → InvPanic.bracketed InvPanic.Idle 0 ops → hashes_fresh ops → txs_ok ops →
  supply (work (init_chain g)) + requested ops < supply_bound →
  InvReward.issued_to (init_chain g) ops a < two256 →
  InvReward.cum_of (srun (init_chain g) ops) a
    = InvReward.issued_to (init_chain g) ops a - InvReward.withdrawn_by (init_chain g) ops a ∧
  0 ≤ InvReward.withdrawn_by (init_chain g) ops a ≤ InvReward.issued_to (init_chain g) ops a.
Proof.
  intros Hg Hbr Hh Htx Hb Hi. apply InvReward.reward_identity_genesis; [|exact Hi].
  apply run_wf_reachable; assumption.
Qed.
Print Assumptions C13_closed.

(* without any hypothesis beyond the inputs: the identity modulo 2^256 *)
Theorem C13_closed_mod g ops a :
  genesis_ok g → InvPanic.bracketed InvPanic.Idle 0 ops → hashes_fresh ops → txs_ok ops →
  supply (work (init_chain g)) + requested ops < supply_bound →
  InvReward.cum_of (srun (init_chain g) ops) a
    = (InvReward.issued_to (init_chain g) ops a - InvReward.withdrawn_by (init_chain g) ops a) mod two256.
Proof.
  intros Hg Hbr Hh Htx Hb.
  rewrite (InvReward.reward_identity_mod (init_chain g) ops a (InvReward.cum_ok_init g) (run_wf_reachable g ops Hg Hbr Hh Htx Hb)).
  unfold InvReward.cum_of at 1. rewrite InvReward.init_chain_rewards, lookup_empty. reflexivity.
Qed.
Print Assumptions C13_closed_mod.

(* non-vacuity on InvSupply's chain: validator 11 is issued 100 * 1000 (its own stake) in block 3 and withdraws 5000 *)
Example C13_closed_example :
  genesis_ok hx_genesis ∧ InvPanic.bracketed InvPanic.Idle 0 hx_ops ∧ hashes_fresh hx_ops ∧ txs_ok hx_ops ∧
  supply (work (init_chain hx_genesis)) + requested hx_ops < supply_bound ∧
  InvReward.issued_to (init_chain hx_genesis) hx_ops 11%N = 100000 ∧
  InvReward.withdrawn_by (init_chain hx_genesis) hx_ops 11%N = 5000 ∧
  InvReward.cum_of (srun (init_chain hx_genesis) hx_ops) 11%N = 95000.
Proof.
  pose proof hx_bound_requested as Hb.
  assert (Hi : InvReward.issued_to (init_chain hx_genesis) hx_ops 11%N = 100000) by (vm_compute; reflexivity).
  assert (Hw : InvReward.withdrawn_by (init_chain hx_genesis) hx_ops 11%N = 5000) by (vm_compute; reflexivity).
  split; [exact hx_genesis_ok|]. split; [exact hx_bracketed|]. split; [exact hx_hashes_fresh|].
  split; [exact hx_txs_ok|]. split; [exact Hb|]. split; [exact Hi|]. split; [exact Hw|].
  destruct (C13_closed hx_genesis hx_ops 11%N hx_genesis_ok hx_bracketed hx_hashes_fresh hx_txs_ok Hb) as [E _].
  - rewrite Hi. reflexivity.
  - rewrite E, Hi, Hw. reflexivity.
Qed.

(* ================================================================== C10: the covering hypothesis in input terms *)
(* [C10_closed] keeps the hypothesis "every genesis validator is still selected at block 2".
   The selection announced at block 2 is made from the ledger committed by block 1 under the
   parameters in force after block 1, so only block 1 matters.  Sufficient, on the inputs: block 1
   carries no evidence and no votes (consensus has none at height 1), none of its transactions is
   of staking or unstaking type, the genesis powers meet the minimum validator power, and the
   genesis set fits the maximum validator count. *)
Definition gdel (v : addr * Z) : delegatee := add_stake (new_delegatee v.1) (genesis_stake v).

Lemma fold_dels (f : addr * Z → delegatee) vs : ∀ l,
  dels (foldl (λ l v, set_dels l (<[v.1 := f v]> (dels l))) l vs) = foldl (λ m v, <[v.1 := f v]> m) (dels l) vs.
Proof. induction vs as [|v vs IH]; intros l; cbn [foldl]; [reflexivity|]. rewrite IH. reflexivity. Qed.

Lemma fold_ins_notin (f : addr * Z → delegatee) vs : ∀ (m : gmap addr delegatee) a,
  a ∉ vs.*1 → foldl (λ m v, <[v.1 := f v]> m) m vs !! a = m !! a.
Proof.
  induction vs as [|v vs IH]; intros m a Ha; cbn [foldl]; [reflexivity|].
  rewrite fmap_cons in Ha. apply not_elem_of_cons in Ha as [Hne Ha]. rewrite IH by exact Ha.
  apply lookup_insert_ne. congruence.
Qed.

Lemma fold_ins_in (f : addr * Z → delegatee) vs : ∀ (m : gmap addr delegatee) v,
  NoDup vs.*1 → v ∈ vs → foldl (λ m v, <[v.1 := f v]> m) m vs !! v.1 = Some (f v).
Proof.
  induction vs as [|w vs IH]; intros m v Hnd Hin; [inversion Hin|]. cbn [foldl].
  rewrite fmap_cons in Hnd. apply NoDup_cons in Hnd as [Hw Hnd].
  apply elem_of_cons in Hin as [->|Hin].
  - rewrite fold_ins_notin by exact Hw. apply lookup_insert.
  - apply IH; assumption.
Qed.

Lemma fold_ins_size (f : addr * Z → delegatee) vs : ∀ (m : gmap addr delegatee),
  (size (foldl (λ m v, <[v.1 := f v]> m) m vs) ≤ size m + length vs)%nat.
Proof.
  induction vs as [|v vs IH]; intros m; cbn [foldl length]; [lia|].
  etrans; [apply IH|].
  assert ((size (<[v.1 := f v]> m) ≤ S (size m))%nat); [|lia].
  destruct (m !! v.1) as [d|] eqn:E.
  - rewrite map_size_insert_Some by (rewrite E; eauto). lia.
  - rewrite map_size_insert_None by exact E. lia.
Qed.

Lemma init_chain_dels g :
  dels (work (init_chain g)) = foldl (λ m v, <[v.1 := gdel v]> m) ∅ (gen_validators g).
Proof.
  destruct (init_chain_pre_sf g) as (l2 & [HD _] & ->).
  etrans; [apply (fold_dels gdel)|]. rewrite HD. reflexivity.
Qed.

Lemma sel_vals_dels gp l l' : dels l' = dels l → InvValSet.sel_vals gp l' = InvValSet.sel_vals gp l.
Proof.
  intros E. unfold InvValSet.sel_vals, InvValSet.selection, InvValSet.ranked, InvValSet.eligible, InvValSet.committed_dels.
  rewrite E. reflexivity.
Qed.

Lemma List_filter_length_le {A} (p : A → bool) l : (length (List.filter p l) ≤ length l)%nat.
Proof. induction l as [|x l IH]; cbn [List.filter length]; [lia|]. destruct (p x); cbn [length]; lia. Qed.

Lemma genesis_selected g a :
  NoDup (gen_validators g).*1 →
  Forall (λ v : addr * Z, min_power (gen_params g) ≤ v.2) (gen_validators g) →
  Z.of_nat (length (gen_validators g)) ≤ g_maxValidatorCnt (gen_params g) →
  a ∈ (gen_validators g).*1 → a ∈ (InvValSet.sel_vals (gen_params g) (work (init_chain g))).*1.
Proof.
  intros Hnd Hmin Hcnt Ha. apply elem_of_list_fmap in Ha as (v & -> & Hv).
  set (l := work (init_chain g)). set (gp := gen_params g).
  assert (Hd : dels l !! v.1 = Some (gdel v)).
  { unfold l. rewrite init_chain_dels. apply fold_ins_in; assumption. }
  assert (He : gdel v ∈ InvValSet.eligible gp l).
  { apply InvValSet.elem_of_eligible. split; [exists v.1; exact Hd|].
    rewrite Forall_forall in Hmin. specialize (Hmin v Hv).
    unfold gdel, add_stake, new_delegatee, genesis_stake, is_self. cbn [d_self s_from s_to s_power]. rewrite N.eqb_refl. fold gp in Hmin. lia. }
  assert (Hlen : (length (InvValSet.ranked gp l) ≤ Z.to_nat (g_maxValidatorCnt gp))%nat).
  { unfold InvValSet.ranked. rewrite (Permutation_length (InvValSet.sort_power_perm _)).
    unfold InvValSet.eligible. etrans; [apply List_filter_length_le|].
    unfold InvValSet.committed_dels. rewrite fmap_length. rewrite (Permutation_length (sorted_items_perm (dels l))).
    change (length (map_to_list (dels l))) with (size (dels l)).
    unfold l. rewrite init_chain_dels.
    pose proof (fold_ins_size gdel (gen_validators g) ∅) as Hs. rewrite map_size_empty in Hs. fold gp in Hcnt. lia. }
  assert (Hs : gdel v ∈ InvValSet.selection gp l).
  { unfold InvValSet.selection. rewrite take_ge by exact Hlen. unfold InvValSet.ranked.
    rewrite InvValSet.sort_power_perm. exact He. }
  rewrite InvValSet.sel_vals_addrs. apply elem_of_list_fmap. exists (gdel v). split; [reflexivity|exact Hs].
Qed.

(* block 1 under these conditions leaves the delegatee ledger and the parameters as genesis made them *)
Lemma begin_block_dels_quiet s hd :
  h_evidence hd = [] → h_votes hd = [] → dels (work (begin_block s hd).1) = dels (work s).
Proof.
  intros He Hv. destruct (begin_block s hd) as [s' r] eqn:E. apply begin_block_cases in E.
  destruct E as [_|_ _|l i _ Hne _|e _ Hne _|p _ Hne _]; [reflexivity| |contradiction..].
  cbn [fst begun work]. rewrite He. reflexivity.
Qed.

Lemma deliver_dels_other s t :
  t_type t ≠ TRX_STAKING → t_type t ≠ TRX_UNSTAKING → dels (work (deliver s t).1) = dels (work s).
Proof.
  intros N1 N2. destruct (deliver s t) as [s' r] eqn:E. cbn [fst].
  destruct (deliver_stake_cases _ _ _ _ E) as [[HD _]|[(Hty & _)|(Hty & _)]]; [exact HD|contradiction..].
Qed.

Lemma delivers_dels_other txs : ∀ s,
  Forall (λ t, t_type t ≠ TRX_STAKING ∧ t_type t ≠ TRX_UNSTAKING) txs →
  dels (work (InvValSet.delivers s txs)) = dels (work s).
Proof.
  induction txs as [|t txs IH]; intros s H; [reflexivity|]. apply Forall_cons in H as [[N1 N2] H].
  unfold InvValSet.delivers. cbn [foldl]. fold (InvValSet.delivers (deliver s t).1 txs).
  rewrite IH by exact H. apply deliver_dels_other; assumption.
Qed.

Lemma block1_quiet g hd txs s1 u :
  h_evidence hd = [] → h_votes hd = [] →
  Forall (λ t, t_type t ≠ TRX_STAKING ∧ t_type t ≠ TRX_UNSTAKING) txs →
  InvValSet.do_block (init_chain g) hd txs = Some (s1, u) →
  dels (work s1) = dels (work (init_chain g)) ∧ gparams s1 = gen_params g.
Proof.
  intros He Hv Ht Hd. unfold InvValSet.do_block in Hd.
  destruct ((begin_block (init_chain g) hd).2) as [r| |]; try discriminate. cbv zeta in Hd.
  set (sb := (begin_block (init_chain g) hd).1) in *. set (sd := InvValSet.delivers sb txs) in *.
  destruct ((end_block sd).2) as [ups| |] eqn:Ee; try discriminate. injection Hd as <- <-.
  destruct (InvValSet.begin_block_frame (init_chain g) hd) as (B1 & B2 & B3 & _). fold sb in B1, B2, B3.
  destruct (InvValSet.delivers_frame txs sb) as [(D1 & D2 & D3 & _) _]. fold sd in D1, D2, D3.
  destruct (InvValSet.end_block_keeps sd) as [_ E2].
  destruct (InvGov.end_block_params sd) as (G1 & G2 & G3).
  split.
  - cbn [commit work]. rewrite E2. unfold sd. rewrite delivers_dels_other by exact Ht.
    unfold sb. apply begin_block_dels_quiet; assumption.
  - cbn [commit gparams].
    assert (Hn : newparams (end_block sd).1 = None).
    { destruct G3 as [(Hn & _)|(k & p & o & newp & Hk & _)].
      - rewrite Hn, D3, B3. reflexivity.
      - exfalso. unfold base_of in Hk. rewrite D1, B1 in Hk.
        change (committed (init_chain g)) with (@nil ledgers) in Hk. cbn in Hk. rewrite lookup_empty in Hk. discriminate. }
    rewrite Hn. cbn [default]. rewrite G1, D2, B2. reflexivity.
Qed.

(* C10_holds with every hypothesis on the inputs *)
Theorem C10_closed_inputs g b1 b2 rest sf upss :
  params_ok (gen_params g) → Forall (λ v : addr * Z, 0 ≤ v.2 < two63) (gen_validators g) →
  opts_ok (InvValSet.ops_of (b1 :: b2 :: rest)) →
  NoDup (gen_validators g).*1 →
  Forall (λ v : addr * Z, min_power (gen_params g) ≤ v.2) (gen_validators g) →
  Z.of_nat (length (gen_validators g)) ≤ g_maxValidatorCnt (gen_params g) →
  h_evidence b1.1 = [] → h_votes b1.1 = [] →
  Forall (λ t, t_type t ≠ TRX_STAKING ∧ t_type t ≠ TRX_UNSTAKING) b1.2 →
  InvValSet.run_blocks (init_chain g) (b1 :: b2 :: rest) = Some (sf, upss) →
  fold_left ValSet.apply_updates upss (sort_addr (gen_validators g)) = sort_addr (lastvals sf).
Proof.
  intros Hg Hv Hopts Hnd Hmin Hcnt Hev Hvo Htx Hr.
  pose proof Hr as Hr'. cbn [InvValSet.run_blocks] in Hr'.
  destruct (InvValSet.do_block (init_chain g) b1.1 b1.2) as [[s1 u1]|] eqn:Ed1; [|discriminate].
  destruct (InvValSet.do_block s1 b2.1 b2.2) as [[s2 u2]|] eqn:Ed2; [|discriminate]. clear Hr'.
  assert (H12 : InvValSet.run_blocks (init_chain g) [b1; b2] = Some (s2, [u1; u2])).
  { cbn [InvValSet.run_blocks]. rewrite Ed1, Ed2. reflexivity. }
  apply (C10_closed g b1 b2 rest s2 [u1; u2] sf upss Hg Hv Hopts Hnd H12); [|exact Hr].
  pose proof (InvValSet.init_chain_boundary g) as Hb0.
  destruct (InvValSet.do_block_inv _ _ _ _ _ Hb0 Ed1) as (Hb1 & Hc1 & _).
  destruct (InvValSet.do_block_inv _ _ _ _ _ Hb1 Ed2) as (_ & _ & _ & Hlv2 & _).
  destruct (block1_quiet g b1.1 b1.2 s1 u1 Hev Hvo Htx Ed1) as [HD HG].
  destruct (InvValSet.base_of_boundary s1 Hb1) as [[Hn _]|[_ Hbase]].
  { rewrite Hc1 in Hn. destruct (committed (init_chain g)); discriminate. }
  intros a Ha. rewrite Hlv2, Hbase, HG, (sel_vals_dels _ _ _ HD). apply genesis_selected; assumption.
Qed.
Print Assumptions C10_closed_inputs.

Example C10_closed_inputs_example :
  params_ok (gen_params InvValSet.ex_genesis) ∧
  Forall (λ v : addr * Z, 0 ≤ v.2 < two63) (gen_validators InvValSet.ex_genesis) ∧
  opts_ok (InvValSet.ops_of InvValSet.good_blocks) ∧
  NoDup (gen_validators InvValSet.ex_genesis).*1 ∧
  Forall (λ v : addr * Z, min_power (gen_params InvValSet.ex_genesis) ≤ v.2) (gen_validators InvValSet.ex_genesis) ∧
  Z.of_nat (length (gen_validators InvValSet.ex_genesis)) ≤ g_maxValidatorCnt (gen_params InvValSet.ex_genesis) ∧
  fold_left ValSet.apply_updates (InvValSet.run_updates (init_chain InvValSet.ex_genesis) InvValSet.good_blocks)
            (sort_addr (gen_validators InvValSet.ex_genesis))
  = sort_addr (lastvals (InvValSet.run_state (init_chain InvValSet.ex_genesis) InvValSet.good_blocks)).
Proof.
  assert (Hmin : Forall (λ v : addr * Z, min_power (gen_params InvValSet.ex_genesis) ≤ v.2) (gen_validators InvValSet.ex_genesis)).
  { repeat apply Forall_cons_2; try apply Forall_nil_2; vm_compute; congruence. }
  assert (Hcnt : Z.of_nat (length (gen_validators InvValSet.ex_genesis)) ≤ g_maxValidatorCnt (gen_params InvValSet.ex_genesis))
    by (vm_compute; congruence).
  split; [exact ex_params_ok|]. split; [exact ex_powers_ok|]. split; [exact good_blocks_opts_ok|].
  split; [exact InvValSet.ex_genesis_nodup|]. split; [exact Hmin|]. split; [exact Hcnt|].
  pose proof good_blocks_run as Hr.
  apply (C10_closed_inputs InvValSet.ex_genesis _ _ _ _ _ ex_params_ok ex_powers_ok good_blocks_opts_ok
           InvValSet.ex_genesis_nodup Hmin Hcnt eq_refl eq_refl (Forall_nil_2 _) Hr).
Qed.
