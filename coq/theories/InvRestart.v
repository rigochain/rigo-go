(* InvRestart.v — property C07 of Spec.v: a node stopped after a commit and restarted from its data
   directory continues exactly like a node that kept running.

   What survives a stop is the data directory: every committed version of every ledger, i.e. the
   field [committed] of the model state.  Everything else of [state] is memory.  [restart] is what
   the node start-up code builds from the data directory (NewRigoApp / Info: the ledgers are opened
   at their last version, GovCtrler loads the parameters of that version, StakeCtrler.RestoreValidators
   recomputes lastValidators, the block context is reset to the last height). *)
From Rigo Require Import Base.
From stdpp Require Import gmap sorting.
From Rigo Require Import Spec SpecProps InvValSet.
Local Open Scope Z_scope.
Local Opaque two256 two255 two64 two63.

(* StakeCtrler.RestoreValidators (ctrlers/stake/ctrler.go): with N the last committed version,
   lastValidators is the selection EndBlock of block N made, from the delegatees committed at N-1
   under the parameters committed at N-1; nothing if N < 2 *)
Definition rebuild_lastvals (s : state) : list (addr * Z) :=
  let n := length (committed s) in
  if (n <? 2)%nat then [] else
  match committed s !! (n - 2)%nat with
  | Some prev =>
      let g := lparams prev in
      map (λ d, (d_addr d, d_total d))
          (take (Z.to_nat (g_maxValidatorCnt g))
                (sort_power (List.filter (λ d, min_power g <=? d_self d) (snd <$> sorted_items (dels prev)))))
  | None => []
  end.

Definition restart (s : state) : state :=
  let w := default (empty_ledgers (gparams s)) (last (committed s)) in
  {| committed := committed s;
     work := w;                              (* all caches are gone: reads return the last saved version *)
     gparams := lparams w;
     newparams := None;
     alldels := [];
     lastvals := rebuild_lastvals s;
     lim := limiter_reset [] (lparams w);
     bctx := {| b_height := last_height s; b_proposer := None; b_feesum := 0; b_txs := 0 |};
     last_height := last_height s |}.

(* the same, as a function of the data directory alone: the last height is the version number of
   the ledgers.  No data directory content (no commit yet): nothing to recover, the consensus
   engine replays InitChain. *)
Definition recover (c : list ledgers) : option state :=
  match last c with
  | None => None
  | Some w =>
      Some {| committed := c; work := w; gparams := lparams w; newparams := None; alldels := [];
              lastvals := rebuild_lastvals {| committed := c; work := w; gparams := lparams w; newparams := None;
                                              alldels := []; lastvals := []; lim := limiter_reset [] (lparams w);
                                              bctx := {| b_height := 0; b_proposer := None; b_feesum := 0; b_txs := 0 |};
                                              last_height := 0 |};
              lim := limiter_reset [] (lparams w);
              bctx := {| b_height := Z.of_nat (length c); b_proposer := None; b_feesum := 0; b_txs := 0 |};
              last_height := Z.of_nat (length c) |}
  end.

(* the behaviour before the repair of the Go code: lastValidators stays empty after a restart *)
Definition restart_norebuild (s : state) : state :=
  let r := restart s in
  {| committed := committed r; work := work r; gparams := gparams r; newparams := newparams r; alldels := alldels r;
     lastvals := []; lim := lim r; bctx := bctx r; last_height := last_height r |}.

Lemma rebuild_announced s : rebuild_lastvals s = announced s.
Proof.
  unfold rebuild_lastvals, announced, prev_version. cbv zeta.
  destruct (length (committed s) <? 2)%nat; [reflexivity|].
  destruct (committed s !! _); reflexivity.
Qed.

Definition after_commit_ok (s : state) : Prop :=
  last (committed s) = Some (work s) ∧
  newparams s = None ∧
  gparams s = lparams (work s) ∧
  last_height s = Z.of_nat (length (committed s)) ∧
  lastvals s = rebuild_lastvals s.

Lemma after_commit_of_boundary s : boundary_ok s → committed s ≠ [] → after_commit_ok s.
Proof.
  intros Hb Hn. split; [apply (bo_last s Hb Hn)|]. split; [apply (bo_newparams s Hb)|].
  split; [symmetry; apply (bo_params s Hb)|]. split; [apply (bo_height s Hb)|].
  rewrite rebuild_announced. apply (bo_lastvals s Hb).
Qed.

(* After every block of a well-bracketed run from genesis in which BeginBlock and EndBlock
   answer Ok.  The substantive part is [lastvals]: EndBlock of block n took the first
   maxValidatorCnt of allDelegatees, which BeginBlock of block n computed from committed version
   n-1 under gparams, and gparams during block n are the parameters committed at n-1. *)
Theorem after_commit_ok_run g bs sf upss :
  bs ≠ [] → run_blocks (init_chain g) bs = Some (sf, upss) → after_commit_ok sf.
Proof.
  intros Hne Hr. destruct (run_blocks_boundary bs _ _ _ (init_chain_boundary g) Hr) as [Hb Hlen].
  apply after_commit_of_boundary; [exact Hb|]. intros Hc. rewrite Hc in Hlen. simpl in Hlen.
  destruct bs; [contradiction | simpl in Hlen; lia].
Qed.

Lemma after_commit_ok_block s hd txs s' ups :
  boundary_ok s → do_block s hd txs = Some (s', ups) → after_commit_ok s'.
Proof.
  intros Hb Hd. destruct (do_block_inv _ _ _ _ _ Hb Hd) as (Hb' & Hc & _).
  apply after_commit_of_boundary; [exact Hb'|]. rewrite Hc. intros H. apply app_eq_nil in H as [_ H]. discriminate H.
Qed.

(* BeginBlock overwrites alldels, lim and bctx and reads nothing of them -- provided the header
   carries the next height.  (Otherwise BeginBlock panics; the model reports the panic and keeps the
   state as it was, so the two results differ in the memory fields.) *)
Lemma begin_block_ext s1 s2 hd :
  committed s1 = committed s2 → work s1 = work s2 → gparams s1 = gparams s2 → newparams s1 = newparams s2 →
  lastvals s1 = lastvals s2 → last_height s1 = last_height s2 →
  h_height hd = last_height s2 + 1 →
  begin_block s1 hd = begin_block s2 hd.
Proof.
  destruct s1 as [c1 w1 g1 n1 a1 v1 l1 b1 h1], s2 as [c2 w2 g2 n2 a2 v2 l2 b2 h2].
  cbn [committed work gparams newparams lastvals last_height].
  intros -> -> -> -> -> -> Hh. unfold begin_block. cbn [last_height].
  replace (h_height hd =? h2 + 1) with true by (symmetry; apply Z.eqb_eq; exact Hh).
  reflexivity.
Qed.

Lemma restart_fields s : after_commit_ok s →
  committed (restart s) = committed s ∧ work (restart s) = work s ∧ gparams (restart s) = gparams s ∧
  newparams (restart s) = newparams s ∧ lastvals (restart s) = lastvals s ∧ last_height (restart s) = last_height s.
Proof.
  intros (Hl & Hn & Hg & Hh & Hv). unfold restart. rewrite Hl. cbn.
  repeat split; congruence.
Qed.

Theorem restart_begin_block s hd :
  after_commit_ok s → h_height hd = last_height s + 1 → begin_block (restart s) hd = begin_block s hd.
Proof.
  intros H Hh. destruct (restart_fields s H) as (H1 & H2 & H3 & H4 & H5 & H6). apply begin_block_ext; assumption.
Qed.

(* what a node shows to the consensus engine and to clients, operation by operation: the answers
   of BeginBlock / DeliverTx / EndBlock and, at Commit, the ledgers the application hash is
   computed from *)
Inductive sobs :=
| OBegin (r : res Z)
| ODeliver (r : res Z)
| OEnd (r : res (list (addr * Z)))
| OCommit (l : ledgers).

Definition sobserve (s : state) (o : sop) : sobs :=
  match o with
  | SBegin h => OBegin (begin_block s h).2
  | SDeliver t => ODeliver (deliver s t).2
  | SEnd => OEnd (end_block s).2
  | SCommit => OCommit (work s)
  end.

Fixpoint strace (s : state) (ops : list sop) : list sobs :=
  match ops with [] => [] | o :: r => sobserve s o :: strace (sstep s o) r end.

(* INTENDED: for every header.  That is false when the header does not carry the next height
   (see [restart_equiv_wrong_height_refuted]): BeginBlock then panics on both nodes and the model
   leaves both states as they were, memory fields included.  The consensus engine always supplies
   the next height; with that hypothesis (implied by BeginBlock answering Ok): *)
Theorem restart_equiv s : after_commit_ok s → ∀ hd ops,
  h_height hd = last_height s + 1 →
  srun (restart s) (SBegin hd :: ops) = srun s (SBegin hd :: ops) ∧
  strace (restart s) (SBegin hd :: ops) = strace s (SBegin hd :: ops).
Proof.
  intros H hd ops Hh. pose proof (restart_begin_block s hd H Hh) as E.
  unfold srun. cbn [foldl strace sstep sobserve]. rewrite E. auto.
Qed.

Lemma begin_block_ok_height s hd : sstep_ok s (SBegin hd) = true → h_height hd = last_height s + 1.
Proof.
  unfold sstep_ok. destruct ((begin_block s hd).2) as [r| |] eqn:E; try discriminate. intros _.
  apply (begin_block_ok s hd r E).
Qed.

Corollary restart_equiv_ok s hd ops : after_commit_ok s → sstep_ok s (SBegin hd) = true →
  srun (restart s) (SBegin hd :: ops) = srun s (SBegin hd :: ops) ∧
  strace (restart s) (SBegin hd :: ops) = strace s (SBegin hd :: ops).
Proof. intros H Hok. apply restart_equiv; [exact H | apply begin_block_ok_height, Hok]. Qed.

Lemma restart_begin_answer s hd : after_commit_ok s → (begin_block (restart s) hd).2 = (begin_block s hd).2.
Proof.
  intros H. destruct (Z.eq_dec (h_height hd) (last_height s + 1)) as [Hh|Hh].
  - rewrite (restart_begin_block s hd H Hh). reflexivity.
  - unfold begin_block. destruct (restart_fields s H) as (_ & _ & _ & _ & _ & ->).
    apply Z.eqb_neq in Hh. rewrite Hh. reflexivity.
Qed.

(* what the restarted node reports in Info: the height and the committed ledgers (the application
   hash is a function of them) of the block after which it was stopped; and the restarted state is
   a function of the data directory only *)
Theorem restart_reports s : after_commit_ok s →
  last_height (restart s) = last_height s ∧
  last_height (restart s) = Z.of_nat (length (committed s)) ∧
  last (committed (restart s)) = Some (work s) ∧
  recover (committed s) = Some (restart s).
Proof.
  intros (Hl & Hn & Hg & Hh & Hv). split; [reflexivity|]. split; [exact Hh|]. split; [exact Hl|].
  unfold recover, restart. rewrite Hl. cbn [default]. rewrite <- Hh. reflexivity.
Qed.

Lemma restart_after_commit_ok s : after_commit_ok s → after_commit_ok (restart s).
Proof.
  intros (Hl & Hn & Hg & Hh & Hv). unfold after_commit_ok, restart. rewrite Hl. cbn.
  repeat split; try reflexivity; assumption.
Qed.

(* C07 for runs from genesis *)
Theorem C07_restart g bs sf upss :
  bs ≠ [] → run_blocks (init_chain g) bs = Some (sf, upss) →
  recover (committed sf) = Some (restart sf) ∧
  last_height (restart sf) = Z.of_nat (length bs) ∧
  last (committed (restart sf)) = Some (work sf) ∧
  ∀ hd ops, h_height hd = Z.of_nat (length bs) + 1 →
            srun (restart sf) (SBegin hd :: ops) = srun sf (SBegin hd :: ops) ∧
            strace (restart sf) (SBegin hd :: ops) = strace sf (SBegin hd :: ops).
Proof.
  intros Hne Hr. pose proof (after_commit_ok_run g bs sf upss Hne Hr) as Hok.
  destruct (restart_reports sf Hok) as (_ & H2 & H3 & H4).
  destruct (run_blocks_boundary bs _ _ _ (init_chain_boundary g) Hr) as [_ Hlen].
  split; [exact H4|]. split; [rewrite H2, Hlen; reflexivity|]. split; [exact H3|].
  intros hd ops Hh. apply restart_equiv; [exact Hok|].
  destruct Hok as (_ & _ & _ & -> & _). rewrite Hlen. exact Hh.
Qed.
Print Assumptions after_commit_ok_run.
Print Assumptions restart_equiv.
Print Assumptions C07_restart.

(* the run of InvValSet.v: genesis validators 1 and 2, account 3 becomes a validator in block 2,
   validator 1 leaves in block 3 *)
Definition s3 : state := run_state (init_chain ex_genesis) (take 3 good_blocks).

Example after_commit_ok_ex : after_commit_ok s3 ∧ lastvals s3 = [(2%N, 20); (1%N, 10); (3%N, 5)].
Proof.
  assert (Hev : match run_blocks (init_chain ex_genesis) (take 3 good_blocks) with
                | Some (s, _) => lastvals s = [(2%N, 20); (1%N, 10); (3%N, 5)]
                | None => False
                end) by (vm_compute; reflexivity).
  unfold s3, run_state.
  destruct (run_blocks (init_chain ex_genesis) (take 3 good_blocks)) as [[s u]|] eqn:Hr; [|contradiction].
  split; [|exact Hev]. apply (after_commit_ok_run ex_genesis (take 3 good_blocks) s u); [discriminate | exact Hr].
Qed.

Lemma s3_block4 :
  last_height s3 = 3 ∧
  (end_block (begin_block s3 (ex_hd 4)).1).2 = Ok [(1%N, 0)] ∧
  (end_block (begin_block (restart s3) (ex_hd 4)).1).2 = Ok [(1%N, 0)] ∧
  (end_block (begin_block (restart_norebuild s3) (ex_hd 4)).1).2 = Ok [(2%N, 20); (3%N, 5)].
Proof. InvStake.vm_conj. Qed.

Example restart_equiv_ex :
  let ops := block_ops (ex_hd 4) [] in
  strace (restart s3) ops = strace s3 ops ∧
  (end_block (begin_block (restart s3) (ex_hd 4)).1).2 = Ok [(1%N, 0)].
Proof.
  destruct s3_block4 as (Hh & _ & H2 & _). split; [|exact H2].
  apply (restart_equiv s3 (proj1 after_commit_ok_ex)). rewrite Hh. reflexivity.
Qed.

(* why [restart_equiv] needs the height hypothesis *)
Theorem restart_equiv_wrong_height_refuted :
  ∃ s hd ops, after_commit_ok s ∧ strace (restart s) (SBegin hd :: ops) ≠ strace s (SBegin hd :: ops).
Proof.
  exists s3, (ex_hd 9), [SEnd]. split; [exact (proj1 after_commit_ok_ex)|].
  intros H. apply (f_equal (λ l : list sobs, match l with [_; OEnd r] => Some r | _ => None end)) in H.
  revert H. vm_compute. discriminate.
Qed.
Print Assumptions restart_equiv_wrong_height_refuted.

(* Without the rebuild (the Go code before the repair) the restarted node answers EndBlock of
   the next block with an announcement of the whole set, and misses the removal of validator 1,
   where the continuous node answers with that removal only *)
Theorem restart_without_rebuild_refuted :
  ∃ s hd, after_commit_ok s ∧
    (end_block (begin_block s hd).1).2 = Ok [(1%N, 0)] ∧
    (end_block (begin_block (restart s) hd).1).2 = Ok [(1%N, 0)] ∧
    (end_block (begin_block (restart_norebuild s) hd).1).2 = Ok [(2%N, 20); (3%N, 5)] ∧
    (end_block (begin_block (restart_norebuild s) hd).1).2 ≠ (end_block (begin_block s hd).1).2.
Proof.
  exists s3, (ex_hd 4). split; [exact (proj1 after_commit_ok_ex)|].
  destruct s3_block4 as (_ & H1 & H2 & H3). rewrite H1, H3.
  split; [reflexivity|]. split; [exact H2|]. split; [reflexivity | discriminate].
Qed.
Print Assumptions restart_without_rebuild_refuted.
