(* Rlp.v — RLP encoding exactly as go-ethereum v1.10.23 rlp/encode.go emits it,
   with injectivity and prefix-freeness.

   Bytes are Coq.Init.Byte.byte, so "every byte < 256" holds by construction.
   Lengths are unbounded nat in the model.  go-ethereum stores sizes in uint64 and
   (rlp/encbuffer.go puthead / putint) writes at most 8 length bytes, so the header
   byte 0xb7+lenlen / 0xf7+lenlen never exceeds 0xbf / 0xff.  In the model that is the
   explicit hypothesis [item_ok a] : the encoding of [a] is shorter than 2^64 bytes
   (a Go slice can not be longer than 2^63-1 anyway). *)
From Coq Require Import List NArith ZArith Lia Bool.
From Coq Require Import Strings.Byte.
From Coq Require Import ZifyN ZifyNat ZifyBool.
Import ListNotations.
Local Open Scope N_scope.

#[local] Ltac Zify.zify_post_hook ::= Z.div_mod_to_equations.

(** * Bytes *)

Definition byte : Set := Coq.Init.Byte.byte.

Definition b2n (b : byte) : N := Byte.to_N b.
Definition n2b (n : N) : byte :=
  match Byte.of_N (n mod 256) with Some b => b | None => x00 end.

Arguments b2n : simpl never.
Arguments n2b : simpl never.

Lemma b2n_lt (b : byte) : b2n b < 256.
Proof. unfold b2n. pose proof (Byte.to_N_bounded b) as Hb. lia. Qed.

Lemma b2n_n2b_mod (n : N) : b2n (n2b n) = n mod 256.
Proof.
  unfold b2n, n2b.
  destruct (Byte.of_N (n mod 256)) as [b|] eqn:E.
  - apply Byte.to_of_N in E. exact E.
  - apply Byte.of_N_None_iff in E.
    pose proof (N.mod_upper_bound n 256) as Hm. lia.
Qed.

Lemma b2n_n2b (n : N) : n < 256 -> b2n (n2b n) = n.
Proof. intros Hn. rewrite b2n_n2b_mod. apply N.mod_small. exact Hn. Qed.

Lemma n2b_b2n (b : byte) : n2b (b2n b) = b.
Proof.
  unfold n2b, b2n.
  pose proof (Byte.to_N_bounded b) as Hb.
  rewrite N.mod_small by lia.
  rewrite Byte.of_to_N. reflexivity.
Qed.

Lemma cancel_inj {A B} (f : A -> B) (g : B -> A) :
  (forall x, g (f x) = x) -> forall a b, f a = f b -> a = b.
Proof. intros Hg a b H. rewrite <- (Hg a), <- (Hg b), H. reflexivity. Qed.

Lemma b2n_inj (a b : byte) : b2n a = b2n b -> a = b.
Proof. apply (cancel_inj b2n n2b n2b_b2n). Qed.

Lemma n2b_inj (a b : N) : a < 256 -> b < 256 -> n2b a = n2b b -> a = b.
Proof.
  intros Ha Hb H. apply (f_equal b2n) in H.
  rewrite !b2n_n2b in H by assumption. exact H.
Qed.

(** * List helpers *)

Lemma app_inj_len {A} (l1 l2 r1 r2 : list A) :
  length l1 = length l2 -> l1 ++ r1 = l2 ++ r2 -> l1 = l2 /\ r1 = r2.
Proof.
  revert l2. induction l1 as [|x l1 IH]; intros [|y l2] Hlen Heq; try discriminate.
  - split; [reflexivity | exact Heq].
  - injection Heq as -> Heq. injection Hlen as Hlen.
    destruct (IH l2 Hlen Heq) as [-> ->]. split; reflexivity.
Qed.

Lemma map_inj {A B} (f : A -> B) :
  (forall x y, f x = f y -> x = y) -> forall a b, map f a = map f b -> a = b.
Proof.
  intros Hf a. induction a as [|x a IH]; intros [|y b] H; try discriminate.
  - reflexivity.
  - injection H as Hxy Hab. rewrite (Hf _ _ Hxy), (IH _ Hab). reflexivity.
Qed.

(* Little-endian digits in base [b].  [digits] is any loop of the shape of [le_aux]:
   it stops at 0 and otherwise writes [enc (n mod b)]; [digits_val] reads the number back. *)
Section Digits.
  Variables (b : N) (enc : N -> byte) (dec : byte -> N).
  Hypothesis Hb : 1 < b.
  Hypothesis dec_enc : forall d, d < b -> dec (enc d) = d.

  Fixpoint digits_val (l : list byte) : N :=
    match l with [] => 0 | x :: r => dec x + b * digits_val r end.

  Variable digits : nat -> N -> list byte.
  Hypothesis digits_O : forall n, digits O n = [].
  Hypothesis digits_S : forall f n,
    digits (S f) n = if n =? 0 then [] else enc (n mod b) :: digits f (n / b).

  Lemma digits_val_spec (fuel : nat) :
    forall n, n < 2 ^ N.of_nat fuel -> digits_val (digits fuel n) = n.
  Proof.
    induction fuel as [|f IH]; intros n Hn.
    - rewrite digits_O. cbn in Hn. cbn [digits_val]. lia.
    - rewrite digits_S. destruct (N.eqb_spec n 0) as [->|Hz]; [reflexivity|].
      cbn [digits_val]. rewrite dec_enc by (apply N.mod_lt; lia).
      rewrite Nat2N.inj_succ, N.pow_succ_r' in Hn.
      rewrite IH.
      + rewrite N.add_comm. symmetry. apply N.div_mod. lia.
      + apply N.div_lt_upper_bound; [lia|].
        apply N.lt_le_trans with (2 * 2 ^ N.of_nat f); [exact Hn|].
        apply N.mul_le_mono_r. lia.
  Qed.
End Digits.

(** * Big-endian minimal byte strings (uint64 / uint256 / length fields) *)

(* little-endian digits base 256, no trailing zero; [fuel] = number of bits of n *)
Fixpoint le_aux (fuel : nat) (n : N) : list byte :=
  match fuel with
  | O => []
  | S f => if n =? 0 then [] else n2b (n mod 256) :: le_aux f (n / 256)
  end.

Definition le_bytes (n : N) : list byte := le_aux (N.to_nat (N.size n)) n.

(* big-endian, minimal: 0 -> [] ; this is uint256.Int.Bytes(), big.Int.Bytes()
   and the byte string go-ethereum's rlp writes for an unsigned integer. *)
Definition be_bytes (n : N) : list byte := rev (le_bytes n).

Definition le_val : list byte -> N := digits_val 256 b2n.

Definition be_val (l : list byte) : N := le_val (rev l).

Lemma le_aux_val (fuel : nat) :
  forall n, n < 2 ^ N.of_nat fuel -> le_val (le_aux fuel n) = n.
Proof.
  apply (digits_val_spec 256 n2b b2n); [lia|apply b2n_n2b|reflexivity|reflexivity].
Qed.

Lemma le_val_le_bytes (n : N) : le_val (le_bytes n) = n.
Proof.
  unfold le_bytes. apply le_aux_val.
  rewrite N2Nat.id. apply N.size_gt.
Qed.

Lemma be_val_be_bytes (n : N) : be_val (be_bytes n) = n.
Proof. unfold be_val, be_bytes. rewrite rev_involutive. apply le_val_le_bytes. Qed.

Theorem be_bytes_inj (a b : N) : be_bytes a = be_bytes b -> a = b.
Proof. apply (cancel_inj be_bytes be_val be_val_be_bytes). Qed.

Lemma be_bytes_nil (n : N) : be_bytes n = [] -> n = 0.
Proof. apply (be_bytes_inj n 0). Qed.

Lemma be_bytes_0 : be_bytes 0 = [].
Proof. reflexivity. Qed.

Lemma le_aux_len (fuel : nat) :
  forall n k, n < 256 ^ N.of_nat k -> (length (le_aux fuel n) <= k)%nat.
Proof.
  induction fuel as [|f IH]; intros n k Hn.
  - cbn [le_aux length]. lia.
  - cbn [le_aux]. destruct (N.eqb_spec n 0) as [Hz|Hz].
    + cbn [length]. lia.
    + destruct k as [|k].
      * cbn in Hn. lia.
      * cbn [length]. apply le_n_S. apply IH.
        rewrite Nat2N.inj_succ, N.pow_succ_r' in Hn.
        remember (256 ^ N.of_nat k) as p eqn:Hp. clear Hp IH. lia.
Qed.

Lemma be_bytes_len (n : N) (k : nat) :
  n < 256 ^ N.of_nat k -> (length (be_bytes n) <= k)%nat.
Proof.
  intros Hn. unfold be_bytes, le_bytes. rewrite rev_length.
  apply le_aux_len. exact Hn.
Qed.

Definition two64N : N := 18446744073709551616.
Lemma two64N_eq : two64N = 2 ^ 64.
Proof. vm_compute. reflexivity. Qed.
Lemma two64N_eq' : two64N = 256 ^ N.of_nat 8.
Proof. vm_compute. reflexivity. Qed.
Global Opaque two64N.

Lemma be_bytes_len8 (n : N) : n < two64N -> (length (be_bytes n) <= 8)%nat.
Proof. intros Hn. apply be_bytes_len. rewrite <- two64N_eq'. exact Hn. Qed.

Lemma be_bytes_len_pos (n : N) : n <> 0 -> (1 <= length (be_bytes n))%nat.
Proof.
  intros Hn. destruct (be_bytes n) as [|x r] eqn:E.
  - apply be_bytes_nil in E. contradiction.
  - cbn [length]. lia.
Qed.

Lemma le_aux_last_nz (fuel : nat) :
  forall n, n < 2 ^ N.of_nat fuel -> forall d, n <> 0 -> b2n (last (le_aux fuel n) d) <> 0.
Proof.
  induction fuel as [|f IH]; intros n Hn d Hnz.
  - cbn in Hn. lia.
  - cbn [le_aux]. destruct (N.eqb_spec n 0) as [Hz|Hz]; [contradiction|].
    rewrite Nat2N.inj_succ, N.pow_succ_r' in Hn.
    assert (Hq : n / 256 < 2 ^ N.of_nat f).
    { remember (2 ^ N.of_nat f) as p eqn:Hp. clear Hp IH. lia. }
    destruct (N.eq_dec (n / 256) 0) as [Hq0|Hq0].
    + rewrite Hq0. destruct f as [|f']; cbn [le_aux N.eqb last];
        rewrite b2n_n2b_mod, N.mod_mod by lia; lia.
    + specialize (IH (n / 256) Hq d Hq0).
      destruct (le_aux f (n / 256)) as [|y r] eqn:E.
      * exfalso. apply Hq0. rewrite <- (le_aux_val f (n / 256) Hq), E. reflexivity.
      * cbn [last]. exact IH.
Qed.

Lemma be_bytes_head_nz (n : N) (d : byte) : n <> 0 -> b2n (hd d (be_bytes n)) <> 0.
Proof.
  intros Hn. unfold be_bytes.
  assert (Hl : b2n (last (le_bytes n) d) <> 0).
  { unfold le_bytes. apply le_aux_last_nz; [|exact Hn].
    rewrite N2Nat.id. apply N.size_gt. }
  revert Hl. generalize (le_bytes n) as l. intros l.
  destruct l as [|x l] using rev_ind.
  - cbn. tauto.
  - rewrite rev_unit, last_last. cbn [hd]. tauto.
Qed.

(** * RLP items and the encoder *)

Inductive item : Type :=
| Str (bs : list byte)
| Lst (l : list item).

Section item_ind'.
  Variable P : item -> Prop.
  Hypothesis HStr : forall bs, P (Str bs).
  Hypothesis HLst : forall l, Forall P l -> P (Lst l).
  Fixpoint item_ind' (i : item) : P i :=
    match i with
    | Str bs => HStr bs
    | Lst l =>
        HLst l ((fix go (l : list item) : Forall P l :=
                   match l with
                   | [] => Forall_nil P
                   | x :: r => Forall_cons x (item_ind' x) (go r)
                   end) l)
    end.
End item_ind'.

(* header for a payload of [len] bytes; off = 0x80 for strings, 0xc0 for lists
   (rlp/encbuffer.go: encodeStringHeader / puthead) *)
Definition enc_len (off : N) (len : nat) : list byte :=
  let n := N.of_nat len in
  if n <? 56 then [n2b (off + n)]
  else let lb := be_bytes n in n2b (off + 55 + N.of_nat (length lb)) :: lb.

(* a single byte below 0x80 is its own encoding *)
Definition single_small (bs : list byte) : bool :=
  match bs with
  | [b] => b2n b <? 128
  | _ => false
  end.

Fixpoint rlp_encode (i : item) : list byte :=
  match i with
  | Str bs => if single_small bs then bs else enc_len 128 (length bs) ++ bs
  | Lst l =>
      let body := flat_map rlp_encode l in
      enc_len 192 (length body) ++ body
  end.

Definition rlp_body (l : list item) : list byte := flat_map rlp_encode l.

Lemma rlp_encode_Lst (l : list item) :
  rlp_encode (Lst l) = enc_len 192 (length (rlp_body l)) ++ rlp_body l.
Proof. reflexivity. Qed.

Lemma rlp_encode_Str (bs : list byte) :
  rlp_encode (Str bs) = if single_small bs then bs else enc_len 128 (length bs) ++ bs.
Proof. reflexivity. Qed.

Lemma rlp_body_cons (x : item) (l : list item) :
  rlp_body (x :: l) = rlp_encode x ++ rlp_body l.
Proof. reflexivity. Qed.

Definition item_ok (i : item) : Prop := N.of_nat (length (rlp_encode i)) < two64N.

Lemma single_small_spec (bs : list byte) :
  single_small bs = true -> exists b, bs = [b] /\ b2n b < 128.
Proof.
  destruct bs as [|b [|c r]]; cbn [single_small]; try discriminate.
  intros H. exists b. split; [reflexivity|]. apply N.ltb_lt. exact H.
Qed.

(** * Header facts *)

(* the first byte, which tells the three forms of an encoding apart *)
Definition first (l : list byte) : N := match l with [] => 0 | h :: _ => b2n h end.

Lemma first_app (l r : list byte) : l <> [] -> first (l ++ r) = first l.
Proof. intros Hl. destruct l; [contradiction|reflexivity]. Qed.

Lemma enc_len_first (off : N) (len : nat) (r : list byte) :
  off + 63 < 256 -> N.of_nat len < two64N ->
  off <= first (enc_len off len ++ r) <= off + 63.
Proof.
  intros Hoff Hlen. pose proof (be_bytes_len8 _ Hlen) as H8. unfold enc_len.
  destruct (N.ltb_spec (N.of_nat len) 56); cbn [app first]; rewrite b2n_n2b by lia; lia.
Qed.

Lemma enc_len_nonempty (off : N) (len : nat) (r : list byte) : enc_len off len ++ r <> [].
Proof. unfold enc_len. destruct (N.of_nat len <? 56); discriminate. Qed.

Lemma enc_len_inj (off : N) (l1 l2 : nat) (r1 r2 : list byte) :
  off + 63 < 256 -> N.of_nat l1 < two64N -> N.of_nat l2 < two64N ->
  enc_len off l1 ++ r1 = enc_len off l2 ++ r2 -> l1 = l2 /\ r1 = r2.
Proof.
  intros Hoff H1 H2 Heq. unfold enc_len in Heq.
  pose proof (be_bytes_len8 _ H1) as H81.
  pose proof (be_bytes_len8 _ H2) as H82.
  pose proof (be_bytes_len_pos (N.of_nat l1)) as Hp1.
  pose proof (be_bytes_len_pos (N.of_nat l2)) as Hp2.
  (* the first bytes are equal, which a short and a long header's never are *)
  destruct (N.ltb_spec (N.of_nat l1) 56) as [Hs1|Hs1];
    destruct (N.ltb_spec (N.of_nat l2) 56) as [Hs2|Hs2];
    cbn [app] in Heq; injection Heq as Hh Ht; apply n2b_inj in Hh; try lia.
  - split; [lia|exact Ht].
  - assert (Hll : length (be_bytes (N.of_nat l1)) = length (be_bytes (N.of_nat l2))) by lia.
    destruct (app_inj_len _ _ _ _ Hll Ht) as [Hb Hr].
    apply be_bytes_inj in Hb. split; [lia|exact Hr].
Qed.

Lemma framed_inj (off : N) (p1 p2 r1 r2 : list byte) :
  off + 63 < 256 -> N.of_nat (length p1) < two64N -> N.of_nat (length p2) < two64N ->
  (enc_len off (length p1) ++ p1) ++ r1 = (enc_len off (length p2) ++ p2) ++ r2 ->
  p1 = p2 /\ r1 = r2.
Proof.
  intros Hoff H1 H2 Heq. rewrite <- !app_assoc in Heq.
  destruct (enc_len_inj off _ _ _ _ Hoff H1 H2 Heq) as [Hlen Hrest].
  exact (app_inj_len _ _ _ _ Hlen Hrest).
Qed.

Lemma rlp_encode_nonempty (i : item) : rlp_encode i <> [].
Proof.
  destruct i as [bs|l]; [rewrite rlp_encode_Str|rewrite rlp_encode_Lst].
  - destruct (single_small bs) eqn:E; [|apply enc_len_nonempty].
    apply single_small_spec in E. destruct E as [b [-> _]]. discriminate.
  - apply enc_len_nonempty.
Qed.

Lemma item_ok_Str (bs : list byte) : item_ok (Str bs) -> N.of_nat (length bs) < two64N.
Proof.
  unfold item_ok. rewrite rlp_encode_Str.
  destruct (single_small bs); [tauto|]. rewrite app_length. lia.
Qed.

Lemma item_ok_Lst_body (l : list item) :
  item_ok (Lst l) -> N.of_nat (length (rlp_body l)) < two64N.
Proof. unfold item_ok. rewrite rlp_encode_Lst, app_length. lia. Qed.

Lemma body_ok_Forall (l : list item) :
  N.of_nat (length (rlp_body l)) < two64N -> Forall item_ok l.
Proof.
  induction l as [|x l IH]; intros H.
  - constructor.
  - rewrite rlp_body_cons, app_length in H. constructor.
    + unfold item_ok. lia.
    + apply IH. lia.
Qed.

Lemma item_ok_Lst (l : list item) : item_ok (Lst l) -> Forall item_ok l.
Proof. intros H. apply body_ok_Forall, item_ok_Lst_body, H. Qed.

Lemma first_Str (bs : list byte) :
  item_ok (Str bs) ->
  if single_small bs then first (rlp_encode (Str bs)) < 128
  else 128 <= first (rlp_encode (Str bs)) < 192.
Proof.
  intros Hok. pose proof (item_ok_Str _ Hok) as Hl. rewrite rlp_encode_Str.
  destruct (single_small bs) eqn:E.
  - apply single_small_spec in E. destruct E as [b [-> Hb]]. exact Hb.
  - pose proof (enc_len_first 128 (length bs) bs ltac:(lia) Hl). lia.
Qed.

Lemma first_Lst (l : list item) : item_ok (Lst l) -> 192 <= first (rlp_encode (Lst l)).
Proof.
  intros Hok. rewrite rlp_encode_Lst.
  apply enc_len_first; [lia|apply item_ok_Lst_body, Hok].
Qed.

Lemma first_eq (a b : item) (r1 r2 : list byte) :
  rlp_encode a ++ r1 = rlp_encode b ++ r2 -> first (rlp_encode a) = first (rlp_encode b).
Proof.
  intros H.
  rewrite <- (first_app (rlp_encode a) r1), <- (first_app (rlp_encode b) r2), H
    by apply rlp_encode_nonempty.
  reflexivity.
Qed.

(** * Prefix-freeness and injectivity *)

Definition prefix_free_at (a : item) : Prop :=
  forall b r1 r2, item_ok a -> item_ok b ->
    rlp_encode a ++ r1 = rlp_encode b ++ r2 -> a = b /\ r1 = r2.

Lemma rlp_body_inj (l1 : list item) :
  Forall prefix_free_at l1 ->
  forall l2, Forall item_ok l1 -> Forall item_ok l2 ->
    rlp_body l1 = rlp_body l2 -> l1 = l2.
Proof.
  induction 1 as [|x l1 Hx Hl1 IH]; intros [|y l2] Hok1 Hok2 Heq.
  - reflexivity.
  - symmetry in Heq. apply app_eq_nil in Heq. destruct (rlp_encode_nonempty y (proj1 Heq)).
  - apply app_eq_nil in Heq. destruct (rlp_encode_nonempty x (proj1 Heq)).
  - rewrite !rlp_body_cons in Heq.
    destruct (Hx y _ _ (Forall_inv Hok1) (Forall_inv Hok2) Heq) as [<- Hrest].
    f_equal. apply IH; [exact (Forall_inv_tail Hok1)|exact (Forall_inv_tail Hok2)|exact Hrest].
Qed.

Theorem rlp_prefix_free (a : item) :
  forall b r1 r2, item_ok a -> item_ok b ->
    rlp_encode a ++ r1 = rlp_encode b ++ r2 -> a = b /\ r1 = r2.
Proof.
  change (prefix_free_at a).
  induction a as [bs1|l1 IHl] using item_ind'; intros b r1 r2 Hoka Hokb Heq.
  all: pose proof (first_eq _ _ _ _ Heq) as Hh.
  - pose proof (first_Str _ Hoka) as F1. destruct b as [bs2|l2].
    + pose proof (first_Str _ Hokb) as F2.
      pose proof (item_ok_Str _ Hoka) as Hl1.
      pose proof (item_ok_Str _ Hokb) as Hl2.
      rewrite !rlp_encode_Str in Heq.
      (* a single small byte and a string with a header differ in the first byte *)
      destruct (single_small bs1) eqn:E1; destruct (single_small bs2) eqn:E2; try lia.
      * apply single_small_spec in E1. destruct E1 as [b1 [-> _]].
        apply single_small_spec in E2. destruct E2 as [b2 [-> _]].
        cbn [app] in Heq. injection Heq as -> ->. split; reflexivity.
      * destruct (framed_inj 128 _ _ _ _ ltac:(lia) Hl1 Hl2 Heq) as [-> ->].
        split; reflexivity.
    + pose proof (first_Lst _ Hokb) as F2. destruct (single_small bs1); lia.
  - pose proof (first_Lst _ Hoka) as F1. destruct b as [bs2|l2].
    + pose proof (first_Str _ Hokb) as F2. destruct (single_small bs2); lia.
    + pose proof (item_ok_Lst_body _ Hoka) as Hb1.
      pose proof (item_ok_Lst_body _ Hokb) as Hb2.
      rewrite !rlp_encode_Lst in Heq.
      destruct (framed_inj 192 _ _ _ _ ltac:(lia) Hb1 Hb2 Heq) as [Hbody Hr].
      split; [|exact Hr]. f_equal.
      apply (rlp_body_inj l1 IHl l2); [apply item_ok_Lst, Hoka|apply item_ok_Lst, Hokb|exact Hbody].
Qed.

Theorem rlp_encode_inj (a b : item) :
  item_ok a -> item_ok b -> rlp_encode a = rlp_encode b -> a = b.
Proof.
  intros Ha Hb Heq.
  destruct (rlp_prefix_free a b [] [] Ha Hb) as [H _]; [|exact H].
  rewrite !app_nil_r. exact Heq.
Qed.

Corollary rlp_no_proper_prefix (a b : item) (r : list byte) :
  item_ok a -> item_ok b -> rlp_encode a ++ r = rlp_encode b -> r = [].
Proof.
  intros Ha Hb Heq.
  destruct (rlp_prefix_free a b r [] Ha Hb) as [_ H]; [|exact H].
  rewrite app_nil_r. exact Heq.
Qed.

(** * Examples : hypotheses are satisfiable, encoder computes the textbook vectors *)

Definition bytesN (l : list N) : list byte := map n2b l.
Definition Nbytes (l : list byte) : list N := map b2n l.

Lemma Nbytes_inj (a b : list byte) : Nbytes a = Nbytes b -> a = b.
Proof. apply map_inj, b2n_inj. Qed.

(* "dog" -> 83 'd' 'o' 'g' *)
Example rlp_dog : Nbytes (rlp_encode (Str (bytesN [100;111;103]))) = [131;100;111;103].
Proof. vm_compute. reflexivity. Qed.

(* ["cat","dog"] -> c8 83 cat 83 dog *)
Example rlp_cat_dog :
  Nbytes (rlp_encode (Lst [Str (bytesN [99;97;116]); Str (bytesN [100;111;103])]))
  = [200;131;99;97;116;131;100;111;103].
Proof. vm_compute. reflexivity. Qed.

(* empty string 0x80, empty list 0xc0, 0 as integer 0x80, 15 -> 0x0f, 1024 -> 82 04 00 *)
Example rlp_misc :
  Nbytes (rlp_encode (Str [])) = [128] /\
  Nbytes (rlp_encode (Lst [])) = [192] /\
  Nbytes (rlp_encode (Str (be_bytes 0))) = [128] /\
  Nbytes (rlp_encode (Str (be_bytes 15))) = [15] /\
  Nbytes (rlp_encode (Str (be_bytes 128))) = [129;128] /\
  Nbytes (rlp_encode (Str (be_bytes 1024))) = [130;4;0].
Proof. vm_compute. repeat split; reflexivity. Qed.

(* the set theoretical representation of three  [ [], [[]], [ [], [[]] ] ] *)
Example rlp_three :
  Nbytes (rlp_encode (Lst [Lst []; Lst [Lst []]; Lst [Lst []; Lst [Lst []]]]))
  = [199;192;193;192;195;192;193;192].
Proof. vm_compute. reflexivity. Qed.

(* a 56-byte string takes the long form b8 38 ... *)
Example rlp_long :
  firstn 3 (Nbytes (rlp_encode (Str (repeat (n2b 97) 56)))) = [184;56;97] /\
  firstn 4 (Nbytes (rlp_encode (Str (repeat (n2b 97) 1024)))) = [185;4;0;97].
Proof. vm_compute. split; reflexivity. Qed.

Example item_ok_example :
  item_ok (Lst [Str (bytesN [99;97;116]); Lst [Str (repeat (n2b 97) 300)]; Str (be_bytes (2^255))]).
Proof. unfold item_ok. rewrite two64N_eq. vm_compute. reflexivity. Qed.

Example be_bytes_examples :
  Nbytes (be_bytes 0) = [] /\ Nbytes (be_bytes 255) = [255] /\
  Nbytes (be_bytes 256) = [1;0] /\ Nbytes (be_bytes (2^64 - 1)) = repeat 255 8 /\
  length (be_bytes (2^256 - 1)) = 32%nat.
Proof. vm_compute. repeat split; reflexivity. Qed.

Print Assumptions be_bytes_inj.
Print Assumptions be_bytes_head_nz.
Print Assumptions rlp_prefix_free.
Print Assumptions rlp_encode_inj.
Print Assumptions rlp_no_proper_prefix.
