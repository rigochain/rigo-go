(* Property C12 over whole histories: "refunded exactly once, in full, never
   earlier, to nobody else".

   InvStake.v proves the per-step facts (Props/C12.v): which step may release a stake, which refund
   height it stamps, that nothing but EndBlock's scan touches an unbonding entry, and what one
   EndBlock pays.  This file puts them together along runs from a genesis, under hypotheses on the
   INPUTS only (those of InvReach.C02_closed_total):

   1. [payouts s ops]: the (height, stake) pairs the EndBlocks of a run pay, and the link to the
      balances ([payout_link], [payout_link_balance]);
   2. [payout_at_most_once]: no stake hash is paid twice in a run;
   3. [payout_never_early_and_in_full]: a paid stake has matured, and was released earlier in the run
      by a delivery or a BeginBlock at height hr with refund height hr + the period in force then;
   4. [payout_only_to_owner]: the credited account is the sender of the staking transaction that
      created the stake (or the genesis validator);
   5. [C12_history]: per account, what the unbonding ledger pays in total is the sum over the
      distinct matured stake hashes it owns, each counted once;
   6. an example on InvSupply's chain;
   7. [payout_at_most_once_two_validators_refuted]: why [genesis_ok] asks for at most one
      validator. *)
From Rigo Require Import Base.
From stdpp Require Import gmap sorting.
From Rigo Require Import Spec SpecProps SpecFacts.
From Rigo Require InvFail InvNonce InvReward InvGov InvPanic InvSlash.
From Rigo Require Import InvFee InvSupply InvReach InvClosed InvStake.
Local Open Scope Z_scope.

Local Opaque two256 two255 two64 two63.

(* ================================================================== 1. the payouts of a run *)

(* the committed unbonding entries EndBlock in state [s] pays: those whose refund height has come,
   in the iteration order of the scan ([unfreeze] of Spec.v, with SpecFacts.unfreeze_step as its loop
   body; [matured] of InvStake.v is the test) *)
Definition paid_items (s : state) : list (hash * stake) :=
  List.filter (matured (b_height (bctx s))) (sorted_items (frozen (base_of s))).

Definition payouts1 (s : state) (o : sop) : list (Z * stake) :=
  match o with
  | SEnd => match (end_block s).2 with
            | Ok _ => (λ kp : hash * stake, (b_height (bctx s), kp.2)) <$> paid_items s
            | _ => []
            end
  | _ => []
  end.

Fixpoint payouts (s : state) (ops : list sop) : list (Z * stake) :=
  match ops with
  | [] => []
  | o :: r => payouts1 s o ++ payouts (sstep s o) r
  end.

Lemma payouts_app pre : ∀ s post, payouts s (pre ++ post) = payouts s pre ++ payouts (srun s pre) post.
Proof.
  induction pre as [|o pre IH]; intros s post; cbn [app payouts]; [reflexivity|].
  rewrite IH, app_assoc. reflexivity.
Qed.

Definition payout_hash (p : Z * stake) : hash := s_hash p.2.
Definition owned_by (a : addr) (ps : list (Z * stake)) : list (Z * stake) :=
  List.filter (λ p : Z * stake, (s_from p.2 =? a)%N) ps.
Definition paid_to (a : addr) (ps : list (Z * stake)) : list Z :=
  (λ p : Z * stake, power_to_amount (s_power p.2)) <$> owned_by a ps.

Lemma refunds_to_paid h a items :
  refunds_to h a items = paid_to a ((λ kp : hash * stake, (h, kp.2)) <$> List.filter (matured h) items).
Proof.
  unfold refunds_to, paid_to, owned_by. induction items as [|kp items IH]; [reflexivity|].
  cbn [List.filter]. destruct (matured h kp) eqn:Em; cbn [andb].
  - cbn [fmap list_fmap List.filter snd]. destruct (s_from kp.2 =? a)%N.
    + cbn [fmap list_fmap snd]. f_equal. exact IH.
    + exact IH.
  - exact IH.
Qed.

Lemma paid_items_spec s kp :
  kp ∈ paid_items s ↔ frozen (base_of s) !! kp.1 = Some kp.2 ∧ s_refund kp.2 ≤ b_height (bctx s).
Proof.
  destruct kp as [k st]. unfold paid_items. rewrite elem_of_list_In, filter_In, <- elem_of_list_In, elem_of_sorted_items.
  unfold matured. cbn [fst snd]. rewrite Z.leb_le. reflexivity.
Qed.

Lemma payouts1_ok s s' ups :
  end_block s = (s', Ok ups) →
  payouts1 s SEnd = (λ kp : hash * stake, (b_height (bctx s), kp.2)) <$> paid_items s.
Proof. intros E. unfold payouts1. rewrite E. reflexivity. Qed.

(* what one successful EndBlock does to the account [a]: the proposer's fee credit, then the
   amounts of its payouts owned by [a], nothing else *)
Theorem payout_link s s' ups a :
  end_block s = (s', Ok ups) →
  payouts1 s SEnd = (λ kp : hash * stake, (b_height (bctx s), kp.2)) <$> paid_items s ∧
  (∀ kp, kp ∈ paid_items s ↔ frozen (base_of s) !! kp.1 = Some kp.2 ∧ s_refund kp.2 ≤ b_height (bctx s)) ∧
  acct_of (work s') a = foldl credit (fee_credited s a) (paid_to a (payouts1 s SEnd)).
Proof.
  intros E. split; [exact (payouts1_ok s s' ups E)|]. split; [apply paid_items_spec|].
  destruct (unfreeze_exact _ _ _ E) as (_ & _ & HA & _). rewrite (HA a), (payouts1_ok s s' ups E). f_equal.
  unfold paid_items. apply refunds_to_paid.
Qed.

Lemma end_block_pays s : (∃ s' ups, end_block s = (s', Ok ups)) ∨ payouts1 s SEnd = [] ∧ sstep s SEnd = s.
Proof.
  unfold payouts1. cbn [sstep]. destruct (end_block s) as [s' r] eqn:E. cbn [fst snd].
  pose proof (end_block_cases _ _ _ E) as C. destruct C as [r Hn|l1 l2 np l3 l4 _ _ _ _ _]; [right|left; eauto].
  split; [|reflexivity]. destruct r as [u| |]; [destruct (Hn u eq_refl)|reflexivity..].
Qed.

Lemma owned_by_elem a ps p : p ∈ owned_by a ps ↔ p ∈ ps ∧ s_from p.2 = a.
Proof. unfold owned_by. rewrite elem_of_list_In, filter_In, <- elem_of_list_In, N.eqb_eq. reflexivity. Qed.

(* in full: the balance grows by amountPerPower x power over the payouts owned by [a] *)
Corollary payout_link_balance s s' ups a :
  end_block s = (s', Ok ups) →
  (∀ k st, frozen (base_of s) !! k = Some st → 0 ≤ s_power st < two63) →
  0 ≤ a_bal (fee_credited s a) < two256 →
  bal_of (work s') a =
    (a_bal (fee_credited s a) +
     sumZ ((λ p : Z * stake, amountPerPower * s_power p.2) <$> owned_by a (payouts1 s SEnd))) mod two256.
Proof.
  intros E Hpw Hr. destruct (payout_link s s' ups a E) as (E1 & Hel & HA).
  unfold bal_of. rewrite HA, foldl_credit_bal by exact Hr. f_equal. f_equal.
  unfold paid_to. rewrite !sumZ_fmap. apply sumZ_with_ext. intros p Hp. apply owned_by_elem in Hp as [Hp _].
  rewrite E1 in Hp. apply elem_of_list_fmap in Hp as (kp & -> & Hkp). apply Hel in Hkp as [Hk _]. cbn [snd].
  rewrite power_to_amount_exact by (eapply Hpw; exact Hk). lia.
Qed.
Print Assumptions payout_link.
Print Assumptions payout_link_balance.

(* ================================================================== 2. at most once *)

Definition absent (k : hash) (l : ledgers) : Prop :=
  (∀ st, st ∈ bonded_stakes l → s_hash st ≠ k) ∧ frozen l !! k = None.

Lemma absent_evolves (Q : stake → stake → Prop) R l l' k : Qok Q → evolves Q R l l' → absent k l → absent k l'.
Proof.
  intros HQ Hev [H1 H2]. split.
  - intros st Hst. destruct (evolves_bonded _ _ _ _ _ Hev Hst) as (s0 & Hs0 & Hq).
    rewrite <- (Q_hash _ HQ _ _ Hq). apply H1. exact Hs0.
  - destruct (frozen l' !! k) as [x|] eqn:E; [|reflexivity]. exfalso.
    destruct (evolves_frozen _ _ _ _ _ _ Hev E) as [Hold|(s0 & s1 & Hs0 & _ & _ & Hk)]; [congruence|].
    apply (H1 s0 Hs0). symmetry. exact Hk.
Qed.

Lemma absent_step s o k : absent k (work s) →
  match o with SDeliver t => t_type t = TRX_STAKING → t_hash t ≠ k | _ => True end →
  absent k (work (sstep s o)).
Proof.
  intros Ha Ho. destruct o as [hd|t| |]; cbn [sstep].
  - eapply absent_evolves; [apply Qok_sim|apply begin_block_evolves|exact Ha].
  - destruct Ha as [H1 H2]. split.
    + intros st Hst. destruct (deliver_bonded s t st Hst) as [Hold|(Hty & _ & ->)]; [apply H1, Hold|apply Ho, Hty].
    + destruct (frozen (work (deliver s t).1) !! k) as [x|] eqn:E; [|reflexivity]. exfalso.
      destruct (deliver_frozen s t k x E) as [Hold|(s0 & Hs0 & _ & Hk)]; [congruence|].
      apply (H1 s0 Hs0). symmetry. exact Hk.
  - eapply absent_evolves; [apply Qok_eq|apply (end_block_evolves s 0)|exact Ha].
  - exact Ha.
Qed.

Lemma sstep_base s o : o ≠ SCommit → base_of (sstep s o) = base_of s.
Proof.
  intros Ho. destruct o as [hd|t| |]; cbn [sstep]; [| | |contradiction].
  - destruct (begin_block s hd) as [s' r] eqn:E.
    destruct (SpecFacts.begin_block_control _ _ _ _ E) as [->|(_ & l & ->)]; reflexivity.
  - destruct (deliver s t) as [s' r] eqn:E.
    destruct (InvFail.deliver_control _ _ _ _ E) as (l & x & fee & n & ->). reflexivity.
  - destruct (end_block s) as [s' r] eqn:E. apply end_block_cases in E. destruct E; reflexivity.
Qed.

(* the invariant: [H] covers every hash present, [paid] lists hashes that are gone for good *)
Record uinv (ph : InvPanic.phase) (s : state) (H paid : list hash) : Prop := {
  ui_hu : hashes_unique (work s);
  ui_in : hashes_in H (work s);
  ui_paid : ∀ k, k ∈ paid → k ∈ H ∧ absent k (work s);
  ui_base : ph ≠ InvPanic.Ended → ∀ k x, frozen (base_of s) !! k = Some x → frozen (work s) !! k = Some x }.

Lemma bonded_stakes_same l l' : dels l' = dels l → bonded_stakes l' = bonded_stakes l.
Proof. intros E. unfold bonded_stakes. rewrite E. reflexivity. Qed.

(* one EndBlock that pays: the paid hashes are pairwise distinct, none was paid before, and all of
   them are gone from the working ledgers afterwards *)
Lemma uinv_end s s' ups H paid :
  end_block s = (s', Ok ups) → uinv InvPanic.InBlock s H paid → NoDup paid →
  let new := payout_hash <$> payouts1 s SEnd in
  NoDup (paid ++ new) ∧ uinv InvPanic.Ended s' H (paid ++ new).
Proof.
  intros E [Hu Hin Hpaid Hbase] Hnd new.
  assert (Es' : s' = sstep s SEnd) by (cbn [sstep]; rewrite E; reflexivity).
  pose proof (payouts1_ok s s' ups E) as E1.
  pose proof (proj1 (hashes_unique_pt _) Hu) as (_ & _ & U3 & U4).
  assert (Hitem : ∀ kp, kp ∈ paid_items s →
            frozen (work s) !! kp.1 = Some kp.2 ∧ s_hash kp.2 = kp.1 ∧ s_refund kp.2 ≤ b_height (bctx s) ∧
            frozen (base_of s) !! kp.1 = Some kp.2).
  { intros kp Hkp. apply paid_items_spec in Hkp as [Hk Hle]. pose proof (Hbase ltac:(discriminate) _ _ Hk) as Hw.
    split; [exact Hw|]. split; [apply (U4 _ _ Hw)|]. split; [exact Hle|exact Hk]. }
  assert (Enew : new = (paid_items s).*1).
  { unfold new. rewrite E1, <- list_fmap_compose. apply Forall_fmap_ext, Forall_forall.
    intros kp Hkp. unfold payout_hash. cbn. apply (Hitem kp Hkp). }
  assert (Hnew : ∀ k, k ∈ new → ∃ st, frozen (work s) !! k = Some st ∧ s_hash st = k ∧
             s_refund st ≤ b_height (bctx s) ∧ frozen (base_of s) !! k = Some st).
  { intros k Hk. rewrite Enew in Hk. apply elem_of_list_fmap in Hk as (kp & -> & Hkp). exists kp.2. apply Hitem. exact Hkp. }
  split.
  - apply NoDup_app. split; [exact Hnd|]. split.
    + intros k Hk Hk'. destruct (Hnew k Hk') as (st & Hw & _). destruct (Hpaid k Hk) as (_ & _ & Hnone). congruence.
    + rewrite Enew. unfold paid_items. apply InvSlash.NoDup_map_filter. apply NoDup_keys_sorted_items.
  - split.
    + rewrite Es'. apply sstep_hashes_unique; [exact Hu|exact I].
    + rewrite Es'. apply (sstep_hashes_in s SEnd H Hin).
    + intros k Hk. apply elem_of_app in Hk as [Hk|Hk].
      * destruct (Hpaid k Hk) as [HkH Ha]. split; [exact HkH|]. rewrite Es'. apply absent_step; [exact Ha|exact I].
      * destruct (Hnew k Hk) as (st & Hw & Hh & Hle & Hb). split.
        -- rewrite <- Hh. apply Hin. apply elem_of_app. right. apply InvStake.elem_of_frozen. eauto.
        -- split.
           ++ intros x Hx. rewrite (bonded_stakes_same (work s) (work s')) in Hx
                by exact (keeps_dels _ _ _ (end_block_keeps _ _ _ E) I).
              apply InvStake.elem_of_bonded in Hx as (a & d & Hd & Hx). eapply U3; eassumption.
           ++ destruct (unfreeze_exact _ _ _ E) as (Hgone & _). eapply Hgone; eassumption.
    + intros Hne. contradiction.
Qed.

Lemma uinv_step_other ph ph' s o H paid :
  uinv ph s H paid → o ≠ SEnd → o ≠ SCommit → ph' ≠ InvPanic.Ended → ph ≠ InvPanic.Ended →
  match o with SDeliver t => t_type t = TRX_STAKING → t_hash t ∉ H | _ => True end →
  uinv ph' (sstep s o) (match o with
                        | SDeliver t => if t_type t =? TRX_STAKING then t_hash t :: H else H
                        | _ => H end) paid.
Proof.
  intros [Hu Hin Hpaid Hbase] HoE HoC Hph' Hph Hfresh.
  assert (Hf : match o with SDeliver t => fresh_tx s t | _ => True end).
  { destruct o as [hd|t| |]; try exact I. intros Hty _ st Hst Heq. apply (Hfresh Hty). rewrite <- Heq. apply Hin. exact Hst. }
  split.
  - apply sstep_hashes_unique; assumption.
  - apply sstep_hashes_in. exact Hin.
  - intros k Hk. destruct (Hpaid k Hk) as [HkH Ha]. split.
    + destruct o as [hd|t| |]; try exact HkH. destruct (t_type t =? TRX_STAKING); [right|]; exact HkH.
    + apply absent_step; [exact Ha|]. destruct o as [hd|t| |]; try exact I.
      intros Hty Heq. apply (Hfresh Hty). rewrite Heq. exact HkH.
  - intros _ k x Hk. rewrite sstep_base in Hk by exact HoC.
    apply frozen_untouched; [exact Hu|exact HoE|]. apply Hbase; assumption.
Qed.

Lemma bracketed_tail ph n o r :
  InvPanic.bracketed ph n (o :: r) →
  InvPanic.bracketed (InvPanic.next_phase ph n o).1 (InvPanic.next_phase ph n o).2 r.
Proof.
  destruct ph, o as [hd|t| |]; cbn [InvPanic.bracketed InvPanic.next_phase fst snd]; try contradiction.
  - intros (_ & _ & H). exact H.
  - intros (_ & H). exact H.
  - trivial.
  - trivial.
Qed.

Lemma uinv_sstep ph n s o r H paid :
  InvPanic.bracketed ph n (o :: r) → uinv ph s H paid → NoDup paid →
  match o with SDeliver t => t_type t = TRX_STAKING → t_hash t ∉ H | _ => True end →
  NoDup (paid ++ (payout_hash <$> payouts1 s o)) ∧
  uinv (InvPanic.next_phase ph n o).1 (sstep s o)
       (match o with SDeliver t => if t_type t =? TRX_STAKING then t_hash t :: H else H | _ => H end)
       (paid ++ (payout_hash <$> payouts1 s o)).
Proof.
  intros Hbr Hinv Hnd Hfresh.
  destruct ph, o as [hd|t| |]; cbn [InvPanic.bracketed] in Hbr; try contradiction; cbn [InvPanic.next_phase fst].
  - cbn [payouts1 fmap list_fmap]. rewrite app_nil_r. split; [exact Hnd|].
    apply (uinv_step_other InvPanic.Idle InvPanic.InBlock s (SBegin hd) H paid Hinv); try discriminate. exact I.
  - cbn [payouts1 fmap list_fmap]. rewrite app_nil_r. split; [exact Hnd|].
    apply (uinv_step_other InvPanic.InBlock InvPanic.InBlock s (SDeliver t) H paid Hinv); try discriminate. exact Hfresh.
  - destruct (end_block_pays s) as [(s' & ups & E)|[-> ->]].
    + replace (sstep s SEnd) with s' by (cbn [sstep]; rewrite E; reflexivity).
      apply (uinv_end s s' ups H paid E Hinv Hnd).
    + cbn [fmap list_fmap]. rewrite app_nil_r. split; [exact Hnd|].
      destruct Hinv as [A B C _]. split; [exact A|exact B|exact C|]. intros Hne. contradiction.
  - cbn [payouts1 fmap list_fmap]. rewrite app_nil_r. split; [exact Hnd|].
    destruct Hinv as [A B C _]. cbn [sstep]. split; [exact A|exact B|exact C|].
    intros _ k x Hk. rewrite InvPanic.base_of_commit in Hk. exact Hk.
Qed.

Lemma payouts_nodup ops : ∀ ph n s H paid,
  InvPanic.bracketed ph n ops → uinv ph s H paid →
  (∀ h, h ∈ H → h ∉ stake_hashes ops) → NoDup (stake_hashes ops) → NoDup paid →
  NoDup (paid ++ (payout_hash <$> payouts s ops)).
Proof.
  induction ops as [|o r IH]; intros ph n s H paid Hbr Hinv Hdis Hnds Hnd.
  { cbn. rewrite app_nil_r. exact Hnd. }
  cbn [payouts]. rewrite fmap_app, app_assoc.
  destruct (stake_hashes_step o r H Hdis Hnds) as (Hfresh & Hdis' & Hnds').
  destruct (uinv_sstep ph n s o r H paid Hbr Hinv Hnd Hfresh) as [Hnd' Hinv'].
  apply (IH _ _ _ _ _ (bracketed_tail _ _ _ _ Hbr) Hinv' Hdis' Hnds' Hnd').
Qed.

Lemma uinv_genesis g : (length (gen_validators g) ≤ 1)%nat → uinv InvPanic.Idle (init_chain g) [0%N] [].
Proof.
  intros Hlen. split.
  - apply init_chain_hashes_unique. exact Hlen.
  - apply init_chain_hashes_in.
  - intros k Hk. inversion Hk.
  - intros _ k x Hk. unfold base_of in Hk. cbn in Hk. rewrite lookup_empty in Hk. discriminate.
Qed.

(* no stake hash is paid twice in a run from a genesis with at most one validator whose operations
   come in Begin, Deliver*, End, Commit brackets and whose staking transactions carry pairwise
   distinct non-zero hashes.  Neither the supply bound nor [txs_ok] is needed, nor that the
   EndBlocks answer Ok (one that does not pays nothing). *)
Theorem payout_at_most_once_gen g ops :
  (length (gen_validators g) ≤ 1)%nat → InvPanic.bracketed InvPanic.Idle 0 ops → hashes_fresh ops →
  NoDup (payout_hash <$> payouts (init_chain g) ops).
Proof.
  intros Hlen Hbr Hfresh. apply NoDup_cons in Hfresh as [H0 Hnds].
  apply (payouts_nodup ops InvPanic.Idle 0 (init_chain g) [0%N] [] Hbr (uinv_genesis g Hlen)); [|exact Hnds|constructor].
  intros h Hh. apply elem_of_list_singleton in Hh as ->. exact H0.
Qed.
Print Assumptions payout_at_most_once_gen.

(* the form with the hypotheses of InvReach.C02_closed_total *)
Theorem payout_at_most_once g ops :
  genesis_ok g → InvPanic.bracketed InvPanic.Idle 0 ops → hashes_fresh ops → txs_ok ops →
  supply (work (init_chain g)) + requested ops < supply_bound →
  NoDup ((λ p : Z * stake, s_hash p.2) <$> payouts (init_chain g) ops).
Proof. intros (_ & Hlen & _) Hbr Hh _ _. apply payout_at_most_once_gen; assumption. Qed.
Print Assumptions payout_at_most_once.

(* ================================================================== 3. never early, in full *)

Lemma payouts_elem p ops : ∀ s, p ∈ payouts s ops →
  ∃ pre post, ops = pre ++ SEnd :: post ∧ p ∈ payouts1 (srun s pre) SEnd.
Proof.
  induction ops as [|o r IH]; intros s Hp; cbn [payouts] in Hp; [inversion Hp|].
  apply elem_of_app in Hp as [Hp|Hp].
  - destruct o as [hd|t| |]; cbn [payouts1] in Hp; try (inversion Hp; fail).
    exists [], r. split; [reflexivity|exact Hp].
  - destruct (IH _ Hp) as (pre & post & -> & Hin). exists (o :: pre), post. split; [reflexivity|exact Hin].
Qed.

Lemma payouts1_elem s p : p ∈ payouts1 s SEnd →
  (∃ ups, (end_block s).2 = Ok ups) ∧ p.1 = b_height (bctx s) ∧
  ∃ k, frozen (base_of s) !! k = Some p.2 ∧ s_refund p.2 ≤ b_height (bctx s).
Proof.
  intros Hp. destruct (end_block s) as [s' r] eqn:E. destruct r as [ups|e|pn].
  - rewrite (payouts1_ok s s' ups E) in Hp.
    apply elem_of_list_fmap in Hp as (kp & -> & Hkp). apply paid_items_spec in Hkp as [Hk Hle]. cbn [fst snd].
    split; [exists ups; reflexivity|]. split; [reflexivity|]. exists kp.1. split; assumption.
  - unfold payouts1 in Hp. rewrite E in Hp. inversion Hp.
  - unfold payouts1 in Hp. rewrite E in Hp. inversion Hp.
Qed.

Definition release_height_of (s : state) (o : sop) : Z :=
  match o with SBegin hd => h_height hd | _ => b_height (bctx s) end.

(* [x] enters the unbonding ledger by the operation [o] executed in state [s]:
   - a delivery: [x] is a bonded stake [st0] of [s], unchanged but for the refund height, which is
     the height of [s] + the period in force in [s]; the transaction is a correctly signed
     unstaking transaction whose sender owns the stake [s0] it names, and [st0] is that stake, or
     the delegatee thereby lost all its own power (forced release of everything bonded to it);
   - a BeginBlock (the validator missed too many blocks): [x] is a bonded stake [st0] of [s] with
     owner, target, hash and start height unchanged, refund height = header height + the period
     in force; its power is that of [st0], cut if the same BeginBlock slashed the validator
     (no evidence in the header: nothing is cut) *)
Definition released_by (s : state) (o : sop) (x : stake) : Prop :=
  match o with
  | SDeliver t =>
      ∃ st0, st0 ∈ bonded_stakes (work s) ∧
        x = with_refund (b_height (bctx s) + g_lazyRewardBlocks (gparams s)) st0 ∧
        t_type t = TRX_UNSTAKING ∧ t_sigok t = true ∧
        ∃ d hs b s0, dels (work s) !! t_to t = Some d ∧ t_payload t = PUnstake hs b ∧
          find_stake hs (d_stakes d) = Some s0 ∧ s_from s0 = t_from t ∧ st0 ∈ d_stakes d ∧
          (st0 = s0 ∨ d_self (del_stake d hs) = 0 ∨ d_total (del_stake d hs) = 0)
  | SBegin hd =>
      ∃ st0 s1, st0 ∈ bonded_stakes (work s) ∧ stake_sim st0 s1 ∧ (h_evidence hd = [] → s1 = st0) ∧
        (0 ≤ g_slashRatio (gparams s) ≤ 100 → 0 ≤ s_power st0 → 0 ≤ s_power s1 ≤ s_power st0) ∧
        x = with_refund (h_height hd + g_lazyRewardBlocks (gparams s)) s1
  | _ => False
  end.

Lemma released_by_refund s o x : released_by s o x →
  s_refund x = release_height_of s o + g_lazyRewardBlocks (gparams s).
Proof.
  destruct o as [hd|t| |]; cbn [released_by release_height_of]; try contradiction.
  - intros (st0 & s1 & _ & _ & _ & _ & ->). reflexivity.
  - intros (st0 & _ & -> & _). reflexivity.
Qed.

Definition same_id (x y : stake) : Prop :=
  s_from x = s_from y ∧ s_to x = s_to y ∧ s_hash x = s_hash y ∧ s_start x = s_start y.

Lemma released_by_source s o x : released_by s o x →
  ∃ st0, st0 ∈ bonded_stakes (work s) ∧ same_id st0 x ∧
    ((0 ≤ g_slashRatio (gparams s) ≤ 100 → 0 ≤ s_power st0 → 0 ≤ s_power x ≤ s_power st0)).
Proof.
  destruct o as [hd|t| |]; cbn [released_by]; try contradiction.
  - intros (st0 & s1 & Hin & (H1 & H2 & H3 & H4 & _) & _ & Hp & ->). exists st0.
    split; [exact Hin|]. split; [repeat split; assumption|]. exact Hp.
  - intros (st0 & Hin & -> & _). exists st0. split; [exact Hin|]. split; [repeat split|]. cbn. lia.
Qed.

(* BeginBlock as an evolution that records both what slashing may do and that it does nothing
   without evidence *)
Definition bb_rel (s : state) (hd : header) (x y : stake) : Prop :=
  stake_sim x y ∧ (h_evidence hd = [] → y = x) ∧
  (0 ≤ g_slashRatio (gparams s) ≤ 100 → 0 ≤ s_power x → 0 ≤ s_power y ≤ s_power x).

Lemma Qok_bb s hd : Qok (bb_rel s hd).
Proof.
  split.
  - intros x. split; [apply (Q_refl _ Qok_sim)|]. split; [reflexivity|lia].
  - intros x y z (H1 & H2 & H3) (H4 & H5 & H6). split; [eapply (Q_trans _ Qok_sim); eassumption|].
    split; [intros He; rewrite (H5 He); apply H2; exact He|]. intros Hr Hx. specialize (H3 Hr Hx).
    specialize (H6 Hr ltac:(lia)). lia.
  - intros x y (H & _). apply (Q_hash _ Qok_sim). exact H.
Qed.

Lemma begin_block_evolves_bb s hd :
  evolves (bb_rel s hd) (block_release_height s hd) (work s) (work (begin_block s hd).1).
Proof.
  apply begin_block_evolves_gen; [apply Qok_bb|]. intros x Hev. split; [repeat split|]. split; [contradiction|].
  intros Hr Hx. cbn [with_power s_power]. apply slash_amount_bounds; assumption.
Qed.

Lemma begin_release s hd k x : frozen (work (begin_block s hd).1) !! k = Some x →
  frozen (work s) !! k = Some x ∨ released_by s (SBegin hd) x.
Proof.
  intros Hk. destruct (evolves_frozen _ _ _ _ _ _ (begin_block_evolves_bb s hd) Hk)
    as [Hold|(s0 & s1 & Hs0 & (Hq1 & Hq2 & Hq3) & -> & _)]; [left; exact Hold|].
  right. cbn [released_by]. exists s0, s1. split; [exact Hs0|].
  split; [exact Hq1|]. split; [exact Hq2|]. split; [exact Hq3|]. reflexivity.
Qed.

Definition release_point (s0 : state) (ops : list sop) (x : stake) : Prop :=
  ∃ pre o post, ops = pre ++ o :: post ∧ released_by (srun s0 pre) o x.

Lemma release_point_snoc s0 ops o x : release_point s0 ops x → release_point s0 (ops ++ [o]) x.
Proof.
  intros (pre & o' & post & -> & H). exists pre, o', (post ++ [o]). split; [|exact H].
  rewrite <- app_assoc. reflexivity.
Qed.

Lemma frozen_origin s0 ops :
  frozen (work s0) = ∅ → frozen (base_of s0) = ∅ →
  (∀ pre, pre `prefix_of` ops → hashes_unique (work (srun s0 pre))) →
  ∀ k x, frozen (work (srun s0 ops)) !! k = Some x ∨ frozen (base_of (srun s0 ops)) !! k = Some x →
  release_point s0 ops x.
Proof.
  intros Hw0 Hb0. induction ops as [|o ops IH] using rev_ind; intros Hhu k x Hk.
  { cbn in Hk. rewrite Hw0, Hb0 in Hk. destruct Hk as [Hk|Hk]; rewrite lookup_empty in Hk; discriminate. }
  assert (Hhu' : ∀ pre, pre `prefix_of` ops → hashes_unique (work (srun s0 pre))).
  { intros pre Hp. apply Hhu. apply prefix_app_r. exact Hp. }
  specialize (IH Hhu').
  pose proof (Hhu (ops ++ [o]) (reflexivity _)) as Hhu1.
  rewrite srun_snoc in Hk, Hhu1. set (s := srun s0 ops) in *.
  assert (Hold : ∀ k x, frozen (work s) !! k = Some x → release_point s0 (ops ++ [o]) x).
  { intros k' x' H. apply release_point_snoc. apply (IH k' x'). left. exact H. }
  assert (Hnew : released_by s o x → release_point s0 (ops ++ [o]) x).
  { intros H. exists ops, o, []. split; [reflexivity|exact H]. }
  destruct Hk as [Hk|Hk].
  - destruct o as [hd|t| |]; cbn [sstep] in Hk, Hhu1.
    + destruct (begin_release s hd k x Hk) as [H|H]; [eapply Hold; exact H|apply Hnew; exact H].
    + destruct (deliver s t) as [s' r] eqn:E. cbn [fst] in Hk, Hhu1.
      destruct (release_stamps_refund_height _ _ _ _ _ _ E Hk) as [H|(st0 & Hst0 & -> & ->)]; [eapply Hold; exact H|].
      apply Hnew. cbn [released_by]. exists st0. split; [exact Hst0|]. split; [reflexivity|].
      assert (Hout : st0 ∉ bonded_stakes (work s')).
      { intros Hin. apply hashes_unique_pt in Hhu1 as (_ & _ & U3 & _).
        apply InvStake.elem_of_bonded in Hin as (a & d & Hd & Hin). exact (U3 a d st0 _ _ Hd Hin Hk eq_refl). }
      destruct (release_only_by_owner _ _ _ _ _ E Hst0 Hout)
        as (Hty & Hsig & d & hs & b & s1 & H1 & H2 & H3 & H4 & H5 & H6).
      split; [exact Hty|]. split; [exact Hsig|]. exists d, hs, b, s1. auto 10.
    + apply end_block_frozen_only_deletes in Hk. eapply Hold; exact Hk.
    + eapply Hold; exact Hk.
  - assert (Hbase : o ≠ SCommit → release_point s0 (ops ++ [o]) x).
    { intros Ho. rewrite sstep_base in Hk by exact Ho. apply release_point_snoc, (IH k x). right. exact Hk. }
    destruct o as [hd|t| |]; [apply Hbase; discriminate..|].
    cbn [sstep] in Hk. rewrite InvPanic.base_of_commit in Hk. eapply Hold; exact Hk.
Qed.

Lemma init_chain_base_frozen g : frozen (base_of (init_chain g)) = ∅.
Proof. reflexivity. Qed.

(* every payout of a run from a genesis with at most one validator and fresh staking hashes has
   matured, and was released earlier in the run *)
Theorem payout_never_early_gen g ops h st :
  (length (gen_validators g) ≤ 1)%nat → hashes_fresh ops →
  (h, st) ∈ payouts (init_chain g) ops →
  s_refund st ≤ h ∧
  ∃ pre o mid post,
    ops = pre ++ o :: mid ++ SEnd :: post ∧
    released_by (srun (init_chain g) pre) o st ∧
    (h, st) ∈ payouts1 (srun (init_chain g) (pre ++ o :: mid)) SEnd ∧
    h = b_height (bctx (srun (init_chain g) (pre ++ o :: mid))) ∧
    (∃ ups, (end_block (srun (init_chain g) (pre ++ o :: mid))).2 = Ok ups).
Proof.
  intros Hlen Hfresh Hp.
  destruct (payouts_elem _ _ _ Hp) as (pre1 & post & -> & Hp1).
  destruct (payouts1_elem _ _ Hp1) as (Hok & Hh & k & Hk & Hle). cbn [fst snd] in *.
  split; [lia|].
  pose proof (fresh_run_reachable g _ Hfresh) as Hf.
  destruct (frozen_origin (init_chain g) pre1 (proj1 (init_chain_frozen g)) (init_chain_base_frozen g)) with (k := k) (x := st)
    as (pre & o & mid & -> & Hrel).
  - intros p Hpre. apply hashes_unique_reachable; [exact Hlen|].
    destruct Hpre as [q ->]. rewrite <- app_assoc in Hf. eapply fresh_run_prefix. exact Hf.
  - right. exact Hk.
  - exists pre, o, mid, post. split; [rewrite <- app_assoc; reflexivity|]. split; [exact Hrel|].
    split; [exact Hp1|]. split; assumption.
Qed.
Print Assumptions payout_never_early_gen.

(* under the hypotheses of C02_closed_total, with the ranges: the period is non-negative, so the
   release is not after the payout; the paid power is in the int64 range, so the paid amount is
   exactly amountPerPower x the power the stake had at release *)
Theorem payout_never_early_and_in_full g ops h st :
  genesis_ok g → InvPanic.bracketed InvPanic.Idle 0 ops → hashes_fresh ops → txs_ok ops →
  supply (work (init_chain g)) + requested ops < supply_bound →
  (h, st) ∈ payouts (init_chain g) ops →
  s_refund st ≤ h ∧
  ∃ pre o mid post,
    ops = pre ++ o :: mid ++ SEnd :: post ∧
    let s := srun (init_chain g) pre in
    let s1 := srun (init_chain g) (pre ++ o :: mid) in
    released_by s o st ∧
    s_refund st = release_height_of s o + g_lazyRewardBlocks (gparams s) ∧
    0 ≤ g_lazyRewardBlocks (gparams s) ∧ release_height_of s o ≤ h ∧
    h = b_height (bctx s1) ∧ (∃ ups, (end_block s1).2 = Ok ups) ∧
    0 ≤ s_power st < two63 ∧ power_to_amount (s_power st) = amountPerPower * s_power st.
Proof.
  intros Hg Hbr Hfresh Htx Hb Hp. pose proof Hg as (_ & Hlen & _).
  destruct (payout_never_early_gen g ops h st Hlen Hfresh Hp) as (Hle & pre & o & mid & post & E & Hrel & _ & Hh & Hok).
  split; [exact Hle|]. exists pre, o, mid, post. split; [exact E|]. cbv zeta.
  pose proof (run_ok_reachable g ops Hg (fresh_run_reachable g ops Hfresh) (bracketed_opts_ok _ _ _ Hbr) pre
                ltac:(exists (o :: mid ++ SEnd :: post); exact E)) as (_ & _ & Hpw & Hpar).
  pose proof (released_by_refund _ _ _ Hrel) as Hr.
  assert (Hlz : 0 ≤ g_lazyRewardBlocks (gparams (srun (init_chain g) pre))) by (destruct Hpar as (_&_&_&_&_&_&_&H&_); lia).
  destruct (released_by_source _ _ _ Hrel) as (st0 & Hin0 & _ & Hcut).
  assert (Hp0 : 0 ≤ s_power st0 < two63) by (apply Hpw; apply elem_of_app; left; exact Hin0).
  assert (Hpst : 0 ≤ s_power st < two63).
  { assert (0 ≤ s_power st ≤ s_power st0); [|lia]. apply Hcut; [|lia]. destruct Hpar as (_&_&_&H&_). exact H. }
  split; [exact Hrel|]. split; [exact Hr|]. split; [exact Hlz|]. split; [lia|]. split; [exact Hh|]. split; [exact Hok|].
  split; [exact Hpst|]. rewrite power_to_amount_exact by exact Hpst. lia.
Qed.
Print Assumptions payout_never_early_and_in_full.

(* ================================================================== 4. only to the owner *)

(* where a stake comes from: the genesis document (validator [v]: owner = target = v, hash 0, start
   height 1), or a correctly signed staking transaction of the run, whose sender is the owner, whose
   receiver is the target and whose hash is the stake's hash; the stake starts at the next height *)
Definition born (g : genesis) (ops : list sop) (x : stake) : Prop :=
  (∃ v, v ∈ gen_validators g ∧ s_from x = v.1 ∧ s_to x = v.1 ∧ s_hash x = 0%N ∧ s_start x = 1) ∨
  (∃ pre t post, ops = pre ++ SDeliver t :: post ∧ t_type t = TRX_STAKING ∧ t_sigok t = true ∧
     s_from x = t_from t ∧ s_to x = t_to t ∧ s_hash x = t_hash t ∧
     s_start x = b_height (bctx (srun (init_chain g) pre)) + 1).

Lemma born_id g ops x y : same_id x y → born g ops x → born g ops y.
Proof.
  intros (H1 & H2 & H3 & H4) [(v & Hv & A & B & C & D)|(pre & t & post & E & Hty & Hsig & A & B & C & D)].
  - left. exists v. split; [exact Hv|]. repeat split; congruence.
  - right. exists pre, t, post. split; [exact E|]. split; [exact Hty|]. split; [exact Hsig|]. repeat split; congruence.
Qed.

Lemma born_app g ops more x : born g ops x → born g (ops ++ more) x.
Proof.
  intros [H|(pre & t & post & -> & H)]; [left; exact H|].
  right. exists pre, t, (post ++ more). split; [rewrite <- app_assoc; reflexivity|exact H].
Qed.

Lemma fold_ins_lookup (f : addr * Z → delegatee) vs : ∀ (m : gmap addr delegatee) a d,
  foldl (λ m v, <[v.1 := f v]> m) m vs !! a = Some d → m !! a = Some d ∨ ∃ v, v ∈ vs ∧ a = v.1 ∧ d = f v.
Proof.
  induction vs as [|v vs IH]; intros m a d; cbn [foldl]; [auto|].
  intros H. destruct (IH _ _ _ H) as [H'|(w & Hw & -> & ->)].
  - apply lookup_insert_Some in H' as [[<- <-]|[_ H']]; [|left; exact H'].
    right. exists v. split; [left|]. split; reflexivity.
  - right. exists w. split; [right; exact Hw|]. split; reflexivity.
Qed.

Lemma init_chain_bonded g st : st ∈ bonded_stakes (work (init_chain g)) →
  ∃ v, v ∈ gen_validators g ∧ st = genesis_stake v.
Proof.
  intros Hst. apply InvStake.elem_of_bonded in Hst as (a & d & Hd & Hin). rewrite init_chain_dels in Hd.
  apply fold_ins_lookup in Hd as [Hd|(v & Hv & -> & ->)]; [rewrite lookup_empty in Hd; discriminate|].
  exists v. split; [exact Hv|]. unfold gdel in Hin. cbn in Hin. apply elem_of_list_singleton in Hin. exact Hin.
Qed.

Lemma bonded_born g ops : ∀ st, st ∈ bonded_stakes (work (srun (init_chain g) ops)) → born g ops st.
Proof.
  induction ops as [|o ops IH] using rev_ind; intros st Hst.
  { cbn in Hst. apply init_chain_bonded in Hst as (v & Hv & ->). left. exists v. split; [exact Hv|]. repeat split. }
  rewrite srun_snoc in Hst. set (s := srun (init_chain g) ops) in *.
  assert (Hev : ∀ (Q : stake → stake → Prop) R l', (∀ x y, Q x y → same_id x y) → evolves Q R (work s) l' →
                  st ∈ bonded_stakes l' → born g (ops ++ [o]) st).
  { intros Q R l' HQ Hev Hin. destruct (evolves_bonded _ _ _ _ _ Hev Hin) as (s0 & Hs0 & Hq).
    apply (born_id g _ s0 st (HQ _ _ Hq)), born_app, IH, Hs0. }
  assert (Heq : ∀ x y : stake, x = y → same_id x y) by (intros x y ->; repeat split).
  destruct o as [hd|t| |]; cbn [sstep] in Hst.
  - apply (Hev stake_sim _ _ ltac:(intros x y (H1 & H2 & H3 & H4 & _); repeat split; assumption) (begin_block_evolves s hd) Hst).
  - destruct (deliver_bonded s t st Hst) as [Hold|(Hty & Hsig & ->)]; [apply born_app, IH, Hold|].
    right. exists ops, t, []. split; [reflexivity|]. split; [exact Hty|]. split; [exact Hsig|]. repeat split.
  - exact (Hev eq 0 _ Heq (end_block_evolves s 0) Hst).
  - apply born_app. apply IH. exact Hst.
Qed.

(* the account a payout is credited to is the owner recorded in the stake, and that owner is the
   sender of the correctly signed staking transaction of the run that created the stake with this
   hash (or the genesis validator, for the genesis stake).  Creation, release and payout come in this
   order in the run. *)
Theorem payout_only_to_owner_gen g ops h st :
  (length (gen_validators g) ≤ 1)%nat → hashes_fresh ops →
  (h, st) ∈ payouts (init_chain g) ops →
  ∃ pre o mid post,
    ops = pre ++ o :: mid ++ SEnd :: post ∧
    let s0 := srun (init_chain g) pre in
    let s := srun (init_chain g) (pre ++ o :: mid) in
    (* the EndBlock that pays credits exactly the owners of its payouts *)
    (h, st) ∈ payouts1 s SEnd ∧
    (∃ ups, (end_block s).2 = Ok ups) ∧
    (∀ a, acct_of (work (end_block s).1) a = foldl credit (fee_credited s a) (paid_to a (payouts1 s SEnd))) ∧
    (∀ a, (h, st) ∈ owned_by a (payouts1 s SEnd) ↔ a = s_from st) ∧
    (* the owner is the owner at release ... *)
    released_by s0 o st ∧
    (* ... and is who created the stake, before the release *)
    born g pre st.
Proof.
  intros Hlen Hfresh Hp.
  destruct (payout_never_early_gen g ops h st Hlen Hfresh Hp)
    as (_ & pre & o & mid & post & -> & Hrel & Hin & Hh & (ups & Hok)).
  exists pre, o, mid, post. split; [reflexivity|]. cbv zeta.
  set (s := srun (init_chain g) (pre ++ o :: mid)) in *.
  split; [exact Hin|]. split; [exists ups; exact Hok|].
  destruct (end_block s) as [s' r] eqn:E. cbn [snd fst] in *. subst r.
  split; [intros a; apply (payout_link s s' ups a E)|]. split.
  - intros a. rewrite owned_by_elem. cbn [snd]. split; [intros [_ H]; symmetry; exact H|intros ->; split; [exact Hin|reflexivity]].
  - split; [exact Hrel|]. destruct (released_by_source _ _ _ Hrel) as (st0 & Hin0 & Hid & _).
    apply (born_id g pre st0 st Hid). apply bonded_born. exact Hin0.
Qed.
Print Assumptions payout_only_to_owner_gen.

Theorem payout_only_to_owner g ops h st :
  genesis_ok g → InvPanic.bracketed InvPanic.Idle 0 ops → hashes_fresh ops → txs_ok ops →
  supply (work (init_chain g)) + requested ops < supply_bound →
  (h, st) ∈ payouts (init_chain g) ops →
  ∃ pre o mid post,
    ops = pre ++ o :: mid ++ SEnd :: post ∧
    let s0 := srun (init_chain g) pre in
    let s := srun (init_chain g) (pre ++ o :: mid) in
    (h, st) ∈ payouts1 s SEnd ∧
    (∃ ups, (end_block s).2 = Ok ups) ∧
    (∀ a, acct_of (work (end_block s).1) a = foldl credit (fee_credited s a) (paid_to a (payouts1 s SEnd))) ∧
    (∀ a, (h, st) ∈ owned_by a (payouts1 s SEnd) ↔ a = s_from st) ∧
    released_by s0 o st ∧
    born g pre st.
Proof. intros (_ & Hlen & _) _ Hh _ _. apply payout_only_to_owner_gen; assumption. Qed.
Print Assumptions payout_only_to_owner.

(* ================================================================== 5. the history statement, balance side *)

(* ---- ranges: in a closed run the refund loop never wraps a balance *)
Lemma sstep_feesum s o : 0 ≤ b_feesum (bctx s) < two256 → 0 ≤ b_feesum (bctx (sstep s o)) < two256.
Proof.
  intros H. destruct o as [hd|t| |]; cbn [sstep].
  - destruct (begin_block s hd) as [s' r] eqn:E.
    destruct (SpecFacts.begin_block_control _ _ _ _ E) as [->|(_ & l & ->)]; [exact H|pose proof two256_pos; cbn; lia].
  - destruct (deliver s t) as [s' r] eqn:E. cbn [fst]. rewrite (deliver_feesum _ _ _ _ E).
    destruct r; [exact (wrap256_range _)|exact H|exact H].
  - destruct (end_block s) as [s' r] eqn:E. cbn [fst].
    apply end_block_cases in E. destruct E; exact H.
  - exact H.
Qed.

Lemma feesum_run ops : ∀ s, 0 ≤ b_feesum (bctx s) < two256 → 0 ≤ b_feesum (bctx (srun s ops)) < two256.
Proof.
  unfold srun. induction ops as [|o ops IH]; intros s H; cbn [foldl]; [exact H|]. apply IH, sstep_feesum, H.
Qed.

Lemma committed_last g ops :
  last (committed (srun (init_chain g) ops)) = None ∨
  ∃ pre, pre `prefix_of` ops ∧ last (committed (srun (init_chain g) ops)) = Some (work (srun (init_chain g) pre)).
Proof.
  induction ops as [|o ops IH] using rev_ind; [left; reflexivity|].
  rewrite srun_snoc. destruct (sstep_committed (srun (init_chain g) ops) o) as [E|[_ E]]; rewrite E.
  - destruct IH as [IH|(pre & Hp & IH)]; [left; exact IH|]. right. exists pre. split; [apply prefix_app_r; exact Hp|exact IH].
  - right. exists ops. split; [apply prefix_app_r; reflexivity|]. apply last_snoc.
Qed.

Lemma sumZ_filter_le {A} (f : A → Z) (p : A → bool) (l : list A) :
  (∀ x, x ∈ l → 0 ≤ f x) → 0 ≤ sumZ (f <$> List.filter p l) ≤ sumZ (f <$> l).
Proof.
  induction l as [|x l IH]; intros H; cbn [List.filter fmap list_fmap sumZ]; [lia|].
  assert (0 ≤ f x) by (apply H; left).
  assert (0 ≤ sumZ (f <$> List.filter p l) ≤ sumZ (f <$> l)) by (apply IH; intros y Hy; apply H; right; exact Hy).
  destruct (p x); cbn [fmap list_fmap sumZ]; lia.
Qed.

Definition payout_amount (p : Z * stake) : Z := amountPerPower * s_power p.2.

(* what one EndBlock pays to [a] is at most the whole committed unbonding ledger *)
Lemma paid_sum_le s a :
  (∀ k st, frozen (base_of s) !! k = Some st → 0 ≤ s_power st) →
  0 ≤ sumZ (payout_amount <$> owned_by a ((λ kp : hash * stake, (b_height (bctx s), kp.2)) <$> paid_items s))
    ≤ amountPerPower * frozen_power (base_of s).
Proof.
  intros Hpw. pose proof InvPanic.apP_pos as Hap.
  set (gg := λ kp : hash * stake, (b_height (bctx s), kp.2)).
  assert (Hnn : ∀ kp, kp ∈ sorted_items (frozen (base_of s)) → 0 ≤ (payout_amount ∘ gg) kp).
  { intros [k st] Hin. apply elem_of_sorted_items in Hin. unfold payout_amount, gg. cbn. specialize (Hpw _ _ Hin). apply Z.mul_nonneg_nonneg; lia. }
  assert (H1 : 0 ≤ sumZ (payout_amount <$> owned_by a (gg <$> paid_items s)) ≤ sumZ (payout_amount <$> (gg <$> paid_items s))).
  { unfold owned_by. apply sumZ_filter_le. intros p Hp. apply elem_of_list_fmap in Hp as (kp & -> & Hkp).
    apply Hnn. unfold paid_items in Hkp. apply elem_of_list_In, filter_In in Hkp as [Hkp _]. apply elem_of_list_In. exact Hkp. }
  rewrite <- list_fmap_compose in H1.
  assert (H2 : sumZ (payout_amount ∘ gg <$> paid_items s) ≤ sumZ (payout_amount ∘ gg <$> sorted_items (frozen (base_of s)))).
  { unfold paid_items. apply sumZ_filter_le. exact Hnn. }
  assert (H3 : sumZ (payout_amount ∘ gg <$> sorted_items (frozen (base_of s))) = amountPerPower * frozen_power (base_of s)).
  { rewrite sumZ_fmap, frozen_power_map_sum. unfold map_sum.
    rewrite <- sumZ_with_scale, (sumZ_with_perm _ _ _ (sorted_items_perm _)). reflexivity. }
  lia.
Qed.

Lemma room_numbers : 2 * supply_bound + two255 ≤ two256.
Proof. vm_compute. congruence. Qed.

Lemma supply_bound_pos : 0 < supply_bound.
Proof. apply Z.mul_pos_pos; [apply two63_pos|apply InvPanic.apP_pos]. Qed.

Section closed_run.
  Variables (g : genesis) (ops : list sop).
  Hypothesis Hg : genesis_ok g.
  Hypothesis Hbr : InvPanic.bracketed InvPanic.Idle 0 ops.
  Hypothesis Hfresh : hashes_fresh ops.
  Hypothesis Htx : txs_ok ops.
  Hypothesis Hbound : supply (work (init_chain g)) + requested ops < supply_bound.

  Lemma closed_reach_ok pre post : ops = pre ++ post → reach_ok (srun (init_chain g) pre).
  Proof.
    intros E. apply (closed_run_inputs g ops Hg Hbr Hfresh Htx Hbound) with (post := post). exact E.
  Qed.

  (* the committed unbonding ledger of a state of the run weighs less than the supply bound *)
  Lemma closed_base_frozen pre post : ops = pre ++ post →
    let s := srun (init_chain g) pre in
    (∀ k st, frozen (base_of s) !! k = Some st → 0 ≤ s_power st < two63) ∧
    0 ≤ amountPerPower * frozen_power (base_of s) < supply_bound.
  Proof.
    intros E s. pose proof InvPanic.apP_pos as Hap. unfold base_of.
    destruct (committed_last g pre) as [El|(pre' & [q Hq] & El)]; fold s in El; rewrite El; cbn [default from_option id].
    - split; [intros k st Hk; cbn in Hk; rewrite lookup_empty in Hk; discriminate|].
      unfold frozen_power, frozen_stakes. cbn [frozen empty_ledgers]. rewrite map_to_list_empty. cbn.
      pose proof supply_bound_pos. lia.
    - assert (E' : ops = pre' ++ (q ++ post)) by (rewrite E, Hq, <- app_assoc; reflexivity).
      destruct (closed_reach_ok pre' _ E') as (_ & Hbal & Hpw & Hsup).
      set (l := work (srun (init_chain g) pre')) in *.
      split; [apply (powers_ok_parts l Hpw)|].
      destruct (supply_parts_nonneg l Hbal Hpw) as (HT & HB & HF).
      unfold supply in Hsup. unfold supply_bound. rewrite Z.mul_add_distr_l in Hsup.
      assert (0 ≤ amountPerPower * bonded_power l) by (apply Z.mul_nonneg_nonneg; lia).
      assert (0 ≤ amountPerPower * frozen_power l) by (apply Z.mul_nonneg_nonneg; lia).
      lia.
  Qed.

  (* one successful EndBlock of the run, exactly: balance after = balance with the proposer's fee
     credit + amountPerPower x power over the payouts owned by [a] -- over Z, nothing wraps *)
  Lemma payout_step_exact pre post a s' ups :
    ops = pre ++ SEnd :: post →
    let s := srun (init_chain g) pre in
    end_block s = (s', Ok ups) →
    bal_of (work s') a = a_bal (fee_credited s a) + sumZ (payout_amount <$> owned_by a (payouts1 s SEnd)).
  Proof.
    intros E s Eend.
    destruct (closed_base_frozen pre _ E) as [Hpw Hfp]. fold s in Hpw, Hfp.
    destruct (closed_state_facts_along g ops Hg Hbr Hfresh Htx Hbound pre _ E) as (_ & _ & _ & Hsmall). fold s in Hsmall.
    assert (Hfs : 0 ≤ b_feesum (bctx s) < two256).
    { apply feesum_run. cbn. pose proof two256_pos. lia. }
    assert (Hbal : 0 ≤ bal_of (work s) a < supply_bound).
    { unfold bal_of, acct_of. destruct (accts (work s) !! a) as [x|] eqn:Ex; cbn [default]; [apply (Hsmall a x Ex)|].
      cbn. pose proof supply_bound_pos. lia. }
    pose proof room_numbers as Hroom. pose proof two256_pos as H256. pose proof supply_bound_lt as [Hsb _].
    assert (Hx : 0 ≤ a_bal (fee_credited s a) < supply_bound + two255).
    { unfold fee_credited. fold (bal_of (work s) a) in *.
      destruct (b_proposer (bctx s)) as [pa|]; [|unfold bal_of in Hbal; lia].
      destruct (decide (pa = a)); [|unfold bal_of in Hbal; lia].
      destruct (0 <? sign256 (b_feesum (bctx s))) eqn:Efee; [|unfold bal_of in Hbal; lia].
      apply (sign256_pos _ (proj1 Hfs)) in Efee. cbn [credit a_bal]. unfold add256, wrap256. unfold bal_of in Hbal.
      rewrite Z.mod_small by lia. lia. }
    destruct (payout_link s s' ups a Eend) as (E1 & _ & _).
    pose proof (paid_sum_le s a ltac:(intros k st Hk; apply (Hpw k st Hk))) as HS. rewrite <- E1 in HS.
    rewrite (payout_link_balance s s' ups a Eend Hpw) by lia.
    fold payout_amount. apply Z.mod_small. lia.
  Qed.
End closed_run.

(* what the unbonding ledger adds to the balance of [a] along a run: at every EndBlock that answers,
   the balance after it minus the balance it starts the refund loop with *)
Definition unbond_gain1 (a : addr) (s : state) (o : sop) : Z :=
  match o with
  | SEnd => match (end_block s).2 with
            | Ok _ => bal_of (work (end_block s).1) a - a_bal (fee_credited s a)
            | _ => 0
            end
  | _ => 0
  end.
Fixpoint unbond_gain (a : addr) (s : state) (ops : list sop) : Z :=
  match ops with [] => 0 | o :: r => unbond_gain1 a s o + unbond_gain a (sstep s o) r end.

Lemma owned_by_app a l k : owned_by a (l ++ k) = owned_by a l ++ owned_by a k.
Proof. unfold owned_by. apply List.filter_app. Qed.

Lemma unbond_gain_payouts g ops a :
  genesis_ok g → InvPanic.bracketed InvPanic.Idle 0 ops → hashes_fresh ops → txs_ok ops →
  supply (work (init_chain g)) + requested ops < supply_bound →
  ∀ post pre, ops = pre ++ post →
    unbond_gain a (srun (init_chain g) pre) post =
    sumZ (payout_amount <$> owned_by a (payouts (srun (init_chain g) pre) post)).
Proof.
  intros Hg Hbr Hfresh Htx Hb. induction post as [|o r IH]; intros pre E; [reflexivity|].
  cbn [unbond_gain payouts]. rewrite owned_by_app, fmap_app, sumZ_app.
  assert (E' : ops = (pre ++ [o]) ++ r) by (rewrite <- app_assoc; exact E).
  specialize (IH _ E'). rewrite srun_snoc in IH. rewrite IH. f_equal.
  destruct o as [hd|t| |]; try reflexivity.
  cbn [unbond_gain1 payouts1]. destruct (end_block (srun (init_chain g) pre)) as [s' res] eqn:Eend.
  destruct res as [ups|e|pn]; try reflexivity. cbn [fst snd].
  rewrite (payout_step_exact g ops Hg Hbr Hfresh Htx Hb pre r a s' ups E Eend).
  unfold payouts1. rewrite Eend. cbn [snd]. lia.
Qed.

(* C12 over histories, balance side.  For every account [a], along a run from a well-formed genesis
   under input-only hypotheses: the payouts owned by [a] carry pairwise distinct stake hashes, each
   has matured, and the total the unbonding ledger adds to the balance of [a] is exactly
   amountPerPower x power summed over them -- i.e. over the finite map from the DISTINCT matured
   stake hashes [a] owns to the stakes, each counted once. *)
Theorem C12_history g ops a :
  genesis_ok g → InvPanic.bracketed InvPanic.Idle 0 ops → hashes_fresh ops → txs_ok ops →
  supply (work (init_chain g)) + requested ops < supply_bound →
  let P := owned_by a (payouts (init_chain g) ops) in
  NoDup ((λ p : Z * stake, s_hash p.2) <$> P) ∧
  (∀ p, p ∈ P → s_from p.2 = a ∧ s_refund p.2 ≤ p.1) ∧
  unbond_gain a (init_chain g) ops = sumZ ((λ p : Z * stake, amountPerPower * s_power p.2) <$> P) ∧
  ∃ M : gmap hash stake,
    (∀ k st, M !! k = Some st ↔ s_hash st = k ∧ ∃ h, (h, st) ∈ P) ∧
    unbond_gain a (init_chain g) ops =
      sumZ ((λ kv : hash * stake, amountPerPower * s_power kv.2) <$> map_to_list M).
Proof.
  intros Hg Hbr Hfresh Htx Hb P.
  assert (Hnd : NoDup (payout_hash <$> P)).
  { unfold P, owned_by. apply InvSlash.NoDup_map_filter. apply (payout_at_most_once g ops Hg Hbr Hfresh Htx Hb). }
  assert (Hgain : unbond_gain a (init_chain g) ops = sumZ (payout_amount <$> P)).
  { apply (unbond_gain_payouts g ops a Hg Hbr Hfresh Htx Hb ops []). reflexivity. }
  split; [exact Hnd|]. split; [|split; [exact Hgain|]].
  - intros [h st] Hp. apply owned_by_elem in Hp as [Hp Ha]. split; [exact Ha|].
    destruct (payouts_elem _ _ _ Hp) as (pre & post & _ & Hp1).
    destruct (payouts1_elem _ _ Hp1) as (_ & Hh & k & _ & Hle). cbn [fst snd] in *. lia.
  - set (L := (λ p : Z * stake, (s_hash p.2, p.2)) <$> P).
    assert (HL1 : L.*1 = payout_hash <$> P) by (unfold L; rewrite <- list_fmap_compose; reflexivity).
    assert (HndL : NoDup L.*1) by (rewrite HL1; exact Hnd).
    exists (list_to_map L). split.
    + intros k st. rewrite <- (elem_of_list_to_map L k st HndL). unfold L. rewrite elem_of_list_fmap. split.
      * intros ([h st'] & [= -> ->] & Hin). split; [reflexivity|]. exists h. exact Hin.
      * intros (<- & h & Hin). exists (h, st). split; [reflexivity|exact Hin].
    + rewrite Hgain, !sumZ_fmap, (sumZ_with_perm _ _ _ (map_to_list_to_map L HndL)).
      unfold L. rewrite sumZ_with_fmap. reflexivity.
Qed.
Print Assumptions C12_history.

(* ================================================================== 6. the statements are not vacuous *)
(* InvSupply's example chain: account 3 delegates power 20 to validator 11 in block 1 (transaction
   hash 102), releases it in block 2 (period 1), and is refunded by the EndBlock of block 3 *)
Definition hx_refunded : stake :=
  {| s_from := 3%N; s_to := 11%N; s_hash := 102%N; s_start := 2; s_refund := 3; s_power := 20 |}.

Lemma hx_payouts : payouts (init_chain hx_genesis) hx_ops = [(3, hx_refunded)].
Proof. vm_compute. reflexivity. Qed.

Example payouts_example :
  (* the input-only hypotheses hold *)
  genesis_ok hx_genesis ∧ InvPanic.bracketed InvPanic.Idle 0 hx_ops ∧ hashes_fresh hx_ops ∧ txs_ok hx_ops ∧
  supply (work (init_chain hx_genesis)) + requested hx_ops < supply_bound ∧
  (* the run pays exactly one stake, at height 3 *)
  payouts (init_chain hx_genesis) hx_ops = [(3, hx_refunded)] ∧
  (* 2: once *)
  NoDup ((λ p : Z * stake, s_hash p.2) <$> payouts (init_chain hx_genesis) hx_ops) ∧
  (* 3 and 4: matured, released earlier by an operation of the run, created by a signed staking
     transaction of its owner before that *)
  (∃ pre o mid post,
     hx_ops = pre ++ o :: mid ++ SEnd :: post ∧
     released_by (srun (init_chain hx_genesis) pre) o hx_refunded ∧
     s_refund hx_refunded =
       release_height_of (srun (init_chain hx_genesis) pre) o + g_lazyRewardBlocks (gparams (srun (init_chain hx_genesis) pre)) ∧
     release_height_of (srun (init_chain hx_genesis) pre) o ≤ 3 ∧
     born hx_genesis pre hx_refunded) ∧
  (* 5: account 3 receives 20 x 10^18 from the unbonding ledger over the run, the validator nothing *)
  unbond_gain 3%N (init_chain hx_genesis) hx_ops = 20 * amountPerPower ∧
  unbond_gain 11%N (init_chain hx_genesis) hx_ops = 0.
Proof.
  pose proof hx_bound_requested as Hb. pose proof hx_payouts as HP.
  assert (Hin : (3, hx_refunded) ∈ payouts (init_chain hx_genesis) hx_ops) by (rewrite HP; left).
  split; [exact hx_genesis_ok|]. split; [exact hx_bracketed|]. split; [exact hx_hashes_fresh|].
  split; [exact hx_txs_ok|]. split; [exact Hb|]. split; [exact HP|].
  split; [exact (payout_at_most_once _ _ hx_genesis_ok hx_bracketed hx_hashes_fresh hx_txs_ok Hb)|].
  split.
  - destruct (payout_never_early_and_in_full _ _ _ _ hx_genesis_ok hx_bracketed hx_hashes_fresh hx_txs_ok Hb Hin)
      as (_ & pre & o & mid & post & E & Hrel & Hr & _ & Hle & _). cbv zeta in *.
    exists pre, o, mid, post. split; [exact E|]. split; [exact Hrel|]. split; [exact Hr|]. split; [exact Hle|].
    destruct (released_by_source _ _ _ Hrel) as (st0 & Hin0 & Hid & _).
    apply (born_id _ pre st0 _ Hid). apply bonded_born. exact Hin0.
  - assert (Hgain : ∀ a, unbond_gain a (init_chain hx_genesis) hx_ops =
              sumZ ((λ p : Z * stake, amountPerPower * s_power p.2) <$> owned_by a [(3, hx_refunded)])).
    { intros a. rewrite <- HP. apply (C12_history hx_genesis hx_ops a hx_genesis_ok hx_bracketed hx_hashes_fresh hx_txs_ok Hb). }
    split; rewrite Hgain; reflexivity.
Qed.

(* the same list computed through the theorem: C12_history's map for account 3 has the single key 102 *)
Example C12_history_example :
  ∃ M : gmap hash stake,
    (∀ k st, M !! k = Some st ↔ s_hash st = k ∧ ∃ h, (h, st) ∈ owned_by 3%N (payouts (init_chain hx_genesis) hx_ops)) ∧
    M !! 102%N = Some hx_refunded ∧
    unbond_gain 3%N (init_chain hx_genesis) hx_ops =
      sumZ ((λ kv : hash * stake, amountPerPower * s_power kv.2) <$> map_to_list M).
Proof.
  pose proof hx_bound_requested as Hb.
  destruct (C12_history hx_genesis hx_ops 3%N hx_genesis_ok hx_bracketed hx_hashes_fresh hx_txs_ok Hb)
    as (_ & _ & _ & M & HM & Hsum).
  exists M. split; [exact HM|]. split; [|exact Hsum].
  apply HM. split; [reflexivity|]. exists 3.
  rewrite hx_payouts. cbn. left.
Qed.

(* ================================================================== 7. why [genesis_ok] asks for at most one validator *)
(* All genesis stakes carry hash 0.  With two genesis validators that release their genesis stakes one
   after the other, both stakes are paid -- each once, each to its owner -- but under the same hash:
   "no stake HASH is paid twice" fails, for the documented reason (C11_collision_refuted), and for no
   other: every other hypothesis of [payout_at_most_once] holds on this run. *)
Definition two_val_ops : list sop :=
  [SBegin (ex_header 1); SDeliver (ex_unstake 1%N 0%N 0 101%N); SEnd; SCommit;
   SBegin (ex_header 2); SEnd; SCommit;
   SBegin (ex_header 3); SEnd; SCommit;
   SBegin (ex_header 4); SDeliver (ex_unstake 2%N 0%N 0 102%N); SEnd; SCommit;
   SBegin (ex_header 5); SEnd; SCommit;
   SBegin (ex_header 6); SEnd; SCommit].

Theorem payout_at_most_once_two_validators_refuted : ∃ g ops,
  length (gen_validators g) = 2%nat ∧ params_ok (gen_params g) ∧
  Forall (λ v : addr * Z, 0 ≤ v.2 < two63) (gen_validators g) ∧
  Forall (λ h : addr * Z, 0 ≤ h.2 < two256) (gen_holders g) ∧
  InvPanic.bracketed InvPanic.Idle 0 ops ∧ hashes_fresh ops ∧ txs_ok ops ∧
  supply (work (init_chain g)) + requested ops < supply_bound ∧
  all_ok (init_chain g) ops = true ∧
  payouts (init_chain g) ops =
    [(3, with_refund 3 (genesis_stake (1%N, 10))); (6, with_refund 6 (genesis_stake (2%N, 10)))] ∧
  ¬ NoDup ((λ p : Z * stake, s_hash p.2) <$> payouts (init_chain g) ops).
Proof.
  exists collision_genesis, two_val_ops.
  assert (HP : payouts (init_chain collision_genesis) two_val_ops =
    [(3, with_refund 3 (genesis_stake (1%N, 10))); (6, with_refund 6 (genesis_stake (2%N, 10)))]) by (vm_compute; reflexivity).
  split; [reflexivity|]. split; [zclosed|].
  split; [repeat apply Forall_cons_2; try apply Forall_nil_2; zclosed|].
  split; [repeat apply Forall_cons_2; try apply Forall_nil_2; zclosed|].
  split.
  { unfold two_val_ops. cbn [InvPanic.bracketed].
    repeat match goal with
    | |- _ ∧ _ => split
    | |- InvPanic.tx_ok _ => split; [zclosed|split; [intros _; eexists _, _; reflexivity|split; exact I]]
    | |- _ = _ => reflexivity
    | |- _ → _ => let H := fresh in intros H; first [lia|exfalso; apply H; reflexivity]
    | |- True => exact I
    end. }
  split. { unfold hashes_fresh. replace (stake_hashes two_val_ops) with (@nil hash) by reflexivity. apply NoDup_singleton. }
  split.
  { unfold txs_ok, two_val_ops. repeat apply Forall_cons_2; try exact I; try apply Forall_nil_2;
      (split; [zclosed|split; [|reflexivity]]); intros req Hty Hp; discriminate Hty. }
  split; [vm_compute; reflexivity|]. split; [vm_compute; reflexivity|]. split; [exact HP|].
  rewrite HP. cbn. intros Hnd. apply NoDup_cons in Hnd as [Hnin _]. apply Hnin. left.
Qed.
Print Assumptions payout_at_most_once_two_validators_refuted.
