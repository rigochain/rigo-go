(* InvNonce.v — property C04: nonces order the transactions of an account; a signed transaction
   takes effect at most once.
   Main results:
     deliver_ok_nonce (InvFail)    success only if t_nonce = the sender's current nonce
     deliver_ok_nonce_step         native path: sender's nonce + 1 (mod 2^64), no other nonce moves
     deliver_ok_nonce_evm / deliver_ok_nonce_step_evm
                                   EVM path: the new nonces are those of the observed effect
     deliver_not_ok_nonce / deliver_fail_nonce
                                   a delivery that does not succeed changes no nonce (no hypotheses)
     begin_block_nonce, end_block_nonce, commit_nonce
     nonce_used_once               in any history a (sender, nonce) pair succeeds at most once
     nonce_used_once_native        the same, state-independent hypotheses for contract-free runs *)
From Rigo Require Import Base.
From stdpp Require Import gmap sorting.
From Rigo Require Import Spec SpecProps SpecFacts InvFail.
From Rigo Require InvStake.
Local Open Scope Z_scope.

Lemma nonce_succ_gt n : n < two64 - 1 → n < (n + 1) mod two64.
Proof.
  intros H. destruct (Z_lt_le_dec n (-1)) as [Hn|Hn].
  - pose proof (Z.mod_pos_bound (n + 1) two64 eq_refl). lia.
  - rewrite Z.mod_small; lia.
Qed.

Local Opaque two256 two255 two64 two63.

(* ------------------------------------------------------------------ nonce and code marker of every address *)
(* Native operations change accounts only through AddBalance / SubBalance / SetDoc; none of them
   touches the nonce or the code marker.  Both are tracked together: the code marker decides
   whether a transfer takes the EVM path. *)
Definition nc (x : account) : Z * bool := (a_nonce x, a_code x).
Definition nc_of (l : ledgers) (a : addr) : Z * bool := nc (acct_of l a).
Definition nc_eq (l l' : ledgers) : Prop := ∀ a, nc_of l a = nc_of l' a.

Lemma nc_eq_refl l : nc_eq l l.
Proof. intros a. reflexivity. Qed.
Lemma nc_eq_trans l1 l2 l3 : nc_eq l1 l2 → nc_eq l2 l3 → nc_eq l1 l3.
Proof. intros H1 H2 a. rewrite H1. apply H2. Qed.
Lemma nc_eq_sym l1 l2 : nc_eq l1 l2 → nc_eq l2 l1.
Proof. intros H a. symmetry. apply H. Qed.

Lemma nc_eq_nonce l l' a : nc_eq l l' → nonce_of l' a = nonce_of l a.
Proof. intros H. specialize (H a). unfold nc_of, nc in H. unfold nonce_of. congruence. Qed.
Lemma nc_eq_code l l' a : nc_eq l l' → a_code (acct_of l' a) = a_code (acct_of l a).
Proof. intros H. specialize (H a). unfold nc_of, nc in H. congruence. Qed.

Lemma nc_eq_accts l l' : accts l' = accts l → nc_eq l l'.
Proof. intros H a. unfold nc_of, acct_of. rewrite H. reflexivity. Qed.

Lemma nc_eq_set_acct l a x : nc x = nc_of l a → nc_eq l (set_acct l a x).
Proof.
  intros H b. unfold nc_of. rewrite acct_of_set_acct. destruct (decide (a = b)) as [<-|_]; [|reflexivity].
  symmetry. exact H.
Qed.

Lemma nc_eq_set_acct_at l a x x' : accts l !! a = Some x → nc x' = nc x → nc_eq l (set_acct l a x').
Proof. intros Hx H. apply nc_eq_set_acct. unfold nc_of. rewrite (acct_of_lookup _ _ _ Hx). exact H. Qed.

Lemma nc_add_balance x amt x' : add_balance x amt = Some x' → nc x' = nc x.
Proof. unfold add_balance. destruct (sign256 amt <? 0); [discriminate|]. intros [= <-]. reflexivity. Qed.
Lemma nc_sub_balance x amt x' : sub_balance x amt = Some x' → nc x' = nc x.
Proof.
  unfold sub_balance. destruct (sign256 amt <? 0); [discriminate|].
  destruct (a_bal x <? amt); [discriminate|]. intros [= <-]. reflexivity.
Qed.

Lemma nc_eq_find_or_new l a : nc_eq l (find_or_new l a).1.
Proof. intros b. unfold nc_of. rewrite find_or_new_acct_of. reflexivity. Qed.

Lemma nc_eq_acct_reward l a amt l' : acct_reward l a amt = Some l' → nc_eq l l'.
Proof.
  unfold acct_reward. intros H.
  destruct (accts l !! a) as [x|] eqn:Ex; [|discriminate]. cbn in H.
  destruct (add_balance x amt) as [x'|] eqn:Ea; [|discriminate]. cbn in H. injection H as <-.
  exact (nc_eq_set_acct_at _ _ _ _ Ex (nc_add_balance _ _ _ Ea)).
Qed.

(* ------------------------------------------------------------------ native execution *)
Lemma nc_eq_acct_execute l t l' : acct_execute l t = Ok l' → nc_eq l l'.
Proof.
  unfold acct_execute. intros H.
  destruct (accts l !! t_from t) as [sender|] eqn:Es; [|discriminate].
  destruct (accts l !! t_to t) as [receiver|] eqn:Er; [|discriminate].
  destruct (t_type t =? TRX_TRANSFER).
  - destruct (sub_balance sender (t_amount t)) as [sender'|] eqn:Esb; [|discriminate].
    apply nc_sub_balance in Esb.
    destruct (add_balance (if (t_from t =? t_to t)%N then sender' else receiver) (t_amount t)) as [recv'|] eqn:Eab;
      [|discriminate].
    apply nc_add_balance in Eab. injection H as <-.
    eapply nc_eq_trans; [exact (nc_eq_set_acct_at _ _ _ _ Es Esb)|apply nc_eq_set_acct].
    rewrite Eab. unfold nc_of. rewrite acct_of_set_acct.
    destruct (t_from t =? t_to t)%N eqn:Eft.
    + apply N.eqb_eq in Eft. rewrite decide_True by exact Eft. reflexivity.
    + apply N.eqb_neq in Eft. rewrite decide_False by exact Eft. rewrite (acct_of_lookup _ _ _ Er). reflexivity.
  - destruct (t_payload t); try discriminate. injection H as <-.
    apply (nc_eq_set_acct_at _ _ _ _ Es). reflexivity.
Qed.

Lemma nc_eq_stake_execute s l t l' : stake_execute s l t = Ok l' → nc_eq l l'.
Proof.
  intros H. destruct (InvStake.stake_execute_cases _ _ _ _ H)
    as [(_ & d & x & x' & _ & Hx & Hb & ->)|[(_ & d & hs & b & s0 & _ & _ & _ & _ & ->)
       |(_ & _ & req & r & r' & x & x' & _ & _ & Hx & Hb & ->)]].
  - exact (nc_eq_trans _ _ _ (nc_eq_set_acct_at _ _ _ _ Hx (nc_sub_balance _ _ _ Hb)) (nc_eq_accts _ _ eq_refl)).
  - apply nc_eq_accts. reflexivity.
  - exact (nc_eq_trans _ _ _ (nc_eq_set_acct_at _ _ _ _ Hx (nc_add_balance _ _ _ Hb)) (nc_eq_accts _ _ eq_refl)).
Qed.

Lemma nc_eq_exec_native s2 t l' : exec_native s2 t = Ok l' → nc_eq (work s2) l'.
Proof.
  unfold exec_native. intros H.
  destruct ((t_type t =? TRX_PROPOSAL) || (t_type t =? TRX_VOTING)).
  { apply gov_execute_keeps in H. apply nc_eq_accts, (keeps_accts _ _ _ H I). }
  destruct ((t_type t =? TRX_TRANSFER) || (t_type t =? TRX_SETDOC)).
  { eapply nc_eq_acct_execute. exact H. }
  eapply nc_eq_stake_execute. exact H.
Qed.

Lemma nc_eq_pre s t : nc_eq (work s) (work (pre s t)).
Proof. apply nc_eq_find_or_new. Qed.

(* ------------------------------------------------------------------ one delivery *)
Lemma deliver_not_ok_nc s t s' r :
  deliver s t = (s', r) → (∀ g, r ≠ Ok g) → nc_eq (work s) (work s').
Proof.
  intros H Hr. apply deliver_cases in H.
  destruct H as [_|? ? _ _|? lim' ? ? _ _ _ _ [? _|l' gas _ _|l' ? _ Hx _ _|l' ? ? _ _ _ _]].
  - apply nc_eq_refl.
  - apply nc_eq_pre.
  - apply nc_eq_pre.
  - destruct (Hr gas eq_refl).
  - eapply nc_eq_trans; [apply nc_eq_pre|apply (nc_eq_exec_native _ _ _ Hx)].
  - destruct (Hr _ eq_refl).
Qed.

Lemma deliver_not_ok_nonce s t s' r :
  deliver s t = (s', r) → (∀ g, r ≠ Ok g) → ∀ a, nonce_of (work s') a = nonce_of (work s) a.
Proof. intros H Hr a. apply nc_eq_nonce. exact (deliver_not_ok_nc _ _ _ _ H Hr). Qed.

(* Failed transactions leave every nonce unchanged.  This is stronger than the corollary of
   C05 (deliver_fail_no_effect): it needs none of the range hypotheses. *)
Theorem deliver_fail_nonce s t s' e :
  deliver s t = (s', Err e) → ∀ a, nonce_of (work s') a = nonce_of (work s) a.
Proof. intros H. apply (deliver_not_ok_nonce _ _ _ _ H). discriminate. Qed.
Print Assumptions deliver_fail_nonce.

Lemma deliver_native_ok_nc s t s' g :
  evm_path s t = false → deliver s t = (s', Ok g) →
  ∀ a, nc_of (work s') a =
       if decide (a = t_from t) then ((t_nonce t + 1) mod two64, (nc_of (work s) a).2) else nc_of (work s) a.
Proof.
  intros Hp H. pose proof (deliver_ok_nonce _ _ _ _ H) as Hn.
  apply deliver_ok_cases in H as (sender & lim' & _ & _ & _ & _ & H).
  apply finished_ok in H as [[Hp' _]|(_ & _ & l' & snd' & snd'' & Hx & Hl & Hsb & ->)]; [congruence|].
  apply nc_eq_exec_native in Hx. cbn [work with_lim] in Hx.
  assert (Hnc : nc_eq (work s) l') by (eapply nc_eq_trans; [apply nc_eq_pre|exact Hx]).
  apply nc_sub_balance in Hsb.
  intros a. cbn [work add_fee with_bctx with_work]. unfold nc_of at 1. rewrite acct_of_set_acct.
  destruct (decide (a = t_from t)) as [->|Hne].
  - rewrite decide_True by reflexivity.
    pose proof (Hnc (t_from t)) as Hf. unfold nc_of at 2 in Hf. rewrite (acct_of_lookup _ _ _ Hl) in Hf.
    rewrite <- Hsb in Hf. rewrite Hf. unfold nc in *. cbn.
    injection Hf as Hf1 Hf2. rewrite <- Hf1.
    unfold nonce_of in Hn. unfold nc_of, nc in Hf1. cbn in Hf1. rewrite <- Hn. reflexivity.
  - rewrite decide_False by congruence. symmetry. apply Hnc.
Qed.

Lemma evm_path_spec s t :
  evm_path s t = (t_type t =? TRX_CONTRACT) || ((t_type t =? TRX_TRANSFER) && a_code (acct_of (work s) (t_to t))).
Proof. unfold evm_path, receiver_of. rewrite find_or_new_snd. reflexivity. Qed.

Lemma native_path s t :
  t_type t ≠ TRX_CONTRACT → a_code (acct_of (work s) (t_to t)) = false → evm_path s t = false.
Proof.
  intros Hty Hc. rewrite evm_path_spec, Hc. apply Z.eqb_neq in Hty. rewrite Hty.
  rewrite andb_false_r. reflexivity.
Qed.

(* Intended statement, native path: success means the nonce matched, the sender's nonce goes
   up by one (modulo 2^64, as Go's uint64 does) and no other nonce moves. *)
Theorem deliver_ok_nonce_step s t s' g :
  t_type t ≠ TRX_CONTRACT → a_code (acct_of (work s) (t_to t)) = false →
  deliver s t = (s', Ok g) →
  nonce_of (work s) (t_from t) = t_nonce t ∧
  nonce_of (work s') (t_from t) = (t_nonce t + 1) mod two64 ∧
  ∀ a, a ≠ t_from t → nonce_of (work s') a = nonce_of (work s) a.
Proof.
  intros Hty Hc H. split; [eapply deliver_ok_nonce; exact H|].
  pose proof (deliver_native_ok_nc _ _ _ _ (native_path _ _ Hty Hc) H) as Hnc.
  split.
  - specialize (Hnc (t_from t)). rewrite decide_True in Hnc by reflexivity.
    unfold nc_of, nc in Hnc. unfold nonce_of. congruence.
  - intros a Ha. specialize (Hnc a). rewrite decide_False in Hnc by exact Ha.
    unfold nc_of, nc in Hnc. unfold nonce_of. congruence.
Qed.
Print Assumptions deliver_ok_nonce_step.

Lemma deliver_native_code s t s' r :
  evm_path s t = false → deliver s t = (s', r) →
  ∀ a, a_code (acct_of (work s') a) = a_code (acct_of (work s) a).
Proof.
  intros Hp H a. destruct r as [g|e|p].
  - pose proof (deliver_native_ok_nc _ _ _ _ Hp H a) as Hnc.
    destruct (decide (a = t_from t)); unfold nc_of, nc in Hnc; cbn in Hnc; congruence.
  - apply nc_eq_code. eapply deliver_not_ok_nc; [exact H|discriminate].
  - apply nc_eq_code. eapply deliver_not_ok_nc; [exact H|discriminate].
Qed.

(* ------------------------------------------------------------------ the EVM path *)
(* the nonce the observed effect assigns to an address: that of its last entry, if any *)
Definition eff_step (a : addr) (acc : option Z) (x : addr * Z * Z) : option Z :=
  let '(b, _, n) := x in if (b =? a)%N then Some n else acc.
Definition eff_nonce (xs : list (addr * Z * Z)) (a : addr) : option Z := foldl (eff_step a) None xs.

Definition eff_write (l : ledgers) (x : addr * Z * Z) : ledgers :=
  let '(a, bal, nonce) := x in
  let old := default acct0 (accts l !! a) in
  set_acct l a {| a_nonce := nonce; a_bal := bal; a_code := a_code old; a_name := a_name old; a_doc := a_doc old |}.

Lemma eff_write_fold a n0 xs : ∀ l acc,
  nonce_of l a = default n0 acc →
  nonce_of (foldl eff_write l xs) a = default n0 (foldl (eff_step a) acc xs).
Proof.
  induction xs as [|[[b bal] n] xs IH]; intros l acc H; [exact H|].
  cbn [foldl]. apply IH. unfold eff_write, eff_step, nonce_of. rewrite acct_of_set_acct.
  destruct (decide (b = a)) as [->|Hne].
  - rewrite N.eqb_refl. reflexivity.
  - apply N.eqb_neq in Hne. rewrite Hne. exact H.
Qed.

Lemma evm_execute_nonce l t l' gas :
  evm_execute l t = Ok (l', gas) →
  ∃ e, t_evm t = Some e ∧ e_ok e = true ∧ gas = e_gas e ∧
       ∀ a, nonce_of l' a = default (nonce_of l a) (eff_nonce (e_accts e) a).
Proof.
  unfold evm_execute. intros H. destruct (t_evm t) as [e|]; [|discriminate].
  destruct (e_ok e) eqn:Eok; [|discriminate]. cbn [negb] in H. injection H as <- <-.
  exists e. repeat split; [exact Eok|]. intros a.
  assert (Hf : nonce_of (foldl eff_write l (e_accts e)) a = default (nonce_of l a) (eff_nonce (e_accts e) a))
    by (apply eff_write_fold; reflexivity).
  change (foldl _ l (e_accts e)) with (foldl eff_write l (e_accts e)).
  destruct (e_created e) as [c|]; [|exact Hf].
  rewrite <- Hf. unfold nonce_of. rewrite acct_of_set_acct.
  destruct (decide (c = a)) as [->|_]; reflexivity.
Qed.

Theorem deliver_ok_nonce_evm s t s' g :
  evm_path s t = true → deliver s t = (s', Ok g) →
  nonce_of (work s) (t_from t) = t_nonce t ∧
  ∃ e, t_evm t = Some e ∧ e_ok e = true ∧
       ∀ a, nonce_of (work s') a = default (nonce_of (work s) a) (eff_nonce (e_accts e) a).
Proof.
  intros Hp H. split; [eapply deliver_ok_nonce; exact H|].
  apply deliver_ok_cases in H as (sender & lim' & _ & _ & _ & _ & H).
  apply finished_ok in H as [(_ & l' & Hx & ->)|[Hp' _]]; [|congruence].
  apply evm_execute_nonce in Hx as (e & He & Hok & _ & Hn).
  exists e. split; [exact He|]. split; [exact Hok|]. intros a. cbn [work add_fee with_bctx with_work].
  rewrite Hn. cbn [work with_lim]. rewrite (nc_eq_nonce _ _ a (nc_eq_pre s t)). reflexivity.
Qed.
Print Assumptions deliver_ok_nonce_evm.

(* the EVM nonce hypothesis: the effect lists the sender with its nonce raised by one
   (go-ethereum's state transition does exactly this to the message sender) *)
Definition evm_effect_nonce_ok (t : tx) : Prop :=
  ∀ e, t_evm t = Some e → eff_nonce (e_accts e) (t_from t) = Some ((t_nonce t + 1) mod two64).
(* ... and lowers no nonce (nonces of other accounts only move when a contract creates contracts) *)
Definition evm_effect_mono (s : state) (t : tx) : Prop :=
  ∀ e a n, t_evm t = Some e → eff_nonce (e_accts e) a = Some n → nonce_of (work s) a ≤ n.
(* the same for one account.  The history theorem needs it only for the sender it speaks about: the
   EVM does lower a nonce in one case, the self-destruction of a contract (its creation counter goes
   back to 0), and a contract address has no key to send transactions with *)
Definition evm_effect_mono_at (a : addr) (s : state) (t : tx) : Prop :=
  ∀ e n, t_evm t = Some e → eff_nonce (e_accts e) a = Some n → nonce_of (work s) a ≤ n.
Lemma evm_effect_mono_all s t : evm_effect_mono s t ↔ ∀ a, evm_effect_mono_at a s t.
Proof. unfold evm_effect_mono, evm_effect_mono_at. split; intros H; [intros a e n|intros e a n]; apply H. Qed.

Corollary deliver_ok_nonce_step_evm s t s' g :
  evm_path s t = true → evm_effect_nonce_ok t → deliver s t = (s', Ok g) →
  nonce_of (work s) (t_from t) = t_nonce t ∧
  nonce_of (work s') (t_from t) = (t_nonce t + 1) mod two64 ∧
  ∃ e, t_evm t = Some e ∧
       ∀ a, nonce_of (work s') a = default (nonce_of (work s) a) (eff_nonce (e_accts e) a).
Proof.
  intros Hp Hok H. destruct (deliver_ok_nonce_evm _ _ _ _ Hp H) as (Hn & e & He & _ & Ha).
  split; [exact Hn|]. split; [|exists e; split; assumption].
  rewrite Ha, (Hok e He). reflexivity.
Qed.

(* ------------------------------------------------------------------ block boundaries *)
Theorem begin_block_accts s hd : accts (work (begin_block s hd).1) = accts (work s).
Proof.
  destruct (begin_block s hd) as [s' r] eqn:E. exact (keeps_accts _ _ _ (begin_block_keeps _ _ _ _ E) I).
Qed.

Lemma unfreeze_nc base l h l' : unfreeze base l h = Ok l' → nc_eq l l'.
Proof.
  rewrite unfreeze_eq.
  apply (foldl_res_inv (nc_eq l) _ _ (res_stuck_unfreeze _)); [|apply nc_eq_refl].
  intros l1 kp l2 _ H1. cbn [unfreeze_step]. destruct (s_refund kp.2 <=? h); [|intros [= <-]; exact H1].
  destruct (acct_reward l1 (s_from kp.2) (power_to_amount (s_power kp.2))) as [l3|] eqn:Ear; [|discriminate].
  intros [= <-]. apply nc_eq_acct_reward in Ear.
  eapply nc_eq_trans; [exact H1|]. eapply nc_eq_trans; [exact Ear|]. apply nc_eq_accts. reflexivity.
Qed.

Theorem end_block_nc s : nc_eq (work s) (work (end_block s).1).
Proof.
  destruct (end_block s) as [s' r] eqn:E. apply end_block_cases in E.
  destruct E as [r _|l1 l2 np l3 l4 H1 H2 H3 H4 _]; [apply nc_eq_refl|].
  apply freeze_proposals_keeps in H1. apply apply_proposals_keeps in H2. apply unfreeze_nc in H4.
  assert (H12 : nc_eq (work s) l2).
  { apply nc_eq_accts. rewrite (keeps_accts _ _ _ H2 I). apply (keeps_accts _ _ _ H1 I). }
  assert (H23 : nc_eq l2 l3).
  { destruct H3 as [_|pa _ _|pa x _ _ Ea]; [apply nc_eq_refl..|]. apply nc_eq_set_acct, (nc_add_balance _ _ _ Ea). }
  exact (nc_eq_trans _ _ _ H12 (nc_eq_trans _ _ _ H23 H4)).
Qed.

Theorem begin_block_nonce s hd a : nonce_of (work (begin_block s hd).1) a = nonce_of (work s) a.
Proof. unfold nonce_of, acct_of. rewrite begin_block_accts. reflexivity. Qed.
Theorem end_block_nonce s a : nonce_of (work (end_block s).1) a = nonce_of (work s) a.
Proof. apply nc_eq_nonce, end_block_nc. Qed.
Theorem commit_nonce s a : nonce_of (work (commit s)) a = nonce_of (work s) a.
Proof. reflexivity. Qed.
Print Assumptions begin_block_nonce.
Print Assumptions end_block_nonce.
Print Assumptions commit_nonce.

Lemma block_op_nc s o : (∀ t, o ≠ SDeliver t) → nc_eq (work s) (work (sstep s o)).
Proof.
  intros Ho. destruct o as [hd|t| |]; cbn [sstep].
  - apply nc_eq_accts. apply begin_block_accts.
  - exfalso. eapply Ho. reflexivity.
  - apply end_block_nc.
  - apply nc_eq_refl.
Qed.

(* ------------------------------------------------------------------ histories *)
Fixpoint run_ok (P : state → sop → Prop) (s : state) (ops : list sop) : Prop :=
  match ops with [] => True | o :: r => P s o ∧ run_ok P (sstep s o) r end.

Lemma run_ok_app P s l1 l2 : run_ok P s (l1 ++ l2) ↔ run_ok P s l1 ∧ run_ok P (srun s l1) l2.
Proof.
  revert s. induction l1 as [|o l1 IH]; intros s; cbn [app run_ok].
  - unfold srun. cbn. tauto.
  - rewrite IH. unfold srun. cbn [foldl]. tauto.
Qed.

Definition delivered (s : state) (t : tx) : Prop := ∃ g, (deliver s t).2 = Ok g.

(* the hypotheses of the history theorem about account [a]:
   - deliveries that take the EVM path obey the EVM nonce hypothesis (sender's nonce + 1, the
     nonce of [a] not lowered);
   - no successful transaction of [a] carries the last nonce 2^64 - 1 (no wrap-around) *)
Definition hist_ok (a : addr) (s : state) (o : sop) : Prop :=
  match o with
  | SDeliver t =>
      (evm_path s t = true → evm_effect_nonce_ok t ∧ evm_effect_mono_at a s t) ∧
      (t_from t = a → delivered s t → t_nonce t < two64 - 1)
  | _ => True
  end.

(* The history argument, for any per-step condition [P] that gives, for the deliveries that
   SUCCEED: the EVM nonce contract on the EVM path, and no wrap-around for transactions of [a].
   (A delivery that does not succeed changes no nonce whatever effect it carries.) *)
Section nonce_history.
  Variables (a : addr) (P : state → sop → Prop).
  Hypothesis HP : ∀ s t, P s (SDeliver t) →
    (evm_path s t = true → delivered s t → evm_effect_nonce_ok t ∧ evm_effect_mono_at a s t) ∧
    (t_from t = a → delivered s t → t_nonce t < two64 - 1).

  Lemma deliver_step_nonce s t :
    P s (SDeliver t) →
    nonce_of (work s) a ≤ nonce_of (work (deliver s t).1) a ∧
    (t_from t = a → delivered s t →
     nonce_of (work s) a = t_nonce t ∧ t_nonce t < nonce_of (work (deliver s t).1) a).
  Proof.
    intros H. destruct (HP _ _ H) as [Hevm Hwrap]. unfold delivered in *.
    destruct (deliver s t) as [s' r] eqn:Hd. cbn [fst snd] in *.
    destruct r as [g|e|p].
    2,3: rewrite (deliver_not_ok_nonce _ _ _ _ Hd) by discriminate; split; [lia|]; intros _ [g Hg]; discriminate.
    assert (Hdel : ∃ g0, Ok g = Ok g0) by (exists g; reflexivity).
    destruct (evm_path s t) eqn:Hp.
    - destruct (Hevm eq_refl Hdel) as [Hok Hmono].
      destruct (deliver_ok_nonce_step_evm _ _ _ _ Hp Hok Hd) as (Hn & Hn' & e & He & Hall).
      split.
      + rewrite Hall. destruct (eff_nonce (e_accts e) a) as [n|] eqn:En; cbn; [|lia].
        eapply Hmono; eassumption.
      + intros Ea _. split; [rewrite <- Ea; exact Hn|]. rewrite <- Ea, Hn'. apply nonce_succ_gt, Hwrap; assumption.
    - pose proof (deliver_ok_nonce _ _ _ _ Hd) as Hn.
      pose proof (deliver_native_ok_nc _ _ _ _ Hp Hd a) as Hnc.
      destruct (decide (a = t_from t)) as [Ea|Hne].
      + assert (Hn' : nonce_of (work s') a = (t_nonce t + 1) mod two64)
          by (unfold nc_of, nc in Hnc; unfold nonce_of; congruence).
        assert (Hlt : t_nonce t < (t_nonce t + 1) mod two64) by (apply nonce_succ_gt, Hwrap; [congruence|exact Hdel]).
        rewrite Ea in *. split; [lia|]. intros _ _. split; [exact Hn|lia].
      + assert (Hn' : nonce_of (work s') a = nonce_of (work s) a)
          by (unfold nc_of, nc in Hnc; unfold nonce_of; congruence).
        split; [lia|]. intros E. congruence.
  Qed.

  Lemma step_mono s o : P s o → nonce_of (work s) a ≤ nonce_of (work (sstep s o)) a.
  Proof.
    intros H. destruct o as [hd|t| |].
    - cbn [sstep]. rewrite begin_block_nonce. lia.
    - apply deliver_step_nonce. exact H.
    - cbn [sstep]. rewrite end_block_nonce. lia.
    - cbn [sstep]. rewrite commit_nonce. lia.
  Qed.

  Lemma run_mono ops : ∀ s, run_ok P s ops → nonce_of (work s) a ≤ nonce_of (work (srun s ops)) a.
  Proof.
    induction ops as [|o ops IH]; intros s H; [unfold srun; cbn; lia|].
    destruct H as [Ho Hr]. apply step_mono in Ho. specialize (IH _ Hr).
    unfold srun in *. cbn [foldl]. lia.
  Qed.

  (* positions i < j of the run both hold deliveries of [a] with the same nonce: they cannot both
     succeed, since the first raises the nonce of [a] above it and nothing lowers it again *)
  Theorem nonce_used_once_at s0 ops i j t1 t2 :
    run_ok P s0 ops →
    (i < j)%nat → ops !! i = Some (SDeliver t1) → ops !! j = Some (SDeliver t2) →
    delivered (srun s0 (take i ops)) t1 → delivered (srun s0 (take j ops)) t2 →
    t_from t1 = a → t_from t2 = a → t_nonce t2 = t_nonce t1 → False.
  Proof.
    intros Hrun Hij Hi Hj Hd1 Hd2 Hf1 Hf2 Hnonce.
    (* split the run: before i, the delivery of t1, between, the delivery of t2, the rest *)
    assert (Hsplit : take j ops = take i ops ++ SDeliver t1 :: drop (S i) (take j ops)).
    { assert (Hl : take j ops !! i = Some (SDeliver t1)) by (rewrite lookup_take by exact Hij; exact Hi).
      rewrite <- (take_drop_middle _ _ _ Hl) at 1. rewrite take_take. rewrite Nat.min_l by lia. reflexivity. }
    set (mid := drop (S i) (take j ops)) in *.
    assert (Hops : ops = take i ops ++ SDeliver t1 :: mid ++ SDeliver t2 :: drop (S j) ops).
    { rewrite <- (take_drop_middle _ _ _ Hj) at 1. rewrite Hsplit. rewrite <- app_assoc. reflexivity. }
    rewrite Hops in Hrun.
    apply run_ok_app in Hrun as [_ Hrun]. set (si := srun s0 (take i ops)) in *.
    cbn [run_ok] in Hrun. destruct Hrun as [H1 Hrun].
    apply run_ok_app in Hrun as [Hmid Hrun]. cbn [run_ok] in Hrun. destruct Hrun as [H2 _].
    assert (Hsj : srun s0 (take j ops) = srun (sstep si (SDeliver t1)) mid).
    { rewrite Hsplit, srun_app. reflexivity. }
    rewrite Hsj in Hd2. set (sj := srun (sstep si (SDeliver t1)) mid) in *.
    destruct (deliver_step_nonce si t1 H1) as [_ Hs1]. destruct (Hs1 Hf1 Hd1) as [Hn1 Hgt].
    apply run_mono in Hmid. fold sj in Hmid.
    destruct (deliver_step_nonce sj t2 H2) as [_ Hs2]. destruct (Hs2 Hf2 Hd2) as [Hn2 _].
    cbn [sstep] in Hmid. lia.
  Qed.
End nonce_history.

(* Intended statement: a given (sender, nonce) succeeds at most once in any history, within a
   block or across blocks.  Positions i < j of the run both hold deliveries with the same sender
   and nonce; they cannot both succeed. *)
Theorem nonce_used_once s0 ops i j t1 t2 :
  run_ok (hist_ok (t_from t1)) s0 ops →
  (i < j)%nat → ops !! i = Some (SDeliver t1) → ops !! j = Some (SDeliver t2) →
  delivered (srun s0 (take i ops)) t1 → delivered (srun s0 (take j ops)) t2 →
  t_from t2 = t_from t1 → t_nonce t2 = t_nonce t1 → False.
Proof.
  intros Hrun Hij Hi Hj Hd1 Hd2 Hfrom.
  refine (nonce_used_once_at (t_from t1) (hist_ok (t_from t1)) _ s0 ops i j t1 t2 Hrun Hij Hi Hj Hd1 Hd2 eq_refl Hfrom).
  intros s t [H1 H2]. split; [intros Hp _; exact (H1 Hp)|exact H2].
Qed.
Print Assumptions nonce_used_once.

(* ------------------------------------------------------------------ histories without contracts *)
(* state-independent form: no code marker at the start and no TRX_CONTRACT in the run, so every
   delivery takes the native path *)
Definition no_code (l : ledgers) : Prop := ∀ a, a_code (acct_of l a) = false.
Definition native_op (a : addr) (o : sop) : Prop :=
  match o with
  | SDeliver t => t_type t ≠ TRX_CONTRACT ∧ (t_from t = a → t_nonce t < two64 - 1)
  | _ => True
  end.

Lemma native_run_ok a ops : ∀ s, no_code (work s) → Forall (native_op a) ops → run_ok (hist_ok a) s ops.
Proof.
  induction ops as [|o ops IH]; intros s Hc Hf; [exact I|].
  apply Forall_cons in Hf as [Ho Hf]. cbn [run_ok].
  assert (Hnat : ∀ t, o = SDeliver t → evm_path s t = false).
  { intros t ->. destruct Ho as [Hty _]. apply native_path; [exact Hty|apply Hc]. }
  split.
  - destruct o as [hd|t| |]; try exact I. destruct Ho as [Hty Hw].
    split; [rewrite (Hnat t eq_refl); intros ?; discriminate|]. intros E _. apply Hw, E.
  - apply IH; [|exact Hf]. intros b.
    destruct o as [hd|t| |].
    + rewrite (nc_eq_code _ _ b (block_op_nc s (SBegin hd) ltac:(intros ?; discriminate))). apply Hc.
    + cbn [sstep]. destruct (deliver s t) as [s' r] eqn:Hd. cbn [fst].
      rewrite (deliver_native_code _ _ _ _ (Hnat t eq_refl) Hd). apply Hc.
    + rewrite (nc_eq_code _ _ b (block_op_nc s SEnd ltac:(intros ?; discriminate))). apply Hc.
    + rewrite (nc_eq_code _ _ b (block_op_nc s SCommit ltac:(intros ?; discriminate))). apply Hc.
Qed.

Corollary nonce_used_once_native s0 ops i j t1 t2 :
  no_code (work s0) → Forall (native_op (t_from t1)) ops →
  (i < j)%nat → ops !! i = Some (SDeliver t1) → ops !! j = Some (SDeliver t2) →
  delivered (srun s0 (take i ops)) t1 → delivered (srun s0 (take j ops)) t2 →
  t_from t2 = t_from t1 → t_nonce t2 = t_nonce t1 → False.
Proof. intros Hc Hf. apply nonce_used_once. apply native_run_ok; assumption. Qed.
Print Assumptions nonce_used_once_native.

(* ------------------------------------------------------------------ examples *)
Lemma st0_no_code : no_code (work st0).
Proof.
  assert (H : map_Forall (λ _ x, a_code x = false) (accts (work st0)))
    by (apply map_Forall_to_list; vm_compute; repeat constructor).
  intros a. unfold acct_of. destruct (accts (work st0) !! a) as [x|] eqn:E; [|reflexivity].
  exact (H a x E).
Qed.

(* a transfer, a second one, and replays of the first: in the same block, and in the next one *)
Definition tx_a0 := mk_tx TRX_TRANSFER 2%N 3%N 5 10 100 0 PNone.
Definition tx_a1 := mk_tx TRX_TRANSFER 2%N 1%N 7 10 100 1 PNone.
Definition hd2 : header := {| h_height := 2; h_proposer := Some 1%N; h_votes := []; h_evidence := [] |}.
Definition ops_ex : list sop :=
  [SDeliver tx_a0; SDeliver tx_a0; SDeliver tx_a1; SDeliver tx_a0; SEnd; SCommit; SBegin hd2; SDeliver tx_a0].

Example deliver_ok_nonce_step_ex :
  t_type tx_a0 ≠ TRX_CONTRACT ∧ a_code (acct_of (work st0) (t_to tx_a0)) = false ∧
  (deliver st0 tx_a0).2 = Ok 100 ∧
  nonce_of (work st0) 2%N = 0 ∧ nonce_of (work (deliver st0 tx_a0).1) 2%N = 1.
Proof. split; [discriminate|]. repeat split; vm_compute; reflexivity. Qed.

Example nonce_used_once_ex :
  no_code (work st0) ∧ Forall (native_op 2%N) ops_ex ∧
  (deliver (srun st0 (take 0 ops_ex)) tx_a0).2 = Ok 100 ∧
  (deliver (srun st0 (take 1 ops_ex)) tx_a0).2 = Err E_NONCE ∧
  (deliver (srun st0 (take 2 ops_ex)) tx_a1).2 = Ok 100 ∧
  (deliver (srun st0 (take 3 ops_ex)) tx_a0).2 = Err E_NONCE ∧
  (begin_block (srun st0 (take 6 ops_ex)) hd2).2 = Ok 0 ∧
  (deliver (srun st0 (take 7 ops_ex)) tx_a0).2 = Err E_NONCE.
Proof.
  split; [exact st0_no_code|]. split.
  { repeat (apply Forall_cons; split; [first [exact I | split; [discriminate | intros _; reflexivity]]|]).
    apply Forall_nil. exact I. }
  repeat split; vm_compute; reflexivity.
Qed.

Definition tx_evm : tx := {|
  t_type := TRX_CONTRACT; t_from := 2%N; t_to := 0%N; t_from_ok := true; t_to_ok := true; t_amount := 0;
  t_price := 10; t_gas := 100000; t_nonce := 0; t_payload := PContract 53000; t_hash := 78%N; t_sigok := true;
  t_evm := Some {| e_ok := true; e_gas := 60000; e_created := Some 99%N;
                   e_accts := [(2%N, 500 * amountPerPower - 600000, 1); (99%N, 0, 1)] |} |}.

Example deliver_ok_nonce_evm_ex :
  evm_path st0 tx_evm = true ∧ evm_effect_nonce_ok tx_evm ∧ evm_effect_mono st0 tx_evm ∧
  (deliver st0 tx_evm).2 = Ok 60000 ∧ nonce_of (work (deliver st0 tx_evm).1) 2%N = 1.
Proof.
  split; [reflexivity|]. split.
  { intros e [= <-]. reflexivity. }
  split.
  { intros e a n [= <-] Hn. unfold eff_nonce in Hn. cbn [e_accts foldl] in Hn. unfold eff_step in Hn.
    destruct (99 =? a)%N eqn:E99.
    - apply N.eqb_eq in E99. subst a. injection Hn as <-. vm_compute. discriminate.
    - destruct (2 =? a)%N eqn:E2; [|discriminate Hn].
      apply N.eqb_eq in E2. subst a. injection Hn as <-. vm_compute. discriminate. }
  split; vm_compute; reflexivity.
Qed.

(* why the no-wrap hypothesis is there: at nonce 2^64 - 1 a successful delivery takes the
   nonce back to 0 (Go's uint64 increment), after which old transactions would match again *)
Example nonce_wraps :
  ∃ s t, tx_wf t ∧ delivered s t ∧
         nonce_of (work s) (t_from t) = two64 - 1 ∧ nonce_of (work (deliver s t).1) (t_from t) = 0.
Proof.
  pose (s := {|
    committed := [];
    work := {| accts := {[ 1%N := {| a_nonce := 2 ^ 64 - 1; a_bal := 100000; a_code := false; a_name := 0%N; a_doc := 0%N |} ]};
               dels := ∅; frozen := ∅; rewards := ∅; props := ∅; fprops := ∅; lparams := pr0 10 |};
    gparams := pr0 10; newparams := None; alldels := []; lastvals := []; lim := limiter_reset [] (pr0 10);
    bctx := {| b_height := 1; b_proposer := None; b_feesum := 0; b_txs := 0 |}; last_height := 0 |}).
  exists s, (mk_tx TRX_TRANSFER 1%N 2%N 5 10 100 (2 ^ 64 - 1) PNone).
  split; [vm_compute; repeat split; try reflexivity; discriminate|].
  split; [exists 100; vm_compute; reflexivity|]. split; vm_compute; reflexivity.
Qed.
